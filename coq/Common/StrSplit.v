(* Python text primitives used by the mol2 codec (C07): strings as lists of Unicode code points, `str.isspace`,
   argument-less `str.split()`, `str.strip()`, iteration of a text stream over its lines, left/right padding of
   format specs -- with the lemmas the round-trip proof needs.  Section Split is generic in the blank predicate `ws`:
   split of blanks, of a token followed by a blank or by nothing, of a stripped text. *)
From Coq Require Import String Ascii.
From Coq Require Import List Bool NArith Lia.
Import ListNotations.

Definition str := list N.          (* one N per code point *)

Fixpoint u8 (s : string) : str :=  (* ASCII literal -> str *)
  match s with EmptyString => [] | String a r => N_of_ascii a :: u8 r end.

Fixpoint str_eqb (a b : str) : bool :=
  match a, b with
  | [], [] => true
  | x :: a', y :: b' => N.eqb x y && str_eqb a' b'
  | _, _ => false
  end.

Lemma str_eqb_eq a : forall b, str_eqb a b = true <-> a = b.
Proof.
  induction a as [|x a IH]; intros [|y b]; simpl; try easy.
  rewrite andb_true_iff, N.eqb_eq, IH. split; [intros [-> ->]|intros [= -> ->]]; auto.
Qed.

Lemma str_eqb_refl a : str_eqb a a = true.
Proof. now apply str_eqb_eq. Qed.

(* Py_UNICODE_ISSPACE: what str.split() / str.strip() treat as blank.  The 29 code points are checked on every run:
   case CWs of Model/Mol2Text.v compares `filter pyws` below 12289 with CPython's str.isspace. *)
Definition pyws (c : N) : bool :=
  ((9 <=? c) && (c <=? 13) || (28 <=? c) && (c <=? 32) || (c =? 133) || (c =? 160) || (c =? 5760)
   || (8192 <=? c) && (c <=? 8202) || (c =? 8232) || (c =? 8233) || (c =? 8239) || (c =? 8287)
   || (c =? 12288))%N.

(* no blank is a digit, and NL is one: what digits_not_ws (Dec6) and tok_nl_free use *)
Lemma pyws_true c : pyws c = true -> (9 <= c <= 32 \/ 133 <= c <= 12288)%N.
Proof. unfold pyws. rewrite !orb_true_iff, !andb_true_iff, !N.leb_le, !N.eqb_eq. lia. Qed.

Section Split.
Context {A : Type} (ws : A -> bool).

(* Python str.split() with no argument: maximal runs of non-whitespace *)
Fixpoint split_aux (cur : list A) (s : list A) : list (list A) :=
  match s with
  | [] => match cur with [] => [] | _ => [rev cur] end
  | c :: s' => if ws c then match cur with [] => split_aux [] s' | _ => rev cur :: split_aux [] s' end
               else split_aux (c :: cur) s'
  end.
Definition split (s : list A) := split_aux [] s.
Definition all_ws (s : list A) := forallb ws s = true.
Definition tokb (t : list A) : bool := match t with [] => false | _ => forallb (fun c => negb (ws c)) t end.
Definition tok (t : list A) := t <> [] /\ forallb (fun c => negb (ws c)) t = true.

Lemma tokb_tok t : tokb t = true <-> tok t.
Proof. unfold tokb, tok. destruct t; [easy|]. split; [now split|now intros [_ H]]. Qed.

Lemma split_aux_tok t : forall cur s, forallb (fun c => negb (ws c)) t = true ->
  split_aux cur (t ++ s) = split_aux (rev t ++ cur) s.
Proof.
  induction t as [|c t IH]; intros cur s H; [reflexivity|]. simpl in H. apply andb_prop in H as [Hc Ht].
  simpl. apply negb_true_iff in Hc. rewrite Hc, IH by exact Ht. simpl. now rewrite <- app_assoc.
Qed.
Lemma split_ws w : forall s, all_ws w -> split (w ++ s) = split s.
Proof.
  unfold split, all_ws. induction w as [|c w IH]; intros s H; [reflexivity|]. simpl in H. apply andb_prop in H as [Hc Hw].
  simpl. rewrite Hc. now apply IH.
Qed.
(* a token is cut off where the text ends or a blank follows *)
Lemma split_tok_cons t s : tok t -> match s with [] => True | c :: _ => ws c = true end -> split (t ++ s) = t :: split s.
Proof.
  intros [Hne Ht] Hs. unfold split. rewrite split_aux_tok, app_nil_r by exact Ht.
  rewrite <- (rev_involutive t) at 2. destruct (rev t) as [|x r] eqn:E.
  - apply (f_equal (@rev A)) in E. rewrite rev_involutive in E. contradiction.
  - destruct s as [|c s]; simpl; [|rewrite Hs]; reflexivity.
Qed.

(* a written line: optional leading blanks, tokens each followed by a NON-EMPTY blank separator,
   optional last token without separator *)
Fixpoint line (pairs : list (list A * list A)) (last : list A) : list A :=
  match pairs with [] => last | (t, sep) :: ps => t ++ sep ++ line ps last end.

(* the mol2 lemmas do not go through this theorem: a right-aligned field's padding would have to be counted with
   the separator before it; they use split_tok_cons and split_ws field by field *)
Theorem split_line lead pairs last :
  all_ws lead -> Forall (fun p => tok (fst p) /\ snd p <> [] /\ all_ws (snd p)) pairs -> (last = [] \/ tok last) ->
  split (lead ++ line pairs last) = map fst pairs ++ (match last with [] => [] | _ => [last] end).
Proof.
  intros Hl Hp Hlast. rewrite split_ws by exact Hl. clear lead Hl.
  induction Hp as [|[t sep] ps [Ht [Hne Hs]] _ IH]; simpl in *.
  - destruct Hlast as [->|Ht]; [reflexivity|]. rewrite <- (app_nil_r last) at 1. rewrite split_tok_cons by easy.
    destruct last; [now destruct Ht|reflexivity].
  - destruct sep as [|c sep]; [contradiction|].
    rewrite split_tok_cons, split_ws, IH; [reflexivity|exact Hs|exact Ht|exact (proj1 (andb_prop _ _ Hs))].
Qed.

(* trailing blanks do not matter to split *)
Lemma split_aux_app_ws s : forall cur w, all_ws w -> split_aux cur (s ++ w) = split_aux cur s.
Proof.
  induction s as [|c s IH]; intros cur w Hw.
  - simpl. revert cur. induction w as [|c w IH]; intros cur; [reflexivity|]. apply andb_prop in Hw as [Hc Hw].
    simpl. rewrite Hc, (IH Hw []). now destruct cur.
  - simpl. destruct (ws c); [destruct cur|]; now rewrite IH.
Qed.

(* str.strip() *)
Fixpoint lstrip (s : list A) : list A :=
  match s with [] => [] | c :: s' => if ws c then lstrip s' else s end.
Fixpoint rstrip (s : list A) : list A :=
  match s with
  | [] => []
  | c :: s' => match rstrip s' with [] => if ws c then [] else [c] | r => c :: r end
  end.
Definition strip (s : list A) := rstrip (lstrip s).

Lemma lstrip_split s : split (lstrip s) = split s.
Proof.
  unfold split. induction s as [|c s IH]; [reflexivity|]. simpl. destruct (ws c) eqn:E; [exact IH|].
  simpl. now rewrite E.
Qed.
Lemma rstrip_spec s : exists w, all_ws w /\ s = rstrip s ++ w.
Proof.
  induction s as [|c s [w [Hw IH]]]; [now exists []|].
  simpl. destruct (rstrip s) as [|r rs]; [destruct (ws c) eqn:Ec|]; simpl in IH.
  - exists (c :: w). unfold all_ws in *. simpl. now rewrite Ec, IH.
  - exists w. now rewrite IH.
  - exists w. now rewrite IH at 1.
Qed.
Lemma rstrip_split s : split (rstrip s) = split s.
Proof.
  destruct (rstrip_spec s) as [w [Hw E]]. rewrite E at 2. unfold split. now rewrite split_aux_app_ws.
Qed.
Lemma strip_split s : split (strip s) = split s.
Proof. unfold strip. now rewrite rstrip_split, lstrip_split. Qed.

Lemma rstrip_tok_end s t : tok t -> rstrip (s ++ t) = s ++ t.
Proof.
  intros [Hne Ht]. induction s as [|c s IH].
  - simpl. induction t as [|c t IHt]; [easy|]. simpl in Ht. apply andb_prop in Ht as [Hc Ht].
    apply negb_true_iff in Hc. simpl. destruct t as [|d t]; [simpl; now rewrite Hc|]. now rewrite IHt.
  - simpl. rewrite IH. destruct (s ++ t) eqn:E; [|reflexivity]. now apply app_eq_nil in E.
Qed.
End Split.

Arguments tok {A} ws t.
Arguments tokb {A} ws t.
Arguments all_ws {A} ws s.

(* Iterating a StringIO yields the segments ended by "\n" (newline is not translated) and a final
   unterminated segment when it is not empty.  The terminator is dropped here because every consumer
   strips the line. *)
Definition NL : N := 10%N.
Fixpoint lines_aux (cur : str) (s : str) : list str :=
  match s with
  | [] => match cur with [] => [] | _ => [rev cur] end
  | c :: s' => if N.eqb c NL then rev cur :: lines_aux [] s' else lines_aux (c :: cur) s'
  end.
Definition lines_of (s : str) : list str := lines_aux [] s.
Definition nl_free (l : str) : Prop := forallb (fun c => negb (N.eqb c NL)) l = true.
Definition text_of (ls : list str) : str := concat (map (fun l => l ++ [NL]) ls).

Lemma lines_aux_nlfree l : forall cur s, nl_free l -> lines_aux cur (l ++ s) = lines_aux (rev l ++ cur) s.
Proof.
  unfold nl_free. induction l as [|c l IH]; intros cur s H; [reflexivity|]. simpl in H. apply andb_prop in H as [Hc Hl].
  apply negb_true_iff in Hc. simpl. rewrite Hc, IH by exact Hl. simpl. now rewrite <- app_assoc.
Qed.
Lemma lines_of_cons l s : nl_free l -> lines_of (l ++ NL :: s) = l :: lines_of s.
Proof. intros H. unfold lines_of. rewrite lines_aux_nlfree, app_nil_r by exact H. simpl. now rewrite rev_involutive. Qed.
Theorem lines_of_text ls : Forall nl_free ls -> lines_of (text_of ls) = ls.
Proof.
  induction 1 as [|l ls Hl _ IH]; [reflexivity|]. unfold text_of in *. simpl. rewrite <- app_assoc. simpl.
  now rewrite lines_of_cons, IH.
Qed.

Lemma tok_nl_free t : tok pyws t -> nl_free t.
Proof.
  unfold nl_free. intros [_ H]. rewrite forallb_forall in *. intros c Hc. specialize (H c Hc).
  destruct (N.eqb_spec c NL) as [->|]; [discriminate H|reflexivity].
Qed.
Lemma nl_free_app a b : nl_free a -> nl_free b -> nl_free (a ++ b).
Proof. unfold nl_free. intros. rewrite forallb_app. now apply andb_true_intro. Qed.

Definition SP : N := 32%N.
Definition spaces (n : nat) : str := repeat SP n.
Definition lpad (w : nat) (t : str) : str := spaces (w - length t) ++ t.   (* {t:>w} *)
Definition rpad (w : nat) (t : str) : str := t ++ spaces (w - length t).   (* {t:<w} *)

Lemma spaces_ws n : all_ws pyws (spaces n).
Proof. induction n; [reflexivity|exact IHn]. Qed.
Lemma spaces_nl_free n : nl_free (spaces n).
Proof. induction n; [reflexivity|exact IHn]. Qed.
