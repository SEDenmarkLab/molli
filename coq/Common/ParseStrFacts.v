(* Lemmas about Common/ParseStr.v: split of a token followed by a blank, strip, the round trips int(str(n)) and float(format(x, ".6f")); that int()
   accepts one-token lines only; and what cutting a line after b characters does to its tokens (split_firstn, nprefix). *)
From Coq Require Import List Bool NArith ZArith Ascii Lia.
From Molli Require Import Common.ParseStr.
From Molli Require Common.StrSplit.
Import ListNotations.
Local Open Scope char_scope.
Local Open Scope list_scope.

Lemma ascii_eqb_eq a b : ascii_eqb a b = true <-> a = b.
Proof. unfold ascii_eqb. apply Ascii.eqb_eq. Qed.
Lemma ascii_eqb_refl a : ascii_eqb a a = true.
Proof. now apply ascii_eqb_eq. Qed.
Lemma ascii_eqb_neq a b : a <> b -> ascii_eqb a b = false.
Proof. intros H. destruct (ascii_eqb a b) eqn:E; [|reflexivity]. apply ascii_eqb_eq in E. contradiction. Qed.
Lemma str_eqb_eq a : forall b, str_eqb a b = true <-> a = b.
Proof.
  induction a as [|x a IH]; intros [|y b]; simpl; split; intros H; try reflexivity; try discriminate.
  - apply andb_prop in H. destruct H as [H1 H2]. apply ascii_eqb_eq in H1. apply IH in H2. now subst.
  - injection H as -> ->. rewrite ascii_eqb_refl. simpl. now apply IH.
Qed.
Lemma str_eqb_refl a : str_eqb a a = true.
Proof. now apply str_eqb_eq. Qed.

(* a token is a non-empty run of non-blank characters; all_ws: what stands between two tokens *)
Definition nonws (c : ascii) : bool := negb (is_ws c).
Definition all_ws (s : str) : Prop := forallb is_ws s = true.
Definition tok (t : str) : Prop := t <> [] /\ forallb nonws t = true.

(* `split_aux` is Common/StrSplit.v's `split_aux` at the alphabet `ascii` with `is_ws` for the blanks (the two fixpoints are
   convertible), so the lemmas about cutting tokens are that file's *)
Lemma split_aux_tok t : forall cur s, forallb nonws t = true -> split_aux cur (t ++ s) = split_aux (rev t ++ cur) s.
Proof. exact (StrSplit.split_aux_tok is_ws t). Qed.
Lemma split_ws w : forall s, all_ws w -> split (w ++ s) = split s.
Proof. exact (StrSplit.split_ws is_ws w). Qed.
Lemma split_all_ws w : all_ws w -> split w = [].
Proof. intros H. rewrite <- (app_nil_r w). rewrite split_ws by exact H. reflexivity. Qed.
Lemma split_tok_sep t c s : tok t -> is_ws c = true -> split (t ++ c :: s) = t :: split s.
Proof.
  intros Ht Hc. rewrite <- (split_ws [c] s) by (unfold all_ws; simpl; now rewrite Hc).
  exact (StrSplit.split_tok_cons is_ws t (c :: s) Ht Hc).
Qed.
Lemma split_tok_end t : tok t -> split t = [t].
Proof. intros H. rewrite <- (app_nil_r t) at 1. exact (StrSplit.split_tok_cons is_ws t [] H I). Qed.

Lemma forallb_rev {A} (f : A -> bool) l : forallb f (rev l) = forallb f l.
Proof.
  induction l as [|a l IH]; [reflexivity|]. simpl. rewrite forallb_app, IH. simpl. rewrite andb_true_r. apply andb_comm.
Qed.

Lemma drop_ws_decomp s : exists w, s = w ++ drop_ws s /\ all_ws w.
Proof.
  induction s as [|c s [w [E Hw]]]; [exists []; split; reflexivity|]. simpl. destruct (is_ws c) eqn:Hc.
  - exists (c :: w). split; [simpl; now rewrite <- E|]. unfold all_ws. simpl. now rewrite Hc.
  - exists []. split; reflexivity.
Qed.
Lemma drop_ws_nonws c s : is_ws c = false -> drop_ws (c :: s) = c :: s.
Proof. intros H. simpl. now rewrite H. Qed.
Lemma strip_decomp s : exists w1 w2, s = w1 ++ strip s ++ w2 /\ all_ws w1 /\ all_ws w2.
Proof.
  destruct (drop_ws_decomp s) as [w1 [E1 H1]]. destruct (drop_ws_decomp (rev (drop_ws s))) as [w2 [E2 H2]].
  exists w1, (rev w2). repeat split; [|exact H1|unfold all_ws; now rewrite forallb_rev].
  unfold strip. rewrite <- rev_app_distr, <- E2, rev_involutive. exact E1.
Qed.
Lemma strip_tok t : tok t -> strip t = t.
Proof.
  intros [Hne Ht]. unfold strip. destruct t as [|c t]; [contradiction|].
  simpl in Ht. apply andb_prop in Ht. destruct Ht as [Hc Ht]. unfold nonws in Hc. apply negb_true_iff in Hc.
  rewrite drop_ws_nonws by exact Hc.
  assert (Hr : forallb nonws (rev (c :: t)) = true).
  { rewrite forallb_rev. simpl. unfold nonws at 1. now rewrite Hc, Ht. }
  destruct (rev (c :: t)) as [|d r] eqn:E.
  - apply (f_equal (@rev ascii)) in E. rewrite rev_involutive in E. discriminate.
  - simpl in Hr. apply andb_prop in Hr. destruct Hr as [Hd _]. unfold nonws in Hd. apply negb_true_iff in Hd.
    rewrite drop_ws_nonws by exact Hd. rewrite <- E. apply rev_involutive.
Qed.

(* val_from acc ds: the number read from acc on through the digits ds; stops r: r cannot continue a run of digits (digits_loop
   goes on over a digit and over "_" followed by a digit) *)
Definition dval (c : ascii) : N := match digit_val c with Some d => d | None => 0%N end.
Definition val_from (acc : N) (s : str) : N := fold_left (fun a c => (a * 10 + dval c)%N) s acc.
Definition stops (r : str) : Prop := match r with [] => True | c :: _ => is_digit c = false /\ c <> "_" end.
Definition all_digits (s : str) : Prop := forallb is_digit s = true.

(* one sweep over the 256 characters for everything a decimal digit is not *)
Lemma is_digit_facts c : is_digit c = true ->
  nonws c = true /\ ascii_eqb c "_" = false /\ ascii_eqb c "-" = false /\ ascii_eqb c "+" = false /\ ascii_eqb c "." = false /\
  lower c = c.
Proof. destruct c as [[] [] [] [] [] [] [] []]; (discriminate || (intros _; vm_compute; auto 10)). Qed.
Lemma is_digit_nonws c : is_digit c = true -> nonws c = true.
Proof. intros H. apply (is_digit_facts c H). Qed.
Lemma is_digit_val c : is_digit c = true -> digit_val c = Some (dval c).
Proof. unfold is_digit, dval. destruct (digit_val c); [reflexivity|discriminate]. Qed.
Lemma is_digit_not_us c : is_digit c = true -> ascii_eqb c "_" = false.
Proof. intros H. apply (is_digit_facts c H). Qed.
Lemma is_digit_not_sign c : is_digit c = true -> ascii_eqb c "-" = false /\ ascii_eqb c "+" = false /\ ascii_eqb c "." = false.
Proof. intros H. destruct (is_digit_facts c H) as (_ & _ & H1 & H2 & H3 & _). auto. Qed.
Lemma is_digit_lower c : is_digit c = true -> lower c = c.
Proof. intros H. apply (is_digit_facts c H). Qed.
Lemma all_digits_nonws s : all_digits s -> forallb nonws s = true.
Proof.
  unfold all_digits. induction s as [|c s IH]; [reflexivity|]. simpl. intros H. apply andb_prop in H. destruct H as [Hc Hs].
  rewrite is_digit_nonws by exact Hc. now apply IH.
Qed.

Lemma digit_char_ok d : (d < 10)%N -> is_digit (digit_char d) = true /\ dval (digit_char d) = d.
Proof.
  intros H.
  assert (E : (d = 0 \/ d = 1 \/ d = 2 \/ d = 3 \/ d = 4 \/ d = 5 \/ d = 6 \/ d = 7 \/ d = 8 \/ d = 9)%N) by lia.
  repeat (destruct E as [->|E]; [split; reflexivity|]). subst. split; reflexivity.
Qed.

Lemma digits_loop_stop acc n r : stops r -> digits_loop acc n r = (acc, n, r).
Proof.
  destruct r as [|c r]; [reflexivity|]. intros [Hd Hu]. simpl. unfold is_digit in Hd.
  destruct (digit_val c); [discriminate|]. now rewrite ascii_eqb_neq.
Qed.
Lemma digits_loop_digits ds : forall acc n r, all_digits ds -> stops r ->
  digits_loop acc n (ds ++ r) = (val_from acc ds, (n + List.length ds)%nat, r).
Proof.
  induction ds as [|c ds IH]; intros acc n r Hd Hr.
  - simpl. rewrite Nat.add_0_r. now apply digits_loop_stop.
  - unfold all_digits in Hd. simpl in Hd. apply andb_prop in Hd. destruct Hd as [Hc Hds].
    simpl. rewrite (is_digit_val c Hc). rewrite IH by assumption. f_equal. f_equal. simpl. lia.
Qed.
Lemma take_digits_all ds r : ds <> [] -> all_digits ds -> stops r ->
  take_digits (ds ++ r) = Some (val_from 0 ds, List.length ds, r).
Proof.
  intros Hne Hd Hr. destruct ds as [|c ds]; [contradiction|].
  unfold all_digits in Hd. simpl in Hd. apply andb_prop in Hd. destruct Hd as [Hc Hds].
  simpl. rewrite (is_digit_val c Hc). rewrite digits_loop_digits by assumption. reflexivity.
Qed.

Lemma val_from_app acc a b : val_from acc (a ++ b) = val_from (val_from acc a) b.
Proof. unfold val_from. apply fold_left_app. Qed.

Lemma all_digits_app a b : all_digits a -> all_digits b -> all_digits (a ++ b).
Proof. unfold all_digits. intros Ha Hb. now rewrite forallb_app, Ha, Hb. Qed.

Lemma fixed_digits_ok w : forall f, all_digits (fixed_digits w f) /\ List.length (fixed_digits w f) = w /\
                                    val_from 0 (fixed_digits w f) = (f mod 10 ^ N.of_nat w)%N.
Proof.
  induction w as [|w IH]; intros f.
  - repeat split. simpl. now rewrite N.mod_1_r.
  - destruct (IH (f / 10)%N) as [Hd [Hl Hv]].
    assert (Hm : (f mod 10 < 10)%N) by (apply N.mod_lt; lia).
    destruct (digit_char_ok _ Hm) as [Hc Hcv].
    cbn [fixed_digits]. repeat split.
    + apply all_digits_app; [exact Hd|]. unfold all_digits. simpl. now rewrite Hc.
    + rewrite app_length, Hl. simpl. lia.
    + rewrite val_from_app, Hv. cbn [val_from fold_left]. rewrite Hcv.
      rewrite Nat2N.inj_succ, N.pow_succ_r by lia.
      rewrite (N.mod_mul_r f 10 (10 ^ N.of_nat w)) by (try lia; apply N.pow_nonzero; lia). lia.
Qed.

Lemma drop_zeros_ok s : all_digits s -> all_digits (drop_zeros s) /\ val_from 0 (drop_zeros s) = val_from 0 s.
Proof.
  induction s as [|c s IH]; intros H; [split; [exact H|reflexivity]|].
  unfold all_digits in H. simpl in H. apply andb_prop in H. destruct H as [Hc Hs]. simpl.
  destruct (ascii_eqb c "0") eqn:E.
  - apply ascii_eqb_eq in E. subst c. destruct (IH Hs) as [H1 H2]. split; [exact H1|]. rewrite H2. reflexivity.
  - split; [|reflexivity]. unfold all_digits. simpl. now rewrite Hc, Hs.
Qed.

Lemma print_N_ok n : all_digits (print_N n) /\ print_N n <> [] /\ val_from 0 (print_N n) = n.
Proof.
  unfold print_N. set (w := N.to_nat (N.size n)).
  destruct (fixed_digits_ok w n) as [Hd [_ Hv]]. destruct (drop_zeros_ok _ Hd) as [Hd' Hv'].
  assert (Hn : (n mod 10 ^ N.of_nat w = n)%N).
  { apply N.mod_small. unfold w. rewrite N2Nat.id. eapply N.lt_le_trans; [apply N.size_gt|].
    apply N.pow_le_mono_l. lia. }
  destruct (drop_zeros (fixed_digits w n)) as [|c r] eqn:E.
  - repeat split; [discriminate|]. simpl in Hv'. rewrite Hv, Hn in Hv'. now rewrite <- Hv'.
  - repeat split; [exact Hd'|discriminate|]. now rewrite Hv', Hv, Hn.
Qed.

Lemma all_digits_tok s : s <> [] -> all_digits s -> tok s.
Proof. intros Hne Hd. split; [exact Hne|now apply all_digits_nonws]. Qed.

(* int(str(n)) = n *)
Lemma parse_int_print_N n : parse_int (print_N n) = Some (Z.of_N n).
Proof.
  destruct (print_N_ok n) as [Hd [Hne Hv]]. unfold parse_int. rewrite strip_tok by (now apply all_digits_tok).
  destruct (print_N n) as [|c s] eqn:E; [contradiction|].
  assert (Hc : is_digit c = true) by (unfold all_digits in Hd; simpl in Hd; now apply andb_prop in Hd).
  destruct (is_digit_not_sign c Hc) as [H1 [H2 _]]. unfold take_sign. rewrite H1, H2.
  rewrite <- (app_nil_r (c :: s)). rewrite take_digits_all; [|discriminate|exact Hd|exact I]. rewrite Hv. reflexivity.
Qed.

Lemma print_dec6_tok neg mag : tok (print_dec6 neg mag).
Proof.
  unfold print_dec6. destruct (print_N_ok (mag / million)) as [Hd [Hne _]].
  destruct (fixed_digits_ok 6 (mag mod million)) as [Hf _].
  split.
  - destruct neg; simpl; [discriminate|]. destruct (print_N (mag / million)); [contradiction|discriminate].
  - rewrite forallb_app, forallb_app. rewrite (all_digits_nonws _ Hd). cbn [forallb]. rewrite (all_digits_nonws _ Hf).
    destruct neg; reflexivity.
Qed.

(* a string that starts with a digit is not a word that starts with a letter ("inf", "infinity", "nan") *)
Lemma not_word_digit c s d w : is_digit c = true -> is_digit d = false -> str_eqb (map lower (c :: s)) (d :: w) = false.
Proof.
  intros Hc Hd. simpl. rewrite (is_digit_lower c Hc).
  destruct (ascii_eqb c d) eqn:E; [|reflexivity]. apply ascii_eqb_eq in E. congruence.
Qed.

Lemma parse_number_dec6 mag :
  parse_number (print_N (mag / million) ++ "." :: fixed_digits 6 (mag mod million)) = Some (mag, (-6)%Z).
Proof.
  destruct (print_N_ok (mag / million)) as [Hd [Hne Hv]].
  destruct (fixed_digits_ok 6 (mag mod million)) as [Hf [Hl Hfv]].
  unfold parse_number. rewrite take_digits_all; [|exact Hne|exact Hd|split; [reflexivity|discriminate]].
  cbn [ascii_eqb]. replace (ascii_eqb "." ".") with true by reflexivity.
  rewrite <- (app_nil_r (fixed_digits 6 (mag mod million))).
  rewrite take_digits_all; [|destruct (fixed_digits 6 (mag mod million)); [discriminate Hl|discriminate]|exact Hf|exact I].
  cbn [parse_exp option_map]. rewrite Hv, Hfv, Hl. change (pow10 6) with million. f_equal. f_equal.
  change (10 ^ N.of_nat 6)%N with million. rewrite N.mod_mod by (unfold million; lia).
  rewrite N.mul_comm. symmetry. apply N.div_mod. unfold million. lia.
Qed.

Lemma parse_float_digit_head (neg0 : bool) c r m e :
  is_digit c = true -> tok ((if neg0 then ["-"] else @nil ascii) ++ c :: r) -> parse_number (c :: r) = Some (m, e) ->
  parse_float ((if neg0 then ["-"] else @nil ascii) ++ c :: r) = Some (FNum neg0 m e).
Proof.
  intros Hc Htok Hp. unfold parse_float. rewrite strip_tok by exact Htok.
  destruct (is_digit_not_sign c Hc) as [H1 [H2 _]].
  assert (W1 : str_eqb (map lower (c :: r)) w_inf || str_eqb (map lower (c :: r)) w_infinity = false).
  { apply orb_false_iff; split; (apply not_word_digit; [exact Hc|reflexivity]). }
  assert (W2 : str_eqb (map lower (c :: r)) w_nan = false).
  { apply not_word_digit; [exact Hc|reflexivity]. }
  destruct neg0.
  - change (["-"] ++ c :: r) with ("-" :: c :: r). unfold take_sign.
    replace (ascii_eqb "-" "-") with true by reflexivity. rewrite W1, W2, Hp. reflexivity.
  - change ([] ++ c :: r) with (c :: r). unfold take_sign. rewrite H1, H2. rewrite W1, W2, Hp. reflexivity.
Qed.

Theorem parse_float_print_dec6 neg mag : parse_float (print_dec6 neg mag) = Some (FNum neg mag (-6)).
Proof.
  pose proof (print_dec6_tok neg mag) as Htok. pose proof (parse_number_dec6 mag) as Hp. unfold print_dec6 in *.
  destruct (print_N_ok (mag / million)) as [Hd [Hne _]].
  destruct (print_N (mag / million)) as [|c s] eqn:E; [contradiction|].
  assert (Hc : is_digit c = true) by (unfold all_digits in Hd; simpl in Hd; now apply andb_prop in Hd).
  change ((c :: s) ++ "." :: fixed_digits 6 (mag mod million)) with (c :: (s ++ "." :: fixed_digits 6 (mag mod million))) in *.
  now apply parse_float_digit_head.
Qed.

Lemma blanks_ws n : all_ws (blanks n).
Proof. unfold all_ws, blanks. induction n; [reflexivity|]. simpl. exact IHn. Qed.
Lemma all_ws_app a b : all_ws a -> all_ws b -> all_ws (a ++ b).
Proof. unfold all_ws. intros Ha Hb. now rewrite forallb_app, Ha, Hb. Qed.
Lemma all_ws_cons_blank a : all_ws a -> all_ws (" " :: a).
Proof. unfold all_ws. simpl. auto. Qed.

(* what digits_loop consumed holds no blank.  By induction on a bound of the length, not on s: over "_d" the loop eats two characters *)
Lemma digits_loop_rest_aux k0 : forall s, (List.length s <= k0)%nat -> forall acc n v k r,
  digits_loop acc n s = (v, k, r) -> exists p, s = p ++ r /\ forallb nonws p = true.
Proof.
  induction k0 as [|k0 IH]; intros s Hlen acc n v k r H.
  - destruct s; [|simpl in Hlen; lia]. simpl in H. injection H as _ _ <-. exists []. split; reflexivity.
  - destruct s as [|c s]; simpl in H.
    + injection H as _ _ <-. exists []. split; reflexivity.
    + simpl in Hlen. destruct (digit_val c) eqn:Ec.
      * apply IH in H; [|lia]. destruct H as [p [-> Hp]]. exists (c :: p). split; [reflexivity|].
        simpl. rewrite Hp. rewrite is_digit_nonws; [reflexivity|]. unfold is_digit. now rewrite Ec.
      * destruct (ascii_eqb c "_") eqn:Eu.
        -- destruct s as [|c2 s2].
           ++ injection H as _ _ <-. exists []. split; reflexivity.
           ++ destruct (digit_val c2) eqn:Ec2.
              ** simpl in Hlen. apply IH in H; [|lia]. destruct H as [p [-> Hp]]. exists (c :: c2 :: p). split; [reflexivity|].
                 simpl. rewrite Hp. apply ascii_eqb_eq in Eu. subst c.
                 rewrite (is_digit_nonws c2); [reflexivity|]. unfold is_digit. now rewrite Ec2.
              ** injection H as _ _ <-. exists []. split; reflexivity.
        -- injection H as _ _ <-. exists []. split; reflexivity.
Qed.
Lemma digits_loop_rest acc n s v k r : digits_loop acc n s = (v, k, r) ->
  exists p, s = p ++ r /\ forallb nonws p = true.
Proof. apply (digits_loop_rest_aux (List.length s)). lia. Qed.

(* int(line) succeeds only on a one-token line *)
Lemma parse_int_one_token l z : parse_int l = Some z -> exists t, split l = [t].
Proof.
  unfold parse_int. intros H. destruct (strip_decomp l) as [w1 [w2 [El [H1 H2]]]].
  destruct (take_sign (strip l)) as [neg s] eqn:Es.
  destruct (take_digits s) as [[[v k] r]|] eqn:Et; [|discriminate]. destruct r; [|discriminate].
  assert (Hs : s <> [] /\ forallb nonws s = true).
  { unfold take_digits in Et. destruct s as [|c s']; [discriminate|]. split; [discriminate|].
    destruct (digit_val c) eqn:Ec; [|discriminate]. injection Et as Et.
    apply digits_loop_rest in Et. destruct Et as [p [-> Hp]]. rewrite app_nil_r. simpl. rewrite Hp.
    rewrite is_digit_nonws; [reflexivity|]. unfold is_digit. now rewrite Ec. }
  assert (Hstrip : tok (strip l)).
  { unfold take_sign in Es. destruct (strip l) as [|c r]; [injection Es as _ <-; destruct Hs; contradiction|].
    destruct (ascii_eqb c "-") eqn:E1; [|destruct (ascii_eqb c "+") eqn:E2].
    - injection Es as _ <-. apply ascii_eqb_eq in E1. subst c. split; [discriminate|]. simpl. now destruct Hs as [_ ->].
    - injection Es as _ <-. apply ascii_eqb_eq in E2. subst c. split; [discriminate|]. simpl. now destruct Hs as [_ ->].
    - injection Es as _ <-. exact Hs. }
  exists (strip l). rewrite El at 1. rewrite split_ws by exact H1.
  destruct w2 as [|c w2].
  - rewrite app_nil_r. now apply split_tok_end.
  - unfold all_ws in H2. simpl in H2. apply andb_prop in H2. destruct H2 as [Hc Hw2].
    rewrite split_tok_sep by assumption. now rewrite split_all_ws.
Qed.

(* t is a non-empty prefix of u *)
Definition nprefix (t u : str) : Prop := t <> [] /\ exists r, u = t ++ r.

Lemma split_aux_head cur s : cur <> [] -> exists x rest, split_aux cur s = (rev cur ++ x) :: rest.
Proof.
  revert cur. induction s as [|c s IH]; intros cur Hne.
  - simpl. destruct cur; [contradiction|]. exists [], []. now rewrite app_nil_r.
  - simpl. destruct (is_ws c).
    + destruct cur; [contradiction|]. exists [], (split_aux [] s). now rewrite app_nil_r.
    + destruct (IH (c :: cur)) as [x [rest E]]; [discriminate|]. exists (c :: x), rest. rewrite E. simpl.
      now rewrite <- app_assoc.
Qed.

(* splitting the first b characters of a line gives a prefix of the line's tokens, possibly followed by a
   non-empty prefix of the next token *)
Lemma split_aux_firstn s : forall cur b,
  exists j p, split_aux cur (firstn b s) = firstn j (split_aux cur s) ++ p /\
              (p = [] \/ exists t, p = [t] /\ nprefix t (nth j (split_aux cur s) [])).
Proof.
  induction s as [|c s IH]; intros cur b.
  - rewrite firstn_nil. simpl. destruct cur as [|d cur].
    + exists 0%nat, []. split; [reflexivity|now left].
    + exists 1%nat, []. split; [reflexivity|now left].
  - destruct b as [|b].
    + simpl firstn. destruct cur as [|d cur].
      * exists 0%nat, []. split; [reflexivity|now left].
      * exists 0%nat, [rev (d :: cur)]. split; [reflexivity|]. right. exists (rev (d :: cur)). split; [reflexivity|].
        destruct (split_aux_head (d :: cur) (c :: s)) as [x [rest E]]; [discriminate|]. rewrite E. simpl nth.
        split; [|now exists x]. intros H. apply (f_equal (@rev ascii)) in H. rewrite rev_involutive in H. discriminate.
    + simpl firstn. cbn [split_aux]. destruct (is_ws c).
      * destruct cur as [|d cur].
        -- apply IH.
        -- destruct (IH [] b) as [j [p [E Hp]]]. exists (S j), p. split; [simpl; now rewrite E|exact Hp].
      * apply IH.
Qed.
Lemma split_firstn s b :
  exists j p, split (firstn b s) = firstn j (split s) ++ p /\
              (p = [] \/ exists t, p = [t] /\ nprefix t (nth j (split s) [])).
Proof. apply split_aux_firstn. Qed.
