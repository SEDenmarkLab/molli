(* Decimal text of the numbers a mol2 file carries (C07); named after the six fraction digits of a coordinate, the
   number k of fraction digits is a parameter (6 for coordinates, 3 for charges).
   - print_nat / parse_nat : what f"{i}" writes for a non-negative int and a reader for plain digit strings,
     built on the standard library's N.to_uint / N.of_uint (round trip from DecimalN.Unsigned.of_to);
   - print_fixed k / parse_fixed k : the text of "%.kf" for the value  (-1)^neg * mag / 10^k
     (sign, integer part, ".", exactly k fraction digits) and its reader.
   Round-trip theorems hold for EVERY value, any width.  The link float -> (neg, mag) is CPython's
   correctly rounded `format` (trusted, checked by the correspondence run). *)
From Coq Require Import List Bool NArith ZArith Lia Decimal DecimalN DecimalPos.
From Molli Require Import Common.StrSplit.
Import ListNotations.
Local Open Scope N_scope.

Definition is_digit (c : N) : bool := (48 <=? c) && (c <=? 57).
Definition digit (d : N) : N := 48 + d.

Fixpoint of_digits_acc (acc : N) (s : str) : option N :=
  match s with
  | [] => Some acc
  | c :: s' => if is_digit c then of_digits_acc (10 * acc + (c - 48)) s' else None
  end.
(* int("123"); the reader only needs plain digit strings (Python's int() also accepts signs, "_" and blanks) *)
Definition parse_nat (s : str) : option N := match s with [] => None | _ => of_digits_acc 0 s end.

Fixpoint chars_of_uint (u : Decimal.uint) : str :=
  match u with
  | Nil => []
  | D0 u => 48 :: chars_of_uint u | D1 u => 49 :: chars_of_uint u | D2 u => 50 :: chars_of_uint u
  | D3 u => 51 :: chars_of_uint u | D4 u => 52 :: chars_of_uint u | D5 u => 53 :: chars_of_uint u
  | D6 u => 54 :: chars_of_uint u | D7 u => 55 :: chars_of_uint u | D8 u => 56 :: chars_of_uint u
  | D9 u => 57 :: chars_of_uint u
  end.
Definition print_nat (n : N) : str := chars_of_uint (N.to_uint n).

(* exactly k digits, most significant first *)
Fixpoint frac_digits (k : nat) (r : N) : str :=
  match k with O => [] | S k' => frac_digits k' (r / 10) ++ [digit (r mod 10)] end.

Record fx := mk_fx { fneg : bool; fmag : N }.     (* (-1)^fneg * fmag / 10^k *)
Definition fx_eqb (a b : fx) : bool := Bool.eqb (fneg a) (fneg b) && N.eqb (fmag a) (fmag b).
Definition fx_val (a : fx) : Z := if fneg a then Z.opp (Z.of_N (fmag a)) else Z.of_N (fmag a).

Definition MINUS : N := 45.
Definition DOT : N := 46.

Definition print_fixed (k : nat) (x : fx) : str :=
  (if fneg x then [MINUS] else []) ++ print_nat (fmag x / 10 ^ N.of_nat k) ++ [DOT]
  ++ frac_digits k (fmag x mod 10 ^ N.of_nat k).

Fixpoint split_at_dot (s : str) : option (str * str) :=
  match s with
  | [] => None
  | c :: r => if c =? DOT then Some ([], r)
              else match split_at_dot r with Some (a, b) => Some (c :: a, b) | None => None end
  end.

Definition parse_unsigned (k : nat) (neg : bool) (body : str) : option fx :=
  match split_at_dot body with
  | Some (ip, fp) =>
      if Nat.eqb (length fp) k then
        match parse_nat ip, of_digits_acc 0 fp with
        | Some q, Some r => Some (mk_fx neg (q * 10 ^ N.of_nat k + r))
        | _, _ => None
        end
      else None
  | None => None
  end.

(* float("-12.345600") restricted to the shape "%.kf" produces; anything else is outside the model (None) *)
Definition parse_fixed (k : nat) (s : str) : option fx :=
  match s with
  | [] => None
  | c :: r => if c =? MINUS then parse_unsigned k true r else parse_unsigned k false s
  end.

Definition all_digits (s : str) : Prop := forallb is_digit s = true.

Lemma chars_of_uint_digits u : all_digits (chars_of_uint u).
Proof. unfold all_digits. induction u; simpl; auto. Qed.

Lemma of_digits_acc_step acc c s : is_digit c = true ->
  of_digits_acc acc (c :: s) = of_digits_acc (10 * acc + (c - 48)) s.
Proof. intros H. cbn [of_digits_acc]. now rewrite H. Qed.

(* Reading digits with a positive accumulator is the library's Pos.of_uint_acc.  From 0, leading zeros keep the
   accumulator 0 (the induction hypothesis of of_digits_uint); the first other digit makes it positive, and
   of_digits_acc_uint takes over. *)
Lemma of_digits_acc_uint u : forall p, of_digits_acc (N.pos p) (chars_of_uint u) = Some (N.pos (Pos.of_uint_acc u p)).
Proof.
  induction u; intros p; [reflexivity|..]; cbn [chars_of_uint Pos.of_uint_acc];
  rewrite of_digits_acc_step by reflexivity; rewrite <- IHu; f_equal; lia.
Qed.

Lemma of_digits_uint u : of_digits_acc 0 (chars_of_uint u) = Some (N.of_uint u).
Proof.
  unfold N.of_uint. induction u; [reflexivity|..]; cbn [chars_of_uint Pos.of_uint];
  rewrite of_digits_acc_step by reflexivity;
  [exact IHu | rewrite <- of_digits_acc_uint; f_equal ..].
Qed.

Lemma print_nat_nonempty n : print_nat n <> [].
Proof.
  unfold print_nat. destruct n as [|p]; [discriminate|]. simpl.
  pose proof (Unsigned.to_uint_nonnil p) as H. now destruct (Pos.to_uint p).
Qed.

Lemma print_nat_digits n : all_digits (print_nat n).
Proof. apply chars_of_uint_digits. Qed.

Lemma print_nat_head n : exists c r, print_nat n = c :: r /\ is_digit c = true.
Proof.
  pose proof (print_nat_nonempty n) as Hne. pose proof (print_nat_digits n) as Hd.
  destruct (print_nat n) as [|c r]; [easy|]. apply andb_prop in Hd as [Hc _]. eauto.
Qed.

Theorem parse_print_nat n : parse_nat (print_nat n) = Some n.
Proof.
  unfold parse_nat. pose proof (print_nat_nonempty n) as H. destruct (print_nat n) eqn:E; [easy|].
  rewrite <- E. unfold print_nat. rewrite of_digits_uint. f_equal. apply DecimalN.Unsigned.of_to.
Qed.

Lemma of_digits_acc_app a : forall acc b,
  of_digits_acc acc (a ++ b) = match of_digits_acc acc a with Some x => of_digits_acc x b | None => None end.
Proof.
  induction a as [|c a IH]; intros acc b; [reflexivity|]. simpl. destruct (is_digit c); [apply IH|reflexivity].
Qed.

Lemma is_digit_digit d : d < 10 -> is_digit (digit d) = true.
Proof. unfold is_digit, digit. intros H. apply andb_true_intro. split; apply N.leb_le; lia. Qed.

Lemma frac_digits_length k : forall r, length (frac_digits k r) = k.
Proof. induction k; intros r; [reflexivity|]. simpl. rewrite app_length, IHk. simpl. lia. Qed.

Lemma frac_digits_digits k : forall r, all_digits (frac_digits k r).
Proof.
  unfold all_digits. induction k; intros r; [reflexivity|]. simpl. rewrite forallb_app, IHk. simpl.
  rewrite is_digit_digit; [reflexivity|]. apply N.mod_lt. lia.
Qed.

Lemma of_digits_frac k : forall acc r, r < 10 ^ N.of_nat k ->
  of_digits_acc acc (frac_digits k r) = Some (acc * 10 ^ N.of_nat k + r).
Proof.
  induction k; intros acc r H.
  - simpl in *. f_equal. lia.
  - cbn [frac_digits]. rewrite of_digits_acc_app. rewrite Nat2N.inj_succ, N.pow_succ_r' in *.
    rewrite IHk by (apply N.div_lt_upper_bound; lia). cbn [of_digits_acc].
    rewrite is_digit_digit by (apply N.mod_lt; lia). f_equal. unfold digit.
    pose proof (N.div_mod r 10 ltac:(lia)) as E.
    set (X := 10 ^ N.of_nat k) in *. set (q := r / 10) in *. set (m := r mod 10) in *. clearbody X q m. nia.
Qed.

(* from which split_at_dot_digits, parse_print_fixed and digits_not_ws conclude that a digit is not ".", "-" or a blank *)
Lemma is_digit_range c : is_digit c = true -> 48 <= c <= 57.
Proof. unfold is_digit. now rewrite andb_true_iff, !N.leb_le. Qed.

Lemma split_at_dot_digits a : forall b, all_digits a -> split_at_dot (a ++ DOT :: b) = Some (a, b).
Proof.
  unfold all_digits. induction a as [|c a IH]; intros b H; [reflexivity|]. simpl in H. apply andb_prop in H as [Hc Ha].
  simpl. rewrite (IH b Ha). now destruct (N.eqb_spec c DOT) as [->|].
Qed.

Lemma parse_unsigned_print k neg mag :
  parse_unsigned k neg (print_nat (mag / 10 ^ N.of_nat k) ++ DOT :: frac_digits k (mag mod 10 ^ N.of_nat k))
  = Some (mk_fx neg mag).
Proof.
  assert (HP : 10 ^ N.of_nat k <> 0) by (apply N.pow_nonzero; lia).
  unfold parse_unsigned. rewrite split_at_dot_digits by apply print_nat_digits.
  rewrite frac_digits_length, Nat.eqb_refl, parse_print_nat.
  rewrite of_digits_frac by (apply N.mod_lt; exact HP). do 2 f_equal.
  pose proof (N.div_mod mag _ HP). lia.
Qed.

Theorem parse_print_fixed k x : parse_fixed k (print_fixed k x) = Some x.
Proof.
  destruct x as [neg mag]. rewrite <- (parse_unsigned_print k neg mag). unfold print_fixed. cbn [fneg fmag].
  destruct (print_nat_head (mag / 10 ^ N.of_nat k)) as [c [r [-> Hc%is_digit_range]]].
  (* the integer part starts with a digit, so the only sign is the one written *)
  destruct neg; simpl; [reflexivity|]. destruct (N.eqb_spec c MINUS) as [->|]; [now destruct Hc|reflexivity].
Qed.

(* the written numbers are blank-free, non-empty tokens *)
Lemma digits_not_ws s : all_digits s -> forallb (fun c => negb (pyws c)) s = true.
Proof.
  unfold all_digits. rewrite !forallb_forall. intros H c Hc%H%is_digit_range.
  destruct (pyws c) eqn:E; [apply pyws_true in E; lia|reflexivity].
Qed.

Lemma print_nat_tok n : tok pyws (print_nat n).
Proof. split; [apply print_nat_nonempty|apply digits_not_ws, print_nat_digits]. Qed.

Lemma print_fixed_tok k x : tok pyws (print_fixed k x).
Proof.
  unfold print_fixed. split.
  - destruct (print_nat_head (fmag x / 10 ^ N.of_nat k)) as [c [r [-> _]]]. now destruct (fneg x).
  - rewrite !forallb_app, (digits_not_ws _ (print_nat_digits _)), (digits_not_ws _ (frac_digits_digits _ _)).
    now destruct (fneg x).
Qed.
