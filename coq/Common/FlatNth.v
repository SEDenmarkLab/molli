(* Lists built by `flat_map` over blocks of equal length (C-order raveling of a rectangular nested array: C19's distance
   matrices and mesh grid): block i, offset k sits at i*n + k; a table entry; reading at sampled positions; flat_map of
   maps as a map of the concatenation; NoDup of the whole when every block is duplicate-free and blocks are told apart. *)
From Coq Require Import List Lia.
From Molli Require Import Common.ListFacts.
Import ListNotations.

Lemma flat_map_uniform_length {A F} (g : A -> list F) (n : nat) (l : list A) :
  (forall a, In a l -> length (g a) = n) -> length (flat_map g l) = (length l * n)%nat.
Proof.
  induction l as [|a l IH]; intros H; simpl; [reflexivity|].
  rewrite app_length, IH by (intros; apply H; now right).
  rewrite (H a) by now left. reflexivity.
Qed.

Lemma flat_map_uniform_nth {A F} (g : A -> list F) (n : nat) (da : A) (d : F) (l : list A) :
  (forall a, In a l -> length (g a) = n) ->
  forall i k, (i < length l)%nat -> (k < n)%nat ->
  nth (i * n + k) (flat_map g l) d = nth k (g (nth i l da)) d.
Proof.
  induction l as [|a l IH]; intros H i k Hi Hk; simpl in Hi; [lia|].
  assert (Ha : length (g a) = n) by (apply H; now left).
  destruct i as [|i]; simpl.
  - apply app_nth1. lia.
  - rewrite app_nth2 by lia. rewrite Ha.
    replace (n + i * n + k - n)%nat with (i * n + k)%nat by lia.
    apply IH; [intros; apply H; now right | lia | exact Hk].
Qed.

(* reading a mapped list at selected positions = mapping the selected elements *)
Lemma map_sample {A B} (f : A -> B) (l : list A) (d : B) (d' : A) (ks : list nat) :
  Forall (fun k => (k < length l)%nat) ks ->
  map (fun k => nth k (map f l) d) ks = map f (map (fun k => nth k l d') ks).
Proof.
  rewrite Forall_forall. intros H. rewrite map_map. apply map_ext_in. intros k Hk%H. now apply map_nth_lt.
Qed.

(* a two-dimensional table raveled in C order: row i, column j sits at i * (number of columns) + j *)
Lemma table_nth {A B C} (f : A -> B -> C) (la : list A) (lb : list B) (da : A) (db : B) (d : C) (i j : nat) :
  (i < length la)%nat -> (j < length lb)%nat ->
  nth (i * length lb + j) (flat_map (fun a => map (f a) lb) la) d = f (nth i la da) (nth j lb db).
Proof.
  intros Hi Hj. rewrite (flat_map_uniform_nth _ (length lb) da) by auto using map_length.
  now apply map_nth_lt.
Qed.

Lemma flat_map_map_concat {A B} (f : A -> B) (ls : list (list A)) : flat_map (map f) ls = map f (concat ls).
Proof. now rewrite flat_map_concat_map, concat_map. Qed.

(* every block is duplicate-free, and an element tells (through t) which block it comes from *)
Lemma NoDup_flat_map {A B} (g : A -> list B) (t : B -> A) (l : list A) :
  NoDup l -> (forall a, In a l -> NoDup (g a)) -> (forall a x, In x (g a) -> t x = a) -> NoDup (flat_map g l).
Proof.
  intros Hl Hg Ht. induction Hl as [|a l Hn Hl IH]; simpl; [constructor|].
  apply NoDup_app. repeat split; [apply Hg; now left | apply IH; intros; apply Hg; now right |].
  intros x Hx [b [Hb Hxb]]%in_flat_map. now rewrite <- (Ht a x Hx), (Ht b x Hxb) in Hn.
Qed.
