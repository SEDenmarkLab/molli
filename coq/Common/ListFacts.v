(* Facts about the standard library's list functions that Coq 8.16's List lacks and that several files of the
   development need: NoDup of an append and of a filtered map, the two halves of a filter, nth and forallb of a
   map, Forall2 (lengths, weakening), existsb over a boolean equality as membership. *)
From Coq Require Import List Lia.
Import ListNotations.

Lemma NoDup_app {A} (l m : list A) : NoDup (l ++ m) <-> NoDup l /\ NoDup m /\ forall x, In x l -> ~ In x m.
Proof.
  induction l as [|a l IH]; simpl.
  - split; [intro H; repeat split; [constructor|exact H|tauto]|tauto].
  - rewrite !NoDup_cons_iff, IH, in_app_iff. split.
    + intros (Ha & Hl & Hm & Hd). repeat split; try tauto. intros y [<-|Hy]; [tauto|now apply Hd].
    + intros ((Ha & Hl) & Hm & Hd). repeat split; try tauto; [|intros y Hy; apply Hd; now right].
      intros [H|H]; [tauto|]. apply (Hd a); [now left|exact H].
Qed.

Lemma NoDup_snoc {A} (l : list A) x : NoDup (l ++ [x]) <-> NoDup l /\ ~ In x l.
Proof.
  rewrite NoDup_app. split; [intros (Hl & _ & Hd); split; [exact Hl|]; intros Hx; apply (Hd x Hx); now left|].
  intros [Hl Hx]. repeat split; [exact Hl|repeat constructor; intros []|]. intros y Hy [<-|[]]. contradiction.
Qed.

Lemma NoDup_map_filter {A B} (g : A -> B) (f : A -> bool) (l : list A) : NoDup (map g l) -> NoDup (map g (filter f l)).
Proof.
  induction l as [|a l IH]; simpl; intros H; [exact H|]. apply NoDup_cons_iff in H as [Hn H].
  destruct (f a); simpl; [constructor|]; auto.
  intros Hin. apply Hn. apply in_map_iff in Hin as [c [<- Hc]]. apply in_map. now apply filter_In in Hc.
Qed.

Lemma filter_partition_length {A} (f : A -> bool) (l : list A) :
  length (filter f l) + length (filter (fun a => negb (f a)) l) = length l.
Proof. induction l as [|a l IH]; simpl; [reflexivity|]. destruct (f a); simpl; lia. Qed.

Lemma map_nth_lt {A B} (f : A -> B) (l : list A) (d : B) (d' : A) (k : nat) :
  k < length l -> nth k (map f l) d = f (nth k l d').
Proof. intros H. rewrite (nth_indep _ d (f d')) by now rewrite map_length. apply map_nth. Qed.

Lemma Forall2_length {A B} (R : A -> B -> Prop) l m : Forall2 R l m -> length l = length m.
Proof. induction 1; simpl; congruence. Qed.

Lemma Forall2_impl {A B} (R S : A -> B -> Prop) : (forall a b, R a b -> S a b) -> forall l m, Forall2 R l m -> Forall2 S l m.
Proof. intros H l m. induction 1; constructor; auto. Qed.

Lemma forallb_map {A B} (f : A -> B) (p : B -> bool) l : forallb p (map f l) = forallb (fun x => p (f x)) l.
Proof. induction l as [|a l IH]; simpl; [reflexivity|]. now rewrite IH. Qed.

Lemma existsb_eqb_In {A} (eqb : A -> A -> bool) : (forall x y, eqb x y = true <-> x = y) ->
  forall x l, existsb (eqb x) l = true <-> In x l.
Proof.
  intros He x l. rewrite existsb_exists. split; [intros [y [Hy E]]; apply He in E; now subst|].
  intros H. exists x. split; [exact H | now apply He].
Qed.
