(* Real-number instance of Common/Field3.v and the generic linear-algebra facts every geometric
   property needs: orthogonal maps preserve dot products / distances, proper ones signed volumes;
   the frame lemmas of row-selective updates. *)
From Coq Require Import Reals Lra List.
From Molli Require Import Common.Field3.
From Molli Require Import Common.ListFacts.
Import ListNotations.
Local Open Scope R_scope.

Definition Rleb (x y : R) : bool := if Rle_dec x y then true else false.
Definition ROps : Fops R := {|
  f0 := 0; f1 := 1; fadd := Rplus; fsub := Rminus; fmul := Rmult; fdiv := Rdiv; fopp := Ropp;
  fleb := Rleb; fofZ := IZR |}.

Lemma Rleb_true x y : Rleb x y = true <-> x <= y.
Proof. unfold Rleb. destruct (Rle_dec x y); split; intros; try reflexivity; try assumption; try discriminate; contradiction. Qed.
Lemma Rleb_false x y : Rleb x y = false <-> y < x.
Proof. unfold Rleb. destruct (Rle_dec x y); split; intros; try reflexivity; try discriminate; lra. Qed.

Notation vecR := (vec R).
Notation matR := (mat R).

(* expose the arithmetic of every Field3 operation *)
Ltac f3 := cbv [vzero vadd vsub vopp vscale vdiv dot cross norm2 dist2 triple signed_volume outer eye
                mmap2 mmap madd msub mscale mdivs mtrans mmul vm mv det trace
                ROps f0 f1 fadd fsub fmul fdiv fopp].
Ltac f3_in H := cbv [vzero vadd vsub vopp vscale vdiv dot cross norm2 dist2 triple signed_volume outer eye
                mmap2 mmap madd msub mscale mdivs mtrans mmul vm mv det trace
                ROps f0 f1 fadd fsub fmul fdiv fopp] in H.
Ltac vdestruct :=
  repeat match goal with
         | M : matR |- _ => destruct M as [[[[? ?] ?] [[? ?] ?]] [[? ?] ?]]
         | v : vecR |- _ => destruct v as [[? ?] ?]
         end.
(* split an equation between two triples / matrices into its component equations *)
Ltac eqs H := f3_in H; injection H; clear H; intros.
Ltac veq := repeat match goal with |- (_, _) = (_, _) => apply f_equal2 end.

Definition orth (M : matR) : Prop := mmul ROps M (mtrans M) = eye ROps.
Definition proper (M : matR) : Prop := orth M /\ det ROps M = 1.
Definition unit (a : vecR) : Prop := dot ROps a a = 1.

Lemma eye_proper : proper (eye ROps).
Proof. split; [unfold orth|]; f3; veq; ring. Qed.

Lemma vm_vsub (x y : vecR) (M : matR) : vm ROps (vsub ROps x y) M = vsub ROps (vm ROps x M) (vm ROps y M).
Proof. vdestruct. f3. veq; ring. Qed.
Lemma vm_vadd (x y : vecR) (M : matR) : vm ROps (vadd ROps x y) M = vadd ROps (vm ROps x M) (vm ROps y M).
Proof. vdestruct. f3. veq; ring. Qed.
Lemma vm_eye (x : vecR) : vm ROps x (eye ROps) = x.
Proof. vdestruct. f3. veq; ring. Qed.
Lemma vm_mmul (x : vecR) (A B : matR) : vm ROps x (mmul ROps A B) = vm ROps (vm ROps x A) B.
Proof. vdestruct. f3. veq; ring. Qed.

Lemma mmul_rows (a1 a2 a3 : vecR) (B : matR) : mmul ROps (a1, a2, a3) B = (vm ROps a1 B, vm ROps a2 B, vm ROps a3 B).
Proof. vdestruct. reflexivity. Qed.
Lemma mmul_assoc (A B C : matR) : mmul ROps (mmul ROps A B) C = mmul ROps A (mmul ROps B C).
Proof. destruct A as [[a1 a2] a3]. rewrite !mmul_rows, !vm_mmul. reflexivity. Qed.
Lemma mtrans_mmul (A B : matR) : mtrans (mmul ROps A B) = mmul ROps (mtrans B) (mtrans A).
Proof. vdestruct. f3. veq; ring. Qed.
Lemma mmul_eye_l (A : matR) : mmul ROps (eye ROps) A = A.
Proof. vdestruct. f3. veq; ring. Qed.
Lemma mmul_eye_r (A : matR) : mmul ROps A (eye ROps) = A.
Proof. vdestruct. f3. veq; ring. Qed.
Lemma det_mmul (A B : matR) : det ROps (mmul ROps A B) = det ROps A * det ROps B.
Proof. vdestruct. f3. ring. Qed.
Lemma det_mtrans (A : matR) : det ROps (mtrans A) = det ROps A.
Proof. vdestruct. f3. ring. Qed.

Lemma orth_mmul (A B : matR) : orth A -> orth B -> orth (mmul ROps A B).
Proof.
  unfold orth. intros HA HB.
  rewrite mtrans_mmul, mmul_assoc, <- (mmul_assoc B), HB, mmul_eye_l. exact HA.
Qed.
Lemma proper_mmul (A B : matR) : proper A -> proper B -> proper (mmul ROps A B).
Proof.
  intros [HA DA] [HB DB]. split; [apply orth_mmul; assumption|].
  rewrite det_mmul, DA, DB. ring.
Qed.

(* (x M) . (y M) = (x (M M^T)) . y for every M, so a row vector times an orthogonal matrix keeps dot products,
   hence lengths and distances *)
Lemma dot_vm (M : matR) (x y : vecR) :
  dot ROps (vm ROps x M) (vm ROps y M) = dot ROps (vm ROps x (mmul ROps M (mtrans M))) y.
Proof. vdestruct. f3. ring. Qed.
Lemma orth_preserves_dot (M : matR) (x y : vecR) :
  orth M -> dot ROps (vm ROps x M) (vm ROps y M) = dot ROps x y.
Proof. intros H. rewrite dot_vm, H, vm_eye. reflexivity. Qed.

Lemma orth_preserves_dist2 (M : matR) (x y : vecR) :
  orth M -> dist2 ROps (vm ROps x M) (vm ROps y M) = dist2 ROps x y.
Proof. intros H. unfold dist2, norm2. rewrite <- vm_vsub. apply orth_preserves_dot, H. Qed.

Lemma triple_vm (M : matR) (x y z : vecR) :
  triple ROps (vm ROps x M) (vm ROps y M) (vm ROps z M) = det ROps M * triple ROps x y z.
Proof. vdestruct. f3. ring. Qed.

Lemma proper_preserves_signed_volume (M : matR) (p0 p1 p2 p3 : vecR) :
  proper M ->
  signed_volume ROps (vm ROps p0 M) (vm ROps p1 M) (vm ROps p2 M) (vm ROps p3 M) = signed_volume ROps p0 p1 p2 p3.
Proof.
  intros [_ D]. unfold signed_volume. rewrite <- !vm_vsub, triple_vm, D. ring.
Qed.

Lemma translate_preserves_dist2 (v x y : vecR) : dist2 ROps (vadd ROps x v) (vadd ROps y v) = dist2 ROps x y.
Proof. vdestruct. f3. ring. Qed.
Lemma translate_preserves_signed_volume (v p0 p1 p2 p3 : vecR) :
  signed_volume ROps (vadd ROps p0 v) (vadd ROps p1 v) (vadd ROps p2 v) (vadd ROps p3 v) = signed_volume ROps p0 p1 p2 p3.
Proof. vdestruct. f3. ring. Qed.

Lemma update_from_length {A} sel (f : A -> A) l : forall i, length (update_from sel f i l) = length l.
Proof. induction l as [|x l IH]; intros i; simpl; [reflexivity | now rewrite IH]. Qed.
Lemma update_from_nth {A} sel (f : A -> A) (d : A) l : forall i k, (k < length l)%nat ->
  nth k (update_from sel f i l) d = if sel (i + k)%nat then f (nth k l d) else nth k l d.
Proof.
  induction l as [|x l IH]; intros i k Hk; simpl in Hk; [inversion Hk|].
  destruct k as [|k]; simpl.
  - now rewrite Nat.add_0_r.
  - rewrite IH by (apply Nat.succ_lt_mono; exact Hk). now rewrite Nat.add_succ_r.
Qed.
Lemma update_rows_length {A} sel (f : A -> A) l : length (update_rows sel f l) = length l.
Proof. apply update_from_length. Qed.
Lemma update_rows_nth {A} sel (f : A -> A) (d : A) l k : (k < length l)%nat ->
  nth k (update_rows sel f l) d = if sel k then f (nth k l d) else nth k l d.
Proof. intros Hk. unfold update_rows. now rewrite update_from_nth. Qed.
Lemma update_from_compose {A} sel (f g : A -> A) l : forall i,
  update_from sel g i (update_from sel f i l) = update_from sel (fun x => g (f x)) i l.
Proof. induction l as [|x l IH]; intros i; simpl; [reflexivity|]. rewrite IH. now destruct (sel i). Qed.
Lemma update_rows_compose {A} sel (f g : A -> A) l :
  update_rows sel g (update_rows sel f l) = update_rows sel (fun x => g (f x)) l.
Proof. apply update_from_compose. Qed.
Lemma in_idx_spec idx i : in_idx idx i = true <-> In i idx.
Proof. exact (existsb_eqb_In Nat.eqb Nat.eqb_eq i idx). Qed.
