(* The hypothesis of the session exit theorems -- the UKVFile's `mode` attribute is "r" or "a" (has_mode), which close()
   tests -- is an INVARIANT of the backend object: begin_read / begin_write establish it (the constructor sets self.mode
   from its argument; a reopen assigns `mode or self.mode`; nothing else on the way assigns it), so the entry part of a
   session hands the exit part what it needs.  Proved from the translated terms with the attribute frame theorem. *)
From Coq Require Import NArith List Bool String.
Import ListNotations.
From Molli Require Import Model.UKV Model.MiniPy Model.Backend Model.MiniPyB Gen.UKVCode Gen.BackendCode
  Proofs.UKVCode Proofs.MiniPyFrame Proofs.BackendCode.
Open Scope string_scope.
Open Scope N_scope.

Definition mode_ok (st : state) : Prop :=
  lookup_env (attrs st) "mode" = Some (VStr "r") \/ lookup_env (attrs st) "mode" = Some (VStr "a").

Definition has_mode (s : bstate) : Prop :=
  lookup_env (attrs (inner s)) "mode" = Some (VStr "r") \/ lookup_env (attrs (inner s)) "mode" = Some (VStr "a").

Lemma has_mode_inner s : has_mode s <-> mode_ok (inner s).
Proof. unfold has_mode, mode_ok. tauto. Qed.

Lemma has_mode_kept s s' :
  lookup_env (attrs (inner s')) "mode" = lookup_env (attrs (inner s)) "mode" -> has_mode s -> has_mode s'.
Proof. unfold has_mode. intros ->. tauto. Qed.

Lemma exec_seq_eq fuel a b s :
  exec fuel (SSeq a b) s = (let '(s1, o) := exec fuel a s in match o with ONormal => exec fuel b s1 | _ => (s1, o) end).
Proof. reflexivity. Qed.

Definition pres (fuel : nat) (c : stmt) : Prop := forall s, mode_ok s -> mode_ok (fst (exec fuel c s)).

Lemma pres_frame fuel c : sets_attr "mode" c = false -> pres fuel c.
Proof. intros H s M. unfold mode_ok in *. rewrite (exec_attr_frame "mode" fuel c s H). exact M. Qed.

Lemma pres_seq fuel a b : pres fuel a -> pres fuel b -> pres fuel (SSeq a b).
Proof.
  intros Pa Pb s M. rewrite exec_seq_eq. pose proof (Pa s M) as A. destruct (exec fuel a s) as [s1 o]. cbn [fst] in A.
  destruct o; try exact A. apply Pb. exact A.
Qed.

Transparent open_prog.

(* open(mode): returns at once when the handle is open; otherwise assigns self.mode = mode or self.mode and never again *)
Lemma open_mode fuel s :
  (forall v, eval s (EOr (ELocal "mode") (EAttr "mode")) = Val v -> v = VStr "r" \/ v = VStr "a") ->
  mode_ok s -> mode_ok (fst (exec fuel open_prog s)).
Proof.
  intros Hv M. unfold open_prog.
  match goal with |- context [SSeq (SSetAttr "mode" ?e) ?r] => set (R := r) end.
  cbn [exec].
  destruct (eval s (ENot (EAttr "_closed"))) as [c|x]; [|exact M].
  destruct (truthy c).
  - cbn [exec eval]. exact M.
  - cbn [exec].
    destruct (eval s (EOr (ELocal "mode") (EAttr "mode"))) as [v|x] eqn:Ev; [|exact M].
    specialize (Hv v eq_refl).
    assert (F : sets_attr "mode" R = false) by (subst R; reflexivity).
    unfold mode_ok. rewrite (exec_attr_frame "mode" fuel R (set_attr s "mode" v) F).
    cbn [set_attr attrs]. rewrite lookup_set_same. destruct Hv as [-> | ->]; [left|right]; reflexivity.
Qed.

Opaque open_prog.

(* a reopen through the backend: self._ukvfile.open("r" / "a") *)
Lemma open_call_mode fuel st (m : mode) :
  mode_ok st -> mode_ok (fst (exec fuel open_prog (set_local st "mode" (VStr (mode_str m))))).
Proof.
  intros M. apply open_mode; [|exact M].
  intros v Ev. cbn [eval set_local locals] in Ev. rewrite lookup_set_same in Ev.
  destruct m; cbn [mode_str truthy] in Ev; inversion Ev; [left|right]; reflexivity.
Qed.

(* open() without a mode, as the constructor calls it: self.mode stays *)
Lemma open_none_mode fuel st :
  mode_ok st -> mode_ok (fst (exec fuel open_prog (set_local st "mode" VNone))).
Proof.
  intros M. apply open_mode; [|exact M].
  intros v Ev. cbn [eval set_local locals attrs] in Ev. rewrite lookup_set_same in Ev. cbn [truthy] in Ev.
  destruct M as [M|M]; rewrite M in Ev; inversion Ev; [left|right]; reflexivity.
Qed.

Transparent init_prog.

(* UKVFile(path, mode): self.mode = mode, then only other attributes are assigned and open() is called without a mode *)
Lemma init_mode fuel st (m : mode) :
  lookup_env (locals st) "mode" = Some (VStr (mode_str m)) ->
  forall st' o, exec fuel init_prog st = (st', o) -> (forall x, o <> ORaise x) -> mode_ok st'.
Proof.
  intros Lm st' o E Ho. unfold init_prog in E.
  match type of E with context [SSeq (SIf ?c (SSetAttr "mode" (ELocal "mode")) (SRaise XValue)) ?r] => set (R := r) in E; set (C := c) in E end.
  rewrite exec_seq_eq in E. cbn [exec] in E.
  assert (Ec : exists v, eval st C = Val v /\ truthy v = true).
  { subst C. cbn [eval]. rewrite Lm. destruct m; cbn; eexists; split; reflexivity. }
  destruct Ec as [v [Ec Tv]]. rewrite Ec, Tv in E. cbn [exec eval] in E. rewrite Lm in E.
  set (st1 := set_attr st "mode" (VStr (mode_str m))) in E.
  assert (M1 : mode_ok st1).
  { unfold mode_ok, st1. cbn [set_attr attrs]. rewrite lookup_set_same. destruct m; [left|right]; reflexivity. }
  (* the rest: assignments of other attributes, then open() with mode=None *)
  assert (PR : pres fuel R).
  { subst R. repeat (apply pres_seq; [apply pres_frame; reflexivity|]).
    intros s0 M0. cbn [exec bind_args eval].
    pose proof (open_none_mode fuel s0 M0) as A.
    destruct (exec fuel open_prog (set_local s0 "mode" VNone)) as [s2 o2]. cbn [fst restore_locals] in *. exact A. }
  pose proof (PR st1 M1) as A. rewrite E in A. exact A.
Qed.

Opaque init_prog.

(* begin_read() / begin_write(): whenever the backend has its UKVFile afterwards, that object's mode is "r" or "a" *)
Lemma begin_mode fuel (m : mode) prog s :
  prog = BIf (BENot BEHasUkv)
             (BUkvNew init_prog [("path", BENone); ("mode", BEStr (mode_str m)); ("h1", BENone); ("h2", BENone); ("b0", BENone)])
             (BUkvCall open_prog [("mode", BEStr (mode_str m))]) ->
  (has_inner s = true -> has_mode s) ->
  let s' := fst (bexec fuel prog s) in has_inner s' = true -> has_mode s'.
Proof.
  intros -> Hm. cbn [bexec beval_bool]. destruct (has_inner s) eqn:Hi; cbn [negb].
  - (* reopen *)
    cbn [bexec negb bind_inner beval_val].
    pose proof (open_call_mode fuel (inner s) m (proj1 (has_mode_inner s) (Hm eq_refl))) as A.
    destruct (exec fuel open_prog (set_local (inner s) "mode" (VStr (mode_str m)))) as [st' o]. cbn [fst] in *.
    intros _. apply has_mode_inner. cbn [with_inner inner]. exact A.
  - (* first session: the constructor *)
    cbn [bexec bind_inner beval_val].
    set (st0 := set_local (set_local (set_local (set_local (set_local _ "path" VNone) "mode" (VStr (mode_str m))) "h1" VNone) "h2" VNone) "b0" VNone).
    assert (Lm : lookup_env (locals st0) "mode" = Some (VStr (mode_str m))).
    { unfold st0. cbn [set_local locals]. repeat (rewrite lookup_set_other by discriminate). apply lookup_set_same. }
    pose proof (init_mode fuel st0 m Lm) as I.
    destruct (exec fuel init_prog st0) as [st' o]. specialize (I st' o eq_refl).
    destruct o; cbn [fst has_inner with_inner]; try (intros _; apply has_mode_inner; cbn [inner]; apply I; intros x0; discriminate).
    rewrite Hi. discriminate.
Qed.
