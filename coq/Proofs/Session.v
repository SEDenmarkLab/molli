(* C04: the invariant J of the process/lock transition system, the few ways in which it is preserved, and the
   one-step theorem: an enabled transition performs a UKV operation that the session discipline of C02 allows. *)
From Coq Require Import NArith PeanoNat List Bool.
Import ListNotations.
From Molli Require Import Model.UKV Proofs.UKVBase Proofs.UKV Proofs.BackendBuffer Model.Session.

Lemma map_blocks_flags f h : md (snd (map_blocks f h)) = md h /\ closed (snd (map_blocks f h)) = closed h.
Proof.
  unfold map_blocks. destruct (shortcut f h); [split; reflexivity|].
  destruct (scan _ _ _ _ _) as [[t lk] p]. destruct (md h); simpl.
  - split; reflexivity.
  - destruct (N.ltb p (len f)); simpl; split; reflexivity.
Qed.

Lemma open_flags f h m : closed h = true ->
  md (snd (open_ f h m)) = m /\ closed (snd (open_ f h m)) = false.
Proof. intros Hc. unfold open_. rewrite Hc. apply (map_blocks_flags f (mkh _ _ _ m false)). Qed.

Lemma step_other (w : world) o j :
  (op_handle o < length (snd w))%nat -> j <> op_handle o -> (forall n, o <> Crash n) ->
  hnth (snd (fst (step w o))) j = hnth (snd w) j.
Proof.
  destruct w as [f hs]. intros Hi Hj Hc. unfold hnth.
  destruct o as [i m|i|i k v|i k|i|n]; simpl in *;
    [destruct (open_ f (nth i hs h0) m)| |destruct (put f (nth i hs h0) k v) as [[f' h'] r]| | |destruct (Hc n eq_refl)];
    simpl; auto using nth_upd_other.
Qed.

(* the handle the step goes through *)
Lemma step_at (w : world) o : (op_handle o < length (snd w))%nat ->
  let h := hnth (snd w) (op_handle o) in
  let h' := hnth (snd (fst (step w o))) (op_handle o) in
  match o with
  | Open _ m => closed h = true -> md h' = m /\ closed h' = false
  | Close _ => h' = close_ h
  | Put _ _ _ | Get _ _ | Keys _ => md h' = md h /\ closed h' = closed h
  | Crash _ => True
  end.
Proof.
  destruct w as [f hs]. intros Hi. unfold hnth.
  destruct o as [i m|i|i k v|i k|i|n]; simpl in *; auto.
  - intros Hc. pose proof (open_flags f (nth i hs h0) m Hc) as F.
    destruct (open_ f (nth i hs h0) m). simpl. rewrite nth_upd_same by exact Hi. exact F.
  - apply nth_upd_same. exact Hi.
  - destruct (put_cases f (nth i hs h0) k v) as [[f' [h' [-> F]]]|[e ->]]; simpl; rewrite nth_upd_same by exact Hi;
      [exact F|split; reflexivity].
Qed.

Lemma item_op_flags (w : world) o : (op_handle o < length (snd w))%nat ->
  match o with Put _ _ _ | Get _ _ | Keys _ => True | _ => False end ->
  forall j, closed (hnth (snd (fst (step w o))) j) = closed (hnth (snd w) j) /\
            md (hnth (snd (fst (step w o))) j) = md (hnth (snd w) j).
Proof.
  intros Hi Ho j. destruct (Nat.eq_dec j (op_handle o)) as [->|Hj].
  - pose proof (step_at w o Hi) as F. destruct o; try contradiction; split; apply F.
  - rewrite step_other by (try assumption; intros n ->; exact Ho). split; reflexivity.
Qed.

(* The invariant: a writer excludes everybody; an open handle is the current handle of its owner, who holds a lock -- the
   write lock if the handle is open for append; only existing processes are inside a session. *)
Record J (s : lworld) : Prop := {
  j_mutex : forall p q, p <> q -> plock (pnth (procs s) p) = LWrite -> plock (pnth (procs s) q) = LFree;
  j_open : forall i, closed (hnth (snd (lw s)) i) = false ->
             let p := nth i (owner s) (length (procs s)) in
             pcur (pnth (procs s) p) = Some i /\ plock (pnth (procs s) p) <> LFree /\
             (md (hnth (snd (lw s)) i) = MA -> plock (pnth (procs s) p) = LWrite);
  j_cur : forall p i, pcur (pnth (procs s) p) = Some i -> (p < length (procs s))%nat
}.

(* the UKV operation a transition performs, if it touches the file or a handle at all *)
Definition label_op (s : lworld) (l : label) : option op :=
  match l with
  | LOpen p i => Some (Open i (match plock (pnth (procs s) p) with LWrite => MA | _ => MR end))
  | LDo p o => Some o
  | LClose p => option_map Close (pcur (pnth (procs s) p))
  | LAcq _ _ | LRel _ => None
  end.

Lemma pnth_upd_same ps p x : (p < length ps)%nat -> pnth (upd ps p x) p = x.
Proof. apply nth_upd_same. Qed.
Lemma pnth_upd_other ps p q x : (p < length ps)%nat -> q <> p -> pnth (upd ps p x) q = pnth ps q.
Proof. apply nth_upd_other. Qed.

(* J sees the handles only through their flags: it survives any change of the world after which every open handle
   was open before, in the same mode, or is the current handle of its owner, who holds a lock that allows the mode *)
Lemma J_handles w w' ps ow :
  J (mkl w ps ow) ->
  (forall j, closed (hnth (snd w') j) = false ->
     closed (hnth (snd w) j) = false /\ md (hnth (snd w') j) = md (hnth (snd w) j) \/
     let q := nth j ow (length ps) in
     pcur (pnth ps q) = Some j /\ plock (pnth ps q) <> LFree /\
     (md (hnth (snd w') j) = MA -> plock (pnth ps q) = LWrite)) ->
  J (mkl w' ps ow).
Proof.
  intros [Jm Jo Jc] Hh. constructor; [exact Jm| |exact Jc].
  intros j Hj. destruct (Hh j Hj) as [[Hc Hm]|Hnew]; [|exact Hnew]. simpl in *. rewrite Hm. exact (Jo j Hc).
Qed.

(* J survives the change of one process entry to x, if x's lock is compatible with the locks of the others and
   x accounts for the open handles the process owns *)
Lemma J_set_proc w ps ow p x :
  J (mkl w ps ow) -> (p < length ps)%nat ->
  (forall q, q <> p -> (plock x = LWrite -> plock (pnth ps q) = LFree) /\
                       (plock (pnth ps q) = LWrite -> plock x = LFree)) ->
  (forall i, closed (hnth (snd w) i) = false -> nth i ow (length ps) = p ->
     pcur x = Some i /\ plock x <> LFree /\ (md (hnth (snd w) i) = MA -> plock x = LWrite)) ->
  J (mkl w (upd ps p x) ow).
Proof.
  intros [Jm Jo Jc] Hp Hx Hown. constructor; simpl in *.
  - intros a b Hab. destruct (Nat.eq_dec a p) as [->|Ha]; [|destruct (Nat.eq_dec b p) as [->|Hb]].
    + rewrite pnth_upd_same, pnth_upd_other by auto. apply Hx. auto.
    + rewrite pnth_upd_same, pnth_upd_other by auto. apply Hx. exact Ha.
    + rewrite !pnth_upd_other by auto. apply Jm. exact Hab.
  - intros i Hi. rewrite length_upd by exact Hp. destruct (Nat.eq_dec (nth i ow (length ps)) p) as [E|N].
    + rewrite E, pnth_upd_same by exact Hp. exact (Hown i Hi E).
    + rewrite pnth_upd_other by assumption. exact (Jo i Hi).
  - intros a i. rewrite length_upd by exact Hp. destruct (Nat.eq_dec a p) as [->|Ha]; [intros _; exact Hp|].
    rewrite pnth_upd_other by assumption. apply Jc.
Qed.

(* a process keeps or drops its lock and changes its entry otherwise at will, and handles may get closed on the way
   (open of the session of a lock holder, close, release, death): it is enough that every handle still open is
   unchanged and is not the one the process was using *)
Lemma J_detached w w' ps ow p x :
  J (mkl w ps ow) -> (p < length ps)%nat -> plock x = plock (pnth ps p) \/ plock x = LFree ->
  (forall j, closed (hnth (snd w') j) = false -> hnth (snd w') j = hnth (snd w) j /\ pcur (pnth ps p) <> Some j) ->
  J (mkl w' (upd ps p x) ow).
Proof.
  intros JJ Hp Hx Hopen.
  assert (J1 : J (mkl w' ps ow)).
  { apply J_handles with w; [exact JJ|]. intros j Hj. left. destruct (Hopen j Hj) as [E _]. rewrite <- E. auto. }
  pose proof (j_mutex _ J1) as Jm. apply J_set_proc; [exact J1|exact Hp| |].
  - intros q Hq. destruct Hx as [-> | ->]; split; try discriminate; eauto.
  - intros j Hj Ej. destruct (j_open _ J1 j Hj) as [A _]. simpl in A. rewrite Ej in A. destruct (Hopen j Hj) as [_ N]. contradiction.
Qed.

(* an open handle that is not the current handle of p is somebody else's, whose lock bounds p's *)
Lemma J_excl s p j : J s -> closed (hnth (snd (lw s)) j) = false -> pcur (pnth (procs s) p) <> Some j ->
  plock (pnth (procs s) p) <> LWrite /\ (md (hnth (snd (lw s)) j) = MA -> plock (pnth (procs s) p) = LFree).
Proof.
  intros [Jm Jo _] Hj Hp. destruct (Jo j Hj) as [A [B C]].
  assert (N : nth j (owner s) (length (procs s)) <> p) by congruence.
  split; [intros W; exact (B (Jm p _ (not_eq_sym N) W))|intros M; exact (Jm _ p N (C M))].
Qed.

Lemma others_ok_iff ps p f : forall k,
  others_ok ps p k f = true <->
  forall q, (q < length ps)%nat -> (k + q)%nat <> p -> f (plock (pnth ps q)) = true.
Proof.
  induction ps as [|a ps IH]; intros k; simpl.
  - split; [intros _ q Hq; inversion Hq|reflexivity].
  - rewrite andb_true_iff, orb_true_iff, Nat.eqb_eq, IH. split.
    + intros [Ha Hr] [|q] Hq Hk.
      * rewrite Nat.add_0_r in Hk. destruct Ha; [contradiction|assumption].
      * apply Nat.succ_lt_mono in Hq. apply Hr; [exact Hq|rewrite Nat.add_succ_comm; exact Hk].
    + intros Hall. split.
      * destruct (Nat.eq_dec k p) as [E|N]; [left; exact E|right].
        apply (Hall 0%nat); [apply Nat.lt_0_succ|rewrite Nat.add_0_r; exact N].
      * intros q Hq Hk. apply (Hall (S q)); [apply Nat.succ_lt_mono in Hq; exact Hq|rewrite <- Nat.add_succ_comm; exact Hk].
Qed.

Lemma others_ok_all ps p f : others_ok ps p 0 f = true -> f LFree = true ->
  forall q, q <> p -> f (plock (pnth ps q)) = true.
Proof.
  intros H Hf q Hq. destruct (Nat.lt_ge_cases q (length ps)) as [L|L].
  - apply (proj1 (others_ok_iff ps p f 0) H q L Hq).
  - unfold pnth. rewrite nth_overflow by exact L. exact Hf.
Qed.

(* the mode a lock allows; label_op and Model.Session.lstep spell this match out, hence the `cbn [mode_of]` in lstep_sound *)
Definition mode_of (k : lk) : mode := match k with LWrite => MA | _ => MR end.

Lemma lopen_sound w ps ow p i k :
  J (mkl w ps ow) -> plock (pnth ps p) = k -> k <> LFree -> pcur (pnth ps p) = None ->
  (p < length ps)%nat -> (i < length (snd w))%nat -> nth i ow (length ps) = p ->
  closed (hnth (snd w) i) = true ->
  J (mkl (fst (step w (Open i (mode_of k)))) (upd ps p (mkp k (Some i))) ow) /\ ok_op w (Open i (mode_of k)).
Proof.
  intros JJ Lk Hk Lc Lp Li Lo Lcl. split.
  - apply J_handles with w.
    + apply J_detached with w; [exact JJ|exact Lp|left; symmetry; exact Lk|]. intros j _. split; [reflexivity|congruence].
    + intros j Hj. destruct (Nat.eq_dec j i) as [->|Hji].
      * right. cbv zeta. rewrite length_upd, Lo, pnth_upd_same by exact Lp. simpl.
        destruct (step_at w (Open i (mode_of k)) Li Lcl) as [Hm _]. cbn [op_handle] in Hm.
        split; [reflexivity|split; [exact Hk|]]. rewrite Hm. destruct k; simpl; congruence.
      * left. rewrite (step_other w (Open i (mode_of k)) j Li Hji) in * by discriminate. split; [exact Hj|reflexivity].
  - assert (X : forall j, closed (hnth (snd w) j) = false ->
                 k <> LWrite /\ (md (hnth (snd w) j) = MA -> k = LFree)).
    { intros j Hj. rewrite <- Lk. apply (J_excl _ p j JJ Hj). simpl. rewrite Lc. discriminate. }
    destruct k; [contradiction| |]; (split; [exact Li|]); intros _ j _.
    + intros Hj. destruct (md (hnth (snd w) j)) eqn:Em; [reflexivity|]. destruct (X j Hj) as [_ M]. discriminate (M Em).
    + destruct (closed (hnth (snd w) j)) eqn:Hj; [reflexivity|]. destruct (X j Hj) as [W _]. contradiction.
Qed.

(* The central theorem: every enabled transition of the lock system performs a UKV operation that the
   session discipline of C02 allows, and preserves the invariant. *)
Theorem lstep_sound s l s' r :
  J s -> lstep s l = Some (s', r) ->
  J s' /\
  match label_op s l with
  | Some o => ok_op (lw s) o /\ step (lw s) o = (lw s', r)
  | None => lw s' = lw s
  end.
Proof.
  intros JJ E. destruct s as [w ps ow].
  destruct l as [p wr|p i|p o|p|p]; cbn [lstep label_op procs lw owner] in *.
  - (* LAcq: the guard says that the others' locks are compatible *)
    destruct (_ && _) eqn:C in E; [|discriminate]. injection E as <- <-.
    apply andb_prop in C as [C Lo]. apply andb_prop in C as [Lp Lf]. apply Nat.ltb_lt in Lp.
    assert (Hfree : plock (pnth ps p) = LFree) by (destruct (plock (pnth ps p)); (reflexivity || discriminate)).
    split; [|reflexivity]. apply J_set_proc; [exact JJ|exact Lp| |].
    + intros q Hq. pose proof (others_ok_all ps p _ Lo) as A. cbv beta in A.
      specialize (A (ltac:(destruct wr; reflexivity)) q Hq).
      destruct wr, (plock (pnth ps q)); split; (discriminate || reflexivity).
    + intros i Hi Ei. destruct (j_open _ JJ i Hi) as [_ [B _]]. simpl in B. rewrite Ei in B. contradiction.
  - (* LOpen *)
    destruct (plock (pnth ps p)) eqn:Lk; [discriminate|..].
    all: destruct (pcur (pnth ps p)) eqn:Lc; [discriminate|].
    all: destruct (_ && _) eqn:C in E; [|discriminate].
    all: apply andb_prop in C as [C Lcl]; apply andb_prop in C as [C Lo]; apply andb_prop in C as [Lp Li].
    all: apply Nat.ltb_lt in Lp, Li; apply Nat.eqb_eq in Lo.
    all: match type of E with context [step _ ?o] => destruct (step w o) as [w' r'] eqn:Es end; injection E as <- <-.
    all: edestruct (lopen_sound w ps ow p i _ JJ Lk) as [A B]; try eassumption; try discriminate.
    all: cbn [mode_of] in A, B; rewrite Es in A; split; [exact A|split; [exact B|reflexivity]].
  - (* LDo: Put, Get and Keys change no flag *)
    destruct (pcur (pnth ps p)) as [i|] eqn:Lc; [|discriminate]. destruct o; try discriminate.
    all: destruct (_ && _) eqn:C in E; [|discriminate]; apply andb_prop in C as [Eij Li].
    all: apply Nat.eqb_eq in Eij; apply Nat.ltb_lt in Li; subst i.
    all: match type of E with context [step _ ?o] =>
           pose proof (item_op_flags w o Li I) as Hfl; destruct (step w o) as [w' r'] end.
    all: injection E as <- <-; split; [|split; [exact Li|reflexivity]].
    all: apply J_handles with w; [exact JJ|]; intros j Hj; left; destruct (Hfl j) as [A B]; cbn [fst] in A, B; split; congruence.
  - (* LClose *)
    destruct (pcur (pnth ps p)) as [i|] eqn:Lc; [|discriminate].
    destruct (_ && _) eqn:C in E; [|discriminate]. apply andb_prop in C as [Lp Li]. apply Nat.ltb_lt in Lp, Li.
    destruct (step w (Close i)) as [w' r'] eqn:Es. injection E as <- <-.
    pose proof (step_at w (Close i) Li) as Hcl. pose proof (step_other w (Close i)) as Hoth. rewrite Es in Hcl, Hoth.
    cbn [op_handle fst] in Hcl, Hoth. split; [|split; [exact Li|exact Es]].
    apply J_detached with w; [exact JJ|exact Lp|left; reflexivity|]. intros j Hj.
    destruct (Nat.eq_dec j i) as [->|Hji]; [rewrite Hcl in Hj; discriminate|].
    split; [apply Hoth; (assumption || discriminate)|congruence].
  - (* LRel *)
    destruct (plock (pnth ps p)) eqn:Lk; [discriminate|..].
    all: destruct (pcur (pnth ps p)) eqn:Lc; [discriminate|].
    all: destruct (Nat.ltb p (length ps)) eqn:Lp; [|discriminate]; apply Nat.ltb_lt in Lp; injection E as <- <-.
    all: split; [|reflexivity]; apply J_detached with w; [exact JJ|exact Lp|right; reflexivity|].
    all: intros j _; split; [reflexivity|rewrite Lc; discriminate].
Qed.
