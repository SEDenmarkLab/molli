(* C05 -- facts about Model/MolEdit.v: the invariant Inv and the frame relation Keeps; the whole effect of add_atom
   and del_atom (add_atom_spec, del_atom_spec); step_post: a reflexive, transitive relation that add_atom, del_atom,
   append_bond and del_bond respect is respected by every operation, and step_good, its instance for Inv and Keeps;
   the initial states; what the search inside remove_substituent yields. *)
From Coq Require Import List Bool Arith ZArith NArith PArith Lia.
Import ListNotations.
From Molli Require Import Model.MolEdit.
From Molli Require Import Common.ListFacts.

(* up to del_atom_spec the lemmas are applied with the arguments their hypotheses determine left out *)
Set Implicit Arguments.

(* total version of del_nth *)
Fixpoint rm {A} (n : nat) (l : list A) : list A :=
  match l, n with
  | [], _ => []
  | _ :: r, O => r
  | x :: r, S k => x :: rm k r
  end.

Lemma del_nth_rm {A} : forall n (l : list A), n < length l -> del_nth n l = Some (rm n l).
Proof.
  induction n as [|n IH]; intros [|x l] H; simpl in *; try lia; [reflexivity|].
  rewrite IH by lia. reflexivity.
Qed.

Lemma del_nth_some {A} : forall n (l l' : list A), del_nth n l = Some l' -> n < length l /\ l' = rm n l.
Proof.
  induction n as [|n IH]; intros [|x l] l' H; simpl in *; try discriminate.
  - inversion H; split; [lia|reflexivity].
  - destruct (del_nth n l) eqn:E; simpl in H; [|discriminate]. inversion H; subst.
    apply IH in E. destruct E as [E1 E2]. split; [lia|]. rewrite E2. reflexivity.
Qed.

Lemma rm_length_eq {A B} : forall n (l1 : list A) (l2 : list B),
  length l1 = length l2 -> length (rm n l1) = length (rm n l2).
Proof.
  induction n as [|n IH]; intros [|x l1] [|y l2] H; simpl in *; try discriminate; try reflexivity.
  - inversion H; reflexivity.
  - f_equal. apply IH. lia.
Qed.

Lemma rm_length {A} : forall n (l : list A) x, nth_error l n = Some x -> S (length (rm n l)) = length l.
Proof.
  induction n as [|n IH]; intros [|y l] x H; simpl in *; try discriminate; [reflexivity|].
  f_equal. eapply IH, H.
Qed.

Lemma rm_in {A} : forall n (l : list A) x, In x (rm n l) -> In x l.
Proof.
  induction n as [|n IH]; intros [|y l] x H; simpl in *; auto.
  destruct H as [H|H]; [left; exact H | right; apply IH; exact H].
Qed.

Lemma rm_map {A B} (f : A -> B) : forall n (l : list A), map f (rm n l) = rm n (map f l).
Proof.
  induction n as [|n IH]; intros [|y l]; simpl; try reflexivity. f_equal. apply IH.
Qed.

Lemma rm_nodup {A} : forall n (l : list A), NoDup l -> NoDup (rm n l).
Proof.
  induction n as [|n IH]; intros [|y l] H; simpl; try assumption; inversion H; subst; [assumption|].
  constructor; [|apply IH; assumption]. intro Hin. apply rm_in in Hin. contradiction.
Qed.

Lemma rm_In_iff {A} : forall n (l : list A) x, NoDup l -> nth_error l n = Some x ->
  forall y, In y (rm n l) <-> In y l /\ y <> x.
Proof.
  induction n as [|n IH]; intros [|z l] x Hnd Hn y; simpl in *; try discriminate; inversion Hnd; subst.
  - inversion Hn; subst. split; [intros H; split; [auto|intros ->; contradiction]|intros [[->|H] Hne]; [congruence|exact H]].
  - rewrite (IH l x) by assumption. split; [|tauto].
    intros [->|H]; [|tauto]. split; [auto|]. intros ->. apply nth_error_In in Hn. contradiction.
Qed.

Lemma rm_tl {A} : forall n (l : list A), tl (rm (S n) l) = rm n (tl l).
Proof. intros n [|x l]; simpl; [destruct n|]; reflexivity. Qed.

Lemma find_idx_nth {A} (p : A -> bool) : forall l i,
  find_idx p l = Some i -> exists x, nth_error l i = Some x /\ p x = true.
Proof.
  induction l as [|y l IH]; intros i H; simpl in *; [discriminate|].
  destruct (p y) eqn:E.
  - inversion H; subst. exists y. simpl. auto.
  - destruct (find_idx p l) eqn:F; simpl in H; [|discriminate]. inversion H; subst.
    destruct (IH _ eq_refl) as [x Hx]. exists x. exact Hx.
Qed.

Lemma find_nth {A} (p : A -> bool) : forall l,
  find p l = match find_idx p l with Some i => nth_error l i | None => None end.
Proof.
  induction l as [|y l IH]; simpl; [reflexivity|].
  destruct (p y); [reflexivity|]. rewrite IH. destruct (find_idx p l); reflexivity.
Qed.

Lemma find_idx_none_find {A} (p : A -> bool) : forall l, find_idx p l = None -> find p l = None.
Proof. intros l H. rewrite find_nth, H. reflexivity. Qed.

Lemma find_idx_lt {A} (p : A -> bool) : forall l i, find_idx p l = Some i -> i < length l.
Proof.
  intros l i H. destruct (find_idx_nth p l H) as [x [Hx _]].
  apply nth_error_Some. congruence.
Qed.

Lemma find_idx_app_l {A} (p : A -> bool) : forall l l' i,
  find_idx p l = Some i -> find_idx p (l ++ l') = Some i.
Proof.
  induction l as [|y l IH]; intros l' i H; simpl in *; [discriminate|].
  destruct (p y); [exact H|].
  destruct (find_idx p l) eqn:F; simpl in H; [|discriminate].
  rewrite (IH l' n eq_refl). exact H.
Qed.

Lemma find_idx_app_r {A} (p : A -> bool) : forall l x,
  (forall y, In y l -> p y = false) -> p x = true -> find_idx p (l ++ [x]) = Some (length l).
Proof.
  induction l as [|y l IH]; intros x Hl Hx; simpl.
  - rewrite Hx. reflexivity.
  - rewrite (Hl y) by (left; reflexivity). rewrite IH; auto. intros z Hz. apply Hl. right; exact Hz.
Qed.

Lemma remove_first_spec {A} (p : A -> bool) : forall l,
  remove_first p l = option_map (fun i => rm i l) (find_idx p l).
Proof.
  induction l as [|y l IH]; simpl; [reflexivity|].
  destruct (p y); [reflexivity|]. rewrite IH. destruct (find_idx p l); reflexivity.
Qed.

Lemma mem_In x l : mem x l = true <-> In x l.
Proof. exact (existsb_eqb_In Pos.eqb Pos.eqb_eq x l). Qed.

Lemma nodup_b_NoDup l : nodup_b l = true <-> NoDup l.
Proof.
  induction l as [|x l IH]; simpl.
  - split; [constructor|reflexivity].
  - rewrite andb_true_iff, negb_true_iff, IH, <- not_true_iff_false, mem_In. split.
    + intros [H1 H2]. constructor; assumption.
    + intros H. inversion H; subst. split; assumption.
Qed.

Lemma id_is_true x a : id_is x a = true <-> a_id a = x.
Proof. unfold id_is. apply Pos.eqb_eq. Qed.

Lemma nodup_find_idx (l : list atom) : forall i a,
  NoDup (map a_id l) -> nth_error l i = Some a -> find_idx (id_is (a_id a)) l = Some i.
Proof.
  induction l as [|y l IH]; intros i a Hnd Hn; [destruct i; discriminate|].
  simpl in Hnd. inversion Hnd as [|? ? Hy Hl]; subst. destruct i as [|i]; simpl in *.
  - inversion Hn; subst. unfold id_is. rewrite Pos.eqb_refl. reflexivity.
  - destruct (id_is (a_id a) y) eqn:E.
    + apply id_is_true in E. exfalso. apply Hy. rewrite E.
      apply in_map. eapply nth_error_In; eauto.
    + rewrite (IH i a Hl Hn). reflexivity.
Qed.

Lemma in_ids_find_idx s y : In y (ids s) -> exists i, find_idx (id_is y) (atoms s) = Some i.
Proof.
  unfold ids. induction (atoms s) as [|a l IH]; simpl; intros H; [destruct H|].
  destruct (id_is y a) eqn:E; [eexists; reflexivity|].
  destruct H as [H|H]; [apply id_is_true in H; congruence|].
  destruct (IH H) as [i Hi]. rewrite Hi. eexists; reflexivity.
Qed.

Lemma is_member_In s x : is_member s x = true <-> In x (ids s).
Proof.
  unfold is_member, ids. rewrite existsb_exists, in_map_iff.
  split; intros [a [H1 H2]]; exists a; rewrite id_is_true in *; auto.
Qed.

Lemma nth_error_ids s i a : nth_error (atoms s) i = Some a -> nth_error (ids s) i = Some (a_id a).
Proof. intros H. unfold ids. rewrite nth_error_map, H. reflexivity. Qed.

Definition numeric (c : charge) : Prop := exists t, c = CNum t.

Definition Inv (s : st) : Prop :=
  length (coords s) = length (atoms s) /\
  (if has_q s then length (charges s) = length (atoms s) /\ Forall numeric (charges s)
   else charges s = []) /\
  NoDup (ids s) /\
  (forall a, In a (atoms s) -> a_par a = OThis /\ (a_id a < next_a s)%positive) /\
  NoDup (bids s) /\
  (forall b, In b (bonds s) ->
     b_par b = OThis /\ (b_id b < next_b s)%positive /\ In (b_a1 b) (ids s) /\ In (b_a2 b) (ids s)).

Lemma owner_eqb_eq a b : owner_eqb a b = true <-> a = b.
Proof. destruct a, b; simpl; split; intros H; try reflexivity; discriminate. Qed.

Lemma is_num_numeric c : is_num c = true <-> numeric c.
Proof.
  destruct c; simpl; split; intros H; try discriminate; try reflexivity.
  - eexists; reflexivity.
  - destruct H; discriminate.
Qed.

Lemma forallb_iff {A} (f : A -> bool) (P : A -> Prop) l :
  (forall x, f x = true <-> P x) -> (forallb f l = true <-> forall x, In x l -> P x).
Proof. intros H. rewrite forallb_forall. split; intros G x Hx; apply H, G, Hx. Qed.

(* the conjunction of six tests, as inv_b nests them, and of what they decide, as Inv does *)
Lemma andb6_iff a b c d e g A B C D E G :
  (a = true <-> A) -> (b = true <-> B) -> (c = true <-> C) -> (d = true <-> D) -> (e = true <-> E) -> (g = true <-> G) ->
  (a && b && c && d && e && g = true <-> A /\ B /\ C /\ D /\ E /\ G).
Proof. intros Ha Hb Hc Hd He Hg. rewrite !andb_true_iff, Ha, Hb, Hc, Hd, He, Hg, !and_assoc. reflexivity. Qed.

(* inv_b is Inv clause by clause, each test replaced by the proposition it decides *)
Lemma inv_b_iff s : inv_b s = true <-> Inv s.
Proof.
  apply andb6_iff.
  - apply Nat.eqb_eq.
  - destruct (has_q s).
    + rewrite andb_true_iff, Nat.eqb_eq, Forall_forall. apply and_iff_compat_l, forallb_iff, is_num_numeric.
    + destruct (charges s); split; intros H; try reflexivity; discriminate.
  - apply nodup_b_NoDup.
  - apply forallb_iff. intros a. rewrite andb_true_iff, owner_eqb_eq, Pos.ltb_lt. reflexivity.
  - apply nodup_b_NoDup.
  - apply forallb_iff. intros b. rewrite !andb_true_iff, owner_eqb_eq, Pos.ltb_lt, !mem_In. tauto.
Qed.

Lemma ids_lt s : Inv s -> forall y, In y (ids s) -> (y < next_a s)%positive.
Proof.
  intros HI y Hy. unfold ids in Hy. apply in_map_iff in Hy. destruct Hy as [a [<- Ha]].
  destruct HI as [_ [_ [_ [H4 _]]]]. apply H4. exact Ha.
Qed.

Definition row3 (y : positive) (ats : list atom) (cs : list Z) (qs : list charge) : option (Z * option charge) :=
  match find_idx (id_is y) ats with
  | None => None
  | Some i => match nth_error cs i with
              | None => None
              | Some c => Some (c, nth_error qs i)
              end
  end.

Lemma row_of_row3 s y : row_of s y = row3 y (atoms s) (coords s) (charges s).
Proof. reflexivity. Qed.

Lemma row3_cons y a ats c cs qs :
  row3 y (a :: ats) (c :: cs) qs = if id_is y a then Some (c, nth_error qs 0) else row3 y ats cs (tl qs).
Proof.
  unfold row3. simpl. destruct (id_is y a); [reflexivity|].
  destruct (find_idx (id_is y) ats); simpl; [|reflexivity].
  destruct (nth_error cs n); [|reflexivity]. destruct qs; simpl; [destruct n|]; reflexivity.
Qed.

Lemma row3_rm y : forall ats i cs qs a,
  length cs = length ats -> nth_error ats i = Some a -> a_id a <> y ->
  row3 y (rm i ats) (rm i cs) (rm i qs) = row3 y ats cs qs.
Proof.
  induction ats as [|a0 ats IH]; intros i cs qs a Hlen Hn Hne; [destruct i; discriminate|].
  destruct cs as [|c0 cs]; [discriminate|]. simpl in Hlen.
  destruct i as [|i]; simpl in Hn.
  - inversion Hn; subst. simpl. rewrite row3_cons.
    apply Pos.eqb_neq in Hne. unfold id_is at 1. rewrite Hne. destruct qs; reflexivity.
  - change (rm (S i) (a0 :: ats)) with (a0 :: rm i ats).
    change (rm (S i) (c0 :: cs)) with (c0 :: rm i cs).
    rewrite !row3_cons. destruct (id_is y a0).
    + destruct qs; reflexivity.
    + rewrite rm_tl. eapply IH; eauto.
Qed.

Lemma row3_app y ats cs qs a c qs' i :
  find_idx (id_is y) ats = Some i -> length cs = length ats -> (qs = [] \/ length qs = length ats) ->
  (qs = [] -> qs' = []) ->
  row3 y (ats ++ [a]) (cs ++ [c]) (qs ++ qs') = row3 y ats cs qs.
Proof.
  intros Hf Hc Hq Hq'. unfold row3. rewrite (find_idx_app_l _ _ [a] Hf), Hf.
  pose proof (find_idx_lt _ _ Hf) as Hlt.
  rewrite nth_error_app1 by lia.
  destruct (nth_error cs i); [|reflexivity].
  destruct Hq as [Hq|Hq].
  - subst. rewrite (Hq' eq_refl). reflexivity.
  - rewrite nth_error_app1 by lia. reflexivity.
Qed.

(* the atom at position i (named x) is gone, with its row, its charge and its bonds *)
Definition deleted (s : st) (i : nat) (x : positive) : st :=
  mkSt (has_q s) (rm i (atoms s)) (rm i (coords s)) (rm i (charges s))
       (filter (fun b => negb (incident x b)) (bonds s)) (next_a s) (next_b s).

(* a new atom, named next_a s, with row c (and charge q for a Molecule) *)
Definition added (s : st) (e : N) (l : option N) (c : Z) (q : Z) : st :=
  mkSt (has_q s) (atoms s ++ [mkAtom (next_a s) e l OThis]) (coords s ++ [c])
       (if has_q s then charges s ++ [CNum q] else charges s) (bonds s) (Pos.succ (next_a s)) (next_b s).

(* the frame relation: names only grow, atoms only disappear or are new, and every atom present
   before and after has the same coordinate row and the same charge *)
Definition Keeps (s s' : st) : Prop :=
  has_q s' = has_q s /\
  (next_a s <= next_a s')%positive /\ (next_b s <= next_b s')%positive /\
  (forall y, In y (ids s') -> In y (ids s) \/ (next_a s <= y)%positive) /\
  (forall y, In y (ids s) -> In y (ids s') -> row_of s' y = row_of s y).

Lemma Keeps_refl s : Keeps s s.
Proof. unfold Keeps. repeat split; try reflexivity; auto. Qed.

Lemma Keeps_trans s1 s2 s3 : Inv s1 -> Keeps s1 s2 -> Keeps s2 s3 -> Keeps s1 s3.
Proof.
  intros HI [A1 [A2 [A3 [A4 A5]]]] [B1 [B2 [B3 [B4 B5]]]].
  unfold Keeps. repeat split.
  - congruence.
  - lia.
  - lia.
  - intros y Hy. destruct (B4 y Hy) as [H|H]; [destruct (A4 y H); auto|right; lia].
  - intros y H1 H3. destruct (B4 y H3) as [H|H].
    + rewrite B5 by assumption. apply A5; assumption.
    + pose proof (ids_lt HI y H1). lia.
Qed.

Lemma ids_deleted s i x : ids (deleted s i x) = rm i (ids s).
Proof. apply rm_map. Qed.

Lemma Inv_deleted s i a : Inv s -> nth_error (atoms s) i = Some a -> Inv (deleted s i (a_id a)).
Proof.
  intros [H1 [H2 [H3 [H4 [H5 H6]]]]] Hn. apply nth_error_ids in Hn as Hi.
  unfold Inv. rewrite ids_deleted. unfold bids. simpl.
  split; [apply rm_length_eq, H1|]. split.
  { destruct (has_q s); [|rewrite H2; destruct i; reflexivity].
    destruct H2 as [H2 H2']. split; [apply rm_length_eq, H2|].
    eapply incl_Forall; [|exact H2']. intros c. apply rm_in. }
  split; [apply rm_nodup, H3|]. split; [intros b Hb; eapply H4, rm_in, Hb|].
  split; [apply NoDup_map_filter, H5|].
  intros b Hb. apply filter_In in Hb. destruct Hb as [Hb Hinc]. destruct (H6 b Hb) as [P1 [P2 [P3 P4]]].
  unfold incident in Hinc. apply negb_true_iff, orb_false_iff in Hinc. destruct Hinc as [E1 E2].
  apply Pos.eqb_neq in E1, E2. repeat split; try assumption; apply (rm_In_iff _ H3 Hi); split; assumption.
Qed.

Lemma Keeps_deleted s i a : Inv s -> nth_error (atoms s) i = Some a -> Keeps s (deleted s i (a_id a)).
Proof.
  intros [H1 [_ [H3 _]]] Hn. apply nth_error_ids in Hn as Hi.
  unfold Keeps. rewrite ids_deleted. repeat split; try reflexivity.
  - intros y Hy. left. eapply rm_in, Hy.
  - intros y _ Hy. apply (rm_In_iff _ H3 Hi) in Hy. rewrite !row_of_row3.
    apply row3_rm with (a := a); auto. intros E. apply Hy. symmetry. exact E.
Qed.

Lemma Inv_added s e l c q : Inv s -> Inv (added s e l c q).
Proof.
  intros [H1 [H2 [H3 [H4 [H5 H6]]]]]. unfold Inv, added, ids, bids in *. simpl.
  rewrite !app_length, map_app. simpl.
  split; [lia|]. split.
  { destruct (has_q s); [|exact H2]. destruct H2 as [H2 H2']. rewrite app_length. simpl. split; [lia|].
    apply Forall_app. split; [exact H2'|]. repeat constructor. eexists; reflexivity. }
  split.
  { apply NoDup_snoc. split; [exact H3|].
    intro Hin. apply in_map_iff in Hin. destruct Hin as [a [E Ha]]. destruct (H4 a Ha) as [_ Hlt]. lia. }
  split.
  { intros a Ha. apply in_app_or in Ha. destruct Ha as [Ha|[<-|[]]]; [destruct (H4 a Ha); split; [assumption|lia]|simpl; split; [reflexivity|lia]]. }
  split; [exact H5|].
  intros b Hb. destruct (H6 b Hb) as [P1 [P2 [P3 P4]]]. repeat split; try assumption; apply in_or_app; left; assumption.
Qed.

Lemma Keeps_added s e l c q : Inv s -> Keeps s (added s e l c q).
Proof.
  intros [H1 [H2 _]].
  unfold Keeps. repeat split; simpl; try reflexivity; try lia.
  - intros y Hy. unfold added, ids in Hy. simpl in Hy. rewrite map_app in Hy.
    apply in_app_or in Hy. destruct Hy as [Hy|[Hy|[]]]; [left; exact Hy|right; simpl in Hy; lia].
  - intros y Hy _. destruct (in_ids_find_idx s y Hy) as [i Hi].
    rewrite !row_of_row3. unfold added. simpl. destruct (has_q s).
    + destruct H2 as [H2 _]. apply row3_app with (i := i); auto. intros E. rewrite E in H2.
      pose proof (find_idx_lt _ _ Hi). simpl in H2. lia.
    + rewrite <- (app_nil_r (charges s)) at 1. apply row3_app with (i := i); auto.
Qed.

Lemma added_row s e l c q : Inv s ->
  row_of (added s e l c q) (next_a s) = Some (c, if has_q s then Some (CNum q) else None).
Proof.
  intros [H1 [H2 [H3 [H4 _]]]]. unfold row_of, added. simpl.
  rewrite find_idx_app_r.
  - rewrite nth_error_app2 by lia. rewrite H1, Nat.sub_diag. simpl.
    destruct (has_q s).
    + destruct H2 as [H2 _]. rewrite nth_error_app2 by lia. rewrite H2, Nat.sub_diag. reflexivity.
    + rewrite H2. destruct (length (atoms s)); reflexivity.
  - intros a Ha. destruct (H4 a Ha) as [_ Hlt]. unfold id_is. apply Pos.eqb_neq. lia.
  - unfold id_is. simpl. apply Pos.eqb_refl.
Qed.

Lemma add_atom_spec s e l c q :
  add_atom s e l c q = match c with
                       | None => Err s
                       | Some c' => Ok (added s e l c' (match q with Some t => t | None => 0%Z end))
                       end.
Proof.
  unfold add_atom, mol_add_atom, geom_add_atom, added. destruct (has_q s) eqn:E; destruct c; simpl; reflexivity.
Qed.

Lemma get_atom_in s sl a : get_atom s sl = Some a -> exists i, nth_error (atoms s) i = Some a.
Proof.
  destruct sl as [ox|iz|lb|el]; simpl; intros H;
    try (rewrite find_nth in H; destruct (find_idx _ _); [eauto|discriminate]).
  destruct (py_index (length (atoms s)) iz); [eauto|discriminate].
Qed.

Lemma get_atom_index_agrees s sl i a :
  get_atom_index s sl = Some i -> get_atom s sl = Some a -> nth_error (atoms s) i = Some a.
Proof.
  destruct sl as [ox|iz|lb|el]; simpl; intros Hi Ha;
    try (rewrite find_nth, Hi in Ha; exact Ha).
  destruct ((0 <=? iz)%Z && (iz <? Z.of_nat (length (atoms s)))%Z) eqn:E; [|discriminate].
  apply andb_true_iff in E. destruct E as [E1 E2]. inversion Hi; subst.
  unfold py_index in Ha. rewrite E1, E2 in Ha. exact Ha.
Qed.

Lemma same_ends_incident x b y :
  same_ends (b_a1 b) (b_a2 b) y = true -> incident x b = true -> incident x y = true.
Proof.
  unfold same_ends, incident. intros H1 H2. apply orb_prop in H1, H2. apply orb_true_iff.
  destruct H1 as [H1|H1]; apply andb_prop in H1; destruct H1 as [A B]; apply Pos.eqb_eq in A, B; rewrite A, B; tauto.
Qed.

Lemma same_ends_refl b : same_ends (b_a1 b) (b_a2 b) b = true.
Proof. unfold same_ends. rewrite !Pos.eqb_refl. reflexivity. Qed.

Lemma remove_first_mid {A} (p : A -> bool) : forall pre b cur,
  (forall y, In y pre -> p y = false) -> p b = true -> remove_first p (pre ++ b :: cur) = Some (pre ++ cur).
Proof.
  induction pre as [|z pre IH]; intros b cur Hpre Hb; simpl.
  - rewrite Hb. reflexivity.
  - rewrite (Hpre z) by (left; reflexivity). rewrite IH; auto. intros y Hy. apply Hpre. right. exact Hy.
Qed.

Lemma fold_bind_stuck {X} (G : st -> X -> res) : forall l r,
  (forall s, r <> Ok s) -> fold_left (fun r x => bind r (fun s' => G s' x)) l r = r.
Proof.
  induction l as [|x l IH]; intros r Hr; simpl; [reflexivity|].
  destruct r; try (apply IH; intros s0; discriminate). exfalso. eapply Hr. reflexivity.
Qed.

(* the loop of Connectivity.del_atom, with the bonds already passed (none incident) as an accumulator *)
Lemma del_bonds_loop_gen x : forall cur pre s0,
  (forall b, In b pre -> incident x b = false) -> bonds s0 = pre ++ cur ->
  del_bonds_loop (filter (incident x) cur) s0
  = Ok (set_bonds s0 (pre ++ filter (fun b => negb (incident x b)) cur)).
Proof.
  induction cur as [|b cur IH]; intros pre s0 Hpre Hb; simpl.
  - unfold del_bonds_loop. simpl. rewrite <- Hb. destruct s0; reflexivity.
  - destruct (incident x b) eqn:E; simpl.
    + unfold del_bonds_loop. simpl. unfold conn_del_bond at 2. rewrite Hb.
      rewrite remove_first_mid.
      * change (fold_left _ (filter (incident x) cur) (Ok ?s)) with (del_bonds_loop (filter (incident x) cur) s).
        rewrite (IH pre); [reflexivity|exact Hpre|reflexivity].
      * intros y Hy. destruct (same_ends (b_a1 b) (b_a2 b) y) eqn:F; [|reflexivity].
        pose proof (same_ends_incident x b y F E) as G. rewrite (Hpre y Hy) in G. discriminate.
      * apply same_ends_refl.
    + rewrite (IH (pre ++ [b])).
      * rewrite <- app_assoc. reflexivity.
      * intros y Hy. apply in_app_or in Hy. destruct Hy as [Hy|[<-|[]]]; [apply Hpre; exact Hy|exact E].
      * rewrite <- app_assoc. exact Hb.
Qed.

Lemma del_bonds_loop_spec s x :
  del_bonds_loop (filter (incident x) (bonds s)) s
  = Ok (set_bonds s (filter (fun b => negb (incident x b)) (bonds s))).
Proof. apply (del_bonds_loop_gen x (bonds s) [] s); [intros b []|reflexivity]. Qed.

(* deletion through the geometry layer, by object: everything but the charge row *)
Lemma geom_del_obj s j a :
  NoDup (ids s) -> length (coords s) = length (atoms s) -> nth_error (atoms s) j = Some a ->
  geom_del_atom s (ByObj (a_id a))
  = Ok (mkSt (has_q s) (rm j (atoms s)) (rm j (coords s)) (charges s)
             (filter (fun b => negb (incident (a_id a) b)) (bonds s)) (next_a s) (next_b s)).
Proof.
  intros Hnd Hlen Hn.
  pose proof (nodup_find_idx (atoms s) j Hnd Hn) as Hf.
  assert (Hfind : find (id_is (a_id a)) (atoms s) = Some a).
  { rewrite find_nth, Hf. exact Hn. }
  unfold geom_del_atom. simpl get_atom_index. rewrite Hf.
  assert (Hj : j < length (coords s)).
  { rewrite Hlen. apply nth_error_Some. congruence. }
  rewrite (del_nth_rm _ Hj).
  unfold conn_del_atom. simpl get_atom. rewrite Hfind.
  rewrite (del_bonds_loop_spec (set_coords s (rm j (coords s))) (a_id a)). simpl bind.
  unfold pm_del_atom. simpl get_atom. rewrite Hfind.
  simpl atoms. rewrite remove_first_spec, Hf. reflexivity.
Qed.

Unset Implicit Arguments.

(* del_atom under the invariant: the designated atom is deleted, or nothing happens because the designator
   does not resolve *)
Lemma del_atom_spec s sl : Inv s ->
  match del_atom s sl with
  | Ok s' => exists a i, get_atom s sl = Some a /\ nth_error (atoms s) i = Some a /\ s' = deleted s i (a_id a)
  | Err s' => s' = s /\ (get_atom s sl = None \/ get_atom_index s sl = None)
  | _ => False
  end.
Proof.
  intros [H1 [H2 [H3 _]]]. unfold del_atom. destruct (has_q s) eqn:Eq.
  - unfold mol_del_atom. destruct (get_atom_index s sl) as [i|] eqn:Ei; [|auto].
    unfold struct_del_atom. destruct (get_atom s sl) as [a|] eqn:Ea; [|simpl; auto].
    pose proof (get_atom_index_agrees s sl Ei Ea) as Hn.
    rewrite (geom_del_obj s i H3 H1 Hn). simpl bind.
    destruct H2 as [H2 _].
    assert (Hi : i < length (charges s)). { rewrite H2. apply nth_error_Some. congruence. }
    simpl charges. rewrite (del_nth_rm _ Hi). eauto.
  - unfold struct_del_atom. destruct (get_atom s sl) as [a|] eqn:Ea; [|auto].
    destruct (get_atom_in s sl Ea) as [i Hn].
    rewrite (geom_del_obj s i H3 H1 Hn).
    exists a, i. split; [reflexivity|split; [exact Hn|]]. unfold deleted. rewrite H2.
    replace (rm i (@nil charge)) with (@nil charge) by (destruct i; reflexivity). reflexivity.
Qed.

(* [post P U F s r]: the state that r returns or leaves behind is related to s by P; U, F hold if r is
   Unspec, OutOfFuel.  Every operation is built with guards, bind and fold_left from add_atom, del_atom,
   append_bond and del_bond, so a reflexive and transitive P that these four respect is respected by every
   operation. *)
Section Post.
  Variables (P : st -> st -> Prop) (U F : Prop).

  Definition post (s : st) (r : res) : Prop :=
    match r with Ok s' | Err s' => P s s' | Unspec => U | OutOfFuel => F end.

  Hypothesis P_refl : forall s, P s s.
  Hypothesis P_trans : forall s1 s2 s3, P s1 s2 -> P s2 s3 -> P s1 s3.

  Lemma post_bind s r f : post s r -> (forall s1, post s1 (f s1)) -> post s (bind r f).
  Proof.
    intros Hr Hf. destruct r as [s1| | |]; simpl; auto.
    specialize (Hf s1). destruct (f s1); simpl in *; eauto.
  Qed.

  Lemma post_fold {X} (G : st -> X -> res) : (forall s x, post s (G s x)) ->
    forall l s r, post s r -> post s (fold_left (fun r x => bind r (fun s' => G s' x)) l r).
  Proof.
    intros HG. induction l as [|x l IH]; intros s r Hr; simpl; [exact Hr|].
    apply IH, post_bind; auto.
  Qed.

  Hypothesis P_del_bond : forall s x y, post s (conn_del_bond s x y).

  (* del_atom from its layers (the invariant gives its whole effect at once: del_atom_spec) *)
  Section DelAtom.
    Hypothesis P_pm_del_atom : forall s sl, post s (pm_del_atom s sl).
    Hypothesis P_coords : forall s cs, P s (set_coords s cs).
    Hypothesis P_charges : forall s qs, P s (set_charges s qs).

    Lemma del_atom_post s sl : post s (del_atom s sl).
    Proof.
      assert (Hg : forall s sl, post s (geom_del_atom s sl)).
      { clear s sl. intros s sl. unfold geom_del_atom.
        destruct (get_atom_index s sl) as [i|]; [|apply P_refl].
        destruct (del_nth i (coords s)) as [cs|]; [|apply P_refl].
        apply (post_bind s (Ok (set_coords s cs)) (fun s' => conn_del_atom s' sl)); [apply P_coords|].
        intros s1. unfold conn_del_atom. destruct (get_atom s1 sl) as [a|]; [|apply P_refl].
        apply post_bind; [|intros s2; apply P_pm_del_atom].
        apply (post_fold (fun s' b => conn_del_bond s' (b_a1 b) (b_a2 b))); [intros; apply P_del_bond|apply P_refl]. }
      assert (Hs : post s (struct_del_atom s sl)).
      { unfold struct_del_atom. destruct (get_atom s sl); [apply Hg|apply P_refl]. }
      unfold del_atom, mol_del_atom. destruct (has_q s); [|exact Hs].
      destruct (get_atom_index s sl) as [i|]; [|apply P_refl].
      apply post_bind; [exact Hs|]. intros s1. destruct (del_nth i (charges s1)); [apply P_charges|apply P_refl].
    Qed.
  End DelAtom.

  Hypothesis P_add_atom : forall s e l c q, post s (add_atom s e l c q).
  Hypothesis P_del_atom : forall s sl, post s (del_atom s sl).
  Hypothesis P_append_bond : forall s x y, post s (conn_append_bond s x y).
  Hypothesis P_fuel : forall s vis a out, bfs_loop (bfs_fuel s) s vis [a] out = None -> F.

  Lemma connect_post s s1 s2 : post s (conn_connect s s1 s2).
  Proof.
    unfold conn_connect. destruct (get_atom s s1); [|apply P_refl].
    destruct (get_atom s s2); [apply P_append_bond|apply P_refl].
  Qed.

  Lemma remove_substituent_post s s1 s2 l : post s (remove_substituent s s1 s2 l).
  Proof.
    unfold remove_substituent.
    destruct (get_atom s s1) as [a1|]; [|apply P_refl].
    destruct (get_atom s s2) as [a2|]; [|apply P_refl].
    destruct (get_atom_index s (ByObj (a_id a2))) as [i2|]; [|apply P_refl].
    destruct (nth_error (coords s) i2) as [c2|]; [|apply P_refl].
    destruct (mem (a_id a2) (neighbours s (a_id a1))); [|apply P_refl].
    destruct (bfs_loop (bfs_fuel s) s [a_id a2; a_id a1] [a_id a2] [a_id a2]) as [out|] eqn:E;
      [|exact (P_fuel _ _ _ _ E)].
    apply post_bind.
    - apply (post_fold (fun s' x => del_atom s' (ByObj x))); [intros; apply P_del_atom|apply P_refl].
    - intros sa. apply post_bind; [apply P_add_atom|]. intros sb. apply connect_post.
  Qed.

  Lemma add_hs_one_post s x cs : post s (add_hs_one s x cs).
  Proof.
    unfold add_hs_one. destruct (is_member s x); [|apply P_refl].
    apply (post_fold (fun s' c => bind (add_atom s' el_H None (Some c) None)
                                       (fun s'' => conn_append_bond s'' x (next_a s')))); [|apply P_refl].
    intros s0 c. apply post_bind; [apply P_add_atom|]. intros s1. apply P_append_bond.
  Qed.

  Theorem step_post s o : post s (step s o).
  Proof.
    destruct o; simpl.
    - apply P_add_atom.
    - apply P_add_atom.
    - apply P_del_atom.
    - apply connect_post.
    - apply P_append_bond.
    - apply (post_fold (fun s' p => conn_append_bond s' (fst p) (snd p))); [intros; apply P_append_bond|apply P_refl].
    - apply P_del_bond.
    - apply remove_substituent_post.
    - apply (post_fold (fun s' p => add_hs_one s' (fst p) (snd p))); [intros; apply add_hs_one_post|apply P_refl].
  Qed.
End Post.

(* carrying the invariant as a premise makes the relation reflexive and transitive as it stands *)
Definition Good (s s' : st) : Prop := Inv s -> Inv s' /\ Keeps s s'.

Lemma Good_trans s1 s2 s3 : Good s1 s2 -> Good s2 s3 -> Good s1 s3.
Proof.
  intros A B HI. destruct (A HI) as [A1 A2]. destruct (B A1) as [B1 B2].
  split; [exact B1|exact (Keeps_trans HI A2 B2)].
Qed.

(* a state that differs from s in its bonds only: the new list has distinct names, and each bond in it is an old
   one or has the properties the invariant asks for *)
Lemma Good_bonds s bs nb :
  (next_b s <= nb)%positive -> (Inv s -> NoDup (map b_id bs)) ->
  (Inv s -> forall b, In b bs -> In b (bonds s) \/
     b_par b = OThis /\ (b_id b < nb)%positive /\ In (b_a1 b) (ids s) /\ In (b_a2 b) (ids s)) ->
  Good s (mkSt (has_q s) (atoms s) (coords s) (charges s) bs (next_a s) nb).
Proof.
  intros Hnb Hnd Hbs HI. split; [|unfold Keeps, ids, row_of; simpl; repeat split; auto; reflexivity].
  specialize (Hnd HI). specialize (Hbs HI). destruct HI as [H1 [H2 [H3 [H4 [_ H6]]]]].
  unfold Inv, ids, bids in *. simpl. repeat (split; [assumption|]).
  intros b Hb. destruct (Hbs b Hb) as [Ho|Hn]; [|exact Hn].
  destruct (H6 b Ho) as [P1 [P2 P3]]. split; [exact P1|]. split; [lia|exact P3].
Qed.

Lemma good_append_bond s x y : post Good True True s (conn_append_bond s x y).
Proof.
  unfold conn_append_bond. destruct (is_member s x && is_member s y) eqn:E; [|exact I].
  apply andb_true_iff in E. rewrite !is_member_In in E.
  apply Good_bonds; [lia| |].
  - intros [_ [_ [_ [_ [H5 H6]]]]]. rewrite map_app. apply NoDup_snoc. split; [exact H5|].
    intro Hin. apply in_map_iff in Hin. destruct Hin as [b [Eb Hb]].
    destruct (H6 b Hb) as [_ [Hlt _]]. simpl in Eb. lia.
  - intros _ b Hb. apply in_app_or in Hb. destruct Hb as [Hb|[<-|[]]]; [left; exact Hb|right; simpl].
    split; [reflexivity|]. split; [lia|exact E].
Qed.

Lemma good_del_bond s x y : post Good True True s (conn_del_bond s x y).
Proof.
  unfold conn_del_bond.
  destruct (remove_first (same_ends x y) (bonds s)) as [l'|] eqn:E; [|intros HI; split; [exact HI|apply Keeps_refl]].
  rewrite remove_first_spec in E. destruct (find_idx _ _) as [i|]; [injection E as <-|discriminate].
  apply (Good_bonds s (rm i (bonds s)) (next_b s)); [lia| |].
  - intros [_ [_ [_ [_ [H5 _]]]]]. rewrite rm_map. apply rm_nodup, H5.
  - intros _ b Hb. left. eapply rm_in, Hb.
Qed.

Theorem step_good s o : post Good True True s (step s o).
Proof.
  apply step_post; [|exact Good_trans|exact good_del_bond| | |exact good_append_bond|intros; exact I].
  - intros s0 HI. split; [exact HI|apply Keeps_refl].
  - intros s0 e l c q. rewrite add_atom_spec. destruct c; intros HI.
    + split; [apply Inv_added|apply Keeps_added]; exact HI.
    + split; [exact HI|apply Keeps_refl].
  - intros s0 sl. pose proof (del_atom_spec s0 sl) as H. destruct (del_atom s0 sl); simpl; auto; intros HI.
    + destruct (H HI) as [a [i [_ [Hn ->]]]]. split; [apply Inv_deleted|apply Keeps_deleted]; assumption.
    + destruct (H HI) as [-> _]. split; [exact HI|apply Keeps_refl].
Qed.

Theorem run_good : forall h s s', run s h = Some s' -> Good s s'.
Proof.
  induction h as [|o h IH]; intros s s' H; simpl in H.
  - inversion H; subst. intros HI. split; [exact HI|apply Keeps_refl].
  - pose proof (step_good s o) as G.
    destruct (step s o); try discriminate; exact (Good_trans _ _ _ G (IH _ _ H)).
Qed.

Theorem inv_step s o s' : Inv s -> (step s o = Ok s' \/ step s o = Err s') -> Inv s'.
Proof. intros HI [H|H]; pose proof (step_good s o) as G; rewrite H in G; apply G, HI. Qed.

Theorem keeps_step s o s' : Inv s -> (step s o = Ok s' \/ step s o = Err s') ->
  (forall y, In y (ids s) -> In y (ids s') -> row_of s' y = row_of s y) /\
  (forall y, In y (ids s') -> In y (ids s) \/ (next_a s <= y)%positive).
Proof.
  intros HI [H|H]; pose proof (step_good s o) as G; rewrite H in G;
    destruct (G HI) as [_ [_ [_ [_ [G4 G5]]]]]; auto.
Qed.

Theorem del_atom_exact s sl s' : Inv s -> del_atom s sl = Ok s' ->
  exists a, get_atom s sl = Some a /\ In a (atoms s) /\
    bonds s' = filter (fun b => negb (incident (a_id a) b)) (bonds s) /\
    (forall y, In y (ids s') <-> In y (ids s) /\ y <> a_id a) /\
    S (length (atoms s')) = length (atoms s).
Proof.
  intros HI H. pose proof (del_atom_spec s sl HI) as Hs. rewrite H in Hs.
  destruct Hs as [a [i [Ha [Hn ->]]]]. exists a. split; [exact Ha|].
  split; [eapply nth_error_In; eauto|]. split; [reflexivity|].
  destruct HI as [_ [_ [H3 _]]]. rewrite ids_deleted.
  split; [apply (rm_In_iff _ H3 (nth_error_ids s i Hn))|exact (rm_length _ _ Hn)].
Qed.

(* remove_substituent and add_implicit_hydrogens are sequences of the others and can raise after a part is done *)
Definition atomic (o : op) : bool :=
  match o with RemoveSubst _ _ _ | AddHs _ => false | _ => true end.

Lemma append_bond_no_err s x y s' : conn_append_bond s x y <> Err s'.
Proof. unfold conn_append_bond. destruct (is_member s x && is_member s y); discriminate. Qed.

Lemma append_bonds_no_err l : forall s s', append_bonds s l <> Err s'.
Proof.
  unfold append_bonds. induction l as [|p l IH]; intros s s'; simpl; [discriminate|].
  pose proof (append_bond_no_err s (fst p) (snd p)) as Hp.
  destruct (conn_append_bond s (fst p) (snd p)); [apply IH|exfalso; eapply Hp; reflexivity| |];
    rewrite fold_bind_stuck by (intros; discriminate); discriminate.
Qed.

Theorem err_unchanged s o s' : Inv s -> atomic o = true -> step s o = Err s' -> s' = s.
Proof.
  intros HI Ha H. destruct o; simpl in *; try discriminate.
  - rewrite add_atom_spec in H. destruct c; congruence.
  - rewrite add_atom_spec in H. discriminate.
  - pose proof (del_atom_spec s sl HI) as Hs. rewrite H in Hs. apply Hs.
  - unfold conn_connect in H. destruct (get_atom s s1); [|congruence].
    destruct (get_atom s s2); [|congruence]. exfalso. eapply append_bond_no_err; eauto.
  - exfalso. eapply append_bond_no_err; eauto.
  - exfalso. eapply append_bonds_no_err; eauto.
  - unfold conn_del_bond in H. destruct (remove_first (same_ends x y) (bonds s)); congruence.
Qed.

Theorem add_atom_row s e l c q : Inv s ->
  exists s', step s (AddAtom e l (Some c) q) = Ok s' /\ Inv s' /\
    ids s' = ids s ++ [next_a s] /\
    row_of s' (next_a s) = Some (c, if has_q s then Some (CNum (match q with Some t => t | None => 0%Z end)) else None).
Proof.
  intros HI. simpl. rewrite add_atom_spec. eexists. split; [reflexivity|].
  split; [apply Inv_added, HI|]. split; [apply map_app|apply added_row, HI].
Qed.

Lemma pos_add_nat_succ p n : pos_add_nat (Pos.succ p) n = Pos.succ (pos_add_nat p n).
Proof. induction n; simpl; [reflexivity|rewrite IHn; reflexivity]. Qed.

Lemma pos_add_nat_le p n : (p <= pos_add_nat p n)%positive.
Proof. induction n; simpl; lia. Qed.

Lemma load_atoms_spec : forall rows n a, In a (load_atoms n rows) ->
  a_par a = OThis /\ (n <= a_id a)%positive /\ (a_id a < pos_add_nat n (length rows))%positive.
Proof.
  induction rows as [|[[[e l] c] q] rows IH]; intros n a H; simpl in H; [destruct H|].
  destruct H as [<-|H]; simpl.
  - split; [reflexivity|]. pose proof (pos_add_nat_le n (length rows)). lia.
  - destruct (IH _ _ H) as [A [B C]]. rewrite pos_add_nat_succ in C. split; [exact A|]. lia.
Qed.

Lemma load_atoms_nodup : forall rows n, NoDup (map a_id (load_atoms n rows)).
Proof.
  induction rows as [|[[[e l] c] q] rows IH]; intros n; simpl; [constructor|].
  constructor; [|apply IH]. intro Hin. apply in_map_iff in Hin. destruct Hin as [a [E Ha]].
  destruct (load_atoms_spec _ _ _ Ha) as [_ [B _]]. lia.
Qed.

Lemma load_atoms_mem : forall rows n x, (n <= x)%positive -> (x < pos_add_nat n (length rows))%positive ->
  In x (map a_id (load_atoms n rows)).
Proof.
  induction rows as [|[[[e l] c] q] rows IH]; intros n x H1 H2; simpl in *; [lia|].
  destruct (Pos.eq_dec n x) as [->|Hne]; [left; reflexivity|right].
  apply IH; [lia|]. rewrite pos_add_nat_succ. exact H2.
Qed.

Lemma load_atoms_length : forall rows n, length (load_atoms n rows) = length rows.
Proof. induction rows as [|[[[e l] c] q] rows IH]; intros n; simpl; [reflexivity|rewrite IH; reflexivity]. Qed.

Lemma load_bonds_spec : forall bs n b, In b (load_bonds n bs) ->
  b_par b = OThis /\ (n <= b_id b)%positive /\ (b_id b < pos_add_nat n (length bs))%positive /\ In (b_a1 b, b_a2 b) bs.
Proof.
  induction bs as [|[x y] bs IH]; intros n b H; simpl in H; [destruct H|].
  destruct H as [<-|H]; simpl.
  - split; [reflexivity|]. pose proof (pos_add_nat_le n (length bs)). repeat split; try lia. left; reflexivity.
  - destruct (IH _ _ H) as [A [B [C D]]]. rewrite pos_add_nat_succ in C. repeat split; auto; lia.
Qed.

Lemma load_bonds_nodup : forall bs n, NoDup (map b_id (load_bonds n bs)).
Proof.
  induction bs as [|[x y] bs IH]; intros n; simpl; [constructor|].
  constructor; [|apply IH]. intro Hin. apply in_map_iff in Hin. destruct Hin as [b [E Hb]].
  destruct (load_bonds_spec _ _ _ Hb) as [_ [B _]]. lia.
Qed.

Theorem Inv_clone k s : Inv s -> Inv (clone k s).
Proof.
  intros [H1 [H2 [H3 [H4 [H5 H6]]]]]. unfold Inv, clone, ids, bids in *. simpl.
  rewrite !map_length, !map_map. simpl.
  rewrite <- (map_map a_id (fun x => (x + k)%positive)), <- (map_map b_id (fun x => (x + k)%positive)).
  assert (Hinj : forall l, NoDup l -> NoDup (map (fun x => (x + k)%positive) l)).
  { induction 1 as [|x l Hx _ IH]; simpl; constructor; [|exact IH].
    rewrite in_map_iff. intros [y [E Hy]]. assert (y = x) by lia. subst. contradiction. }
  split; [exact H1|]. split; [exact H2|]. split; [auto|]. split; [|split; [auto|]].
  - intros a Ha. apply in_map_iff in Ha. destruct Ha as [a0 [<- Ha]]. simpl. destruct (H4 a0 Ha). split; [reflexivity|lia].
  - intros b Hb. apply in_map_iff in Hb. destruct Hb as [b0 [<- Hb]]. simpl.
    destruct (H6 b0 Hb) as [_ [P2 [P3 P4]]]. split; [reflexivity|]. split; [lia|]. split; apply (in_map (fun x => (x + k)%positive)); assumption.
Qed.

Theorem clone_row k s y : row_of (clone k s) (y + k)%positive = row_of s y.
Proof.
  unfold row_of, clone. simpl.
  assert (E : find_idx (id_is (y + k)%positive)
                (map (fun a => mkAtom (a_id a + k) (a_el a) (a_lab a) OThis) (atoms s))
              = find_idx (id_is y) (atoms s)).
  { induction (atoms s) as [|a l IH]; simpl; [reflexivity|].
    unfold id_is at 1 3. simpl.
    destruct (Pos.eqb_spec (a_id a) y) as [->|Hne].
    - rewrite Pos.eqb_refl. reflexivity.
    - destruct (Pos.eqb_spec (a_id a + k) (y + k)) as [E|_]; [exfalso; lia|]. rewrite IH. reflexivity. }
  rewrite E. reflexivity.
Qed.

(* what append_bond does with an atom y that is not in the molecule: the bond is appended and
   the atom is adopted through Promolecule.append_atom -- no coordinate row, no charge *)
Definition append_bond_foreign_as_coded (s : st) (x y : positive) (e : N) (l : option N) : st :=
  mkSt (has_q s) (atoms s ++ [mkAtom y e l OThis]) (coords s) (charges s)
       (bonds s ++ [mkBond (next_b s) x y OThis]) (next_a s) (Pos.succ (next_b s)).

(* the search from x1: what it has yielded so far (out) has no repetition, does not contain x1, was marked
   visited when it was yielded (so is not yielded again), and consists of atoms of the molecule *)
Definition bfs_inv (s : st) (x1 : positive) (vis out : list positive) : Prop :=
  NoDup (out ++ [x1]) /\ incl (out ++ [x1]) vis /\ incl out (ids s).

Lemma neighbours_members s x y : Inv s -> In y (neighbours s x) -> In y (ids s).
Proof.
  intros [_ [_ [_ [_ [_ H6]]]]] H. unfold neighbours in H. apply in_map_iff in H.
  destruct H as [b [E Hb]]. apply filter_In in Hb. destruct Hb as [Hb _].
  destruct (H6 b Hb) as [_ [_ [A B]]]. destruct (Pos.eqb (b_a1 b) x); subst; assumption.
Qed.

Lemma bfs_fold_inv s x1 : forall l vis q out,
  incl l (ids s) -> bfs_inv s x1 vis out ->
  let '(vis', _, out') := fold_left bfs_visit l (vis, q, out) in bfs_inv s x1 vis' out'.
Proof.
  induction l as [|a l IH]; intros vis q out Hl HI; cbn [fold_left]; [exact HI|].
  apply incl_cons_inv in Hl. destruct Hl as [Ha Hl]. unfold bfs_visit at 2.
  destruct (mem a vis) eqn:E; [apply IH; assumption|]. apply IH; [exact Hl|].
  destruct HI as [I1 [I2 I3]]. split; [|split].
  - constructor; [|exact I1]. intro H. apply I2, mem_In in H. congruence.
  - apply incl_cons; [left; reflexivity|apply incl_tl, I2].
  - apply incl_cons; assumption.
Qed.

Lemma bfs_loop_inv s x1 : Inv s -> forall fuel vis q out res,
  bfs_inv s x1 vis out -> bfs_loop fuel s vis q out = Some res ->
  NoDup res /\ ~ In x1 res /\ incl res (ids s).
Proof.
  intros HInv.
  assert (Hend : forall vis out, bfs_inv s x1 vis out -> NoDup (rev out) /\ ~ In x1 (rev out) /\ incl (rev out) (ids s)).
  { intros vis out [I1 [_ I3]]. apply NoDup_remove in I1. rewrite app_nil_r in I1. rewrite <- in_rev.
    split; [apply NoDup_rev, I1|split; [apply I1|]]. intros y Hy. apply I3, in_rev, Hy. }
  induction fuel as [|f IH]; intros vis q out res HI H; destruct q as [|x q']; simpl in H; try discriminate.
  - inversion H; subst. exact (Hend vis out HI).
  - inversion H; subst. exact (Hend vis out HI).
  - pose proof (bfs_fold_inv s x1 (neighbours s x) vis q' out (fun a => neighbours_members s x a HInv) HI) as HF.
    destruct (fold_left bfs_visit (neighbours s x) (vis, q', out)) as [[v1 q1] o1]. eapply IH; eauto.
Qed.

Lemma del_fold_ok : forall out s, Inv s -> NoDup out -> incl out (ids s) ->
  exists s1, fold_left (fun r x => bind r (fun s' => del_atom s' (ByObj x))) out (Ok s) = Ok s1 /\ Inv s1 /\
             (forall z, In z (ids s) -> ~ In z out -> In z (ids s1)).
Proof.
  induction out as [|y out IH]; intros s HI Hnd Hm; simpl; [eauto|].
  apply incl_cons_inv in Hm. destruct Hm as [Hy Hm]. inversion Hnd; subst.
  pose proof (del_atom_spec s (ByObj y) HI) as H0.
  destruct (del_atom s (ByObj y)) as [s0|s0| |] eqn:E0; [| |contradiction..].
  - destruct (del_atom_exact s (ByObj y) s0 HI E0) as [a [Ha [_ [_ [Hids _]]]]].
    simpl in Ha. apply find_some in Ha. destruct Ha as [_ Ha]. apply id_is_true in Ha. subst y.
    destruct (IH s0) as [s1 [F1 [F2 F3]]]; auto.
    { exact (inv_step s (DelAtom (ByObj (a_id a))) s0 HI (or_introl E0)). }
    { intros z Hz. apply Hids. split; [apply Hm, Hz|]. intros ->. contradiction. }
    exists s1. split; [exact F1|]. split; [exact F2|]. intros z Hz Hn. apply F3; [apply Hids|]; intuition.
  - exfalso. destruct (in_ids_find_idx s y Hy) as [i Hi]. destruct (find_idx_nth _ _ Hi) as [a [Hn _]].
    simpl in H0. rewrite find_nth, Hi, Hn in H0. destruct H0 as [_ [E|E]]; discriminate.
Qed.

Lemma get_atom_member s sl a : get_atom s sl = Some a -> In (a_id a) (ids s).
Proof. intros E. destruct (get_atom_in s sl E) as [j Hj]. apply in_map. eapply nth_error_In, Hj. Qed.

Lemma connect_members_no_err s x y s' : In x (ids s) -> In y (ids s) -> conn_connect s (ByObj x) (ByObj y) <> Err s'.
Proof.
  assert (M : forall z, In z (ids s) -> exists b, find (id_is z) (atoms s) = Some b).
  { intros z Hz. destruct (in_ids_find_idx s z Hz) as [k K].
    destruct (find_idx_nth _ _ K) as [b [Q _]]. rewrite find_nth, K. eauto. }
  intros Hx Hy. unfold conn_connect. cbn [get_atom].
  destruct (M x Hx) as [b1 ->]. destruct (M y Hy) as [b2 ->]. apply append_bond_no_err.
Qed.

(* once the checks at its beginning have passed, remove_substituent(x1, x2) with x1 <> x2 does not raise: the search
   yields distinct atoms of the molecule, x1 not among them, so every deletion succeeds and x1 is still there to be
   connected to the new attachment point *)
Lemma rs_tail_no_err s x1 x2 out l c s' : Inv s -> In x1 (ids s) -> In x2 (ids s) -> x2 <> x1 ->
  bfs_loop (bfs_fuel s) s [x2; x1] [x2] [x2] = Some out ->
  bind (fold_left (fun r x => bind r (fun s0 => del_atom s0 (ByObj x))) out (Ok s))
       (fun s0 => bind (add_atom s0 el_Unknown l (Some c) None)
                       (fun s1 => conn_connect s1 (ByObj x1) (ByObj (next_a s0)))) <> Err s'.
Proof.
  intros HI H1 H2 Hne Eb H.
  assert (B : NoDup out /\ ~ In x1 out /\ incl out (ids s)).
  { eapply bfs_loop_inv; [exact HI| |exact Eb]. split; [|split].
    - repeat constructor; simpl; intuition.
    - apply incl_refl.
    - intros y [<-|[]]. exact H2. }
  destruct B as [B1 [B2 B3]]. destruct (del_fold_ok out s HI B1 B3) as [sd [F1 [F2 F3]]].
  rewrite F1 in H. cbn [bind] in H. rewrite add_atom_spec in H. cbn [bind] in H.
  apply connect_members_no_err in H; [exact H| |]; unfold added, ids; simpl; rewrite map_app; apply in_or_app.
  - left. apply F3; assumption.
  - right. left. reflexivity.
Qed.
