(* C01 -- lemmas about Model/Codec.v.  The main result is `roundtrip_of_wiring`: for ANY wiring that passes the
   boolean test `wiring_ok` (decided by computation on the regenerated Gen/IoWiring.v) and ANY well-formed object,
   decoding the msgpack-normalised encoding yields `norm_obj W o`. *)
From Coq Require Import Bool NArith ZArith List Lia.
Import ListNotations.
From Molli Require Import Common.ListFacts Model.Codec.
Local Open Scope bool_scope.

Lemma aslot_eqb_eq a b : aslot_eqb a b = true <-> a = b.
Proof. destruct a, b; cbn; split; intro H; try reflexivity; try discriminate. Qed.
Lemma bslot_eqb_eq a b : bslot_eqb a b = true <-> a = b.
Proof. destruct a, b; cbn; split; intro H; try reflexivity; try discriminate. Qed.
Lemma oslot_eqb_eq a b : oslot_eqb a b = true <-> a = b.
Proof. destruct a, b; cbn; split; intro H; try reflexivity; try discriminate. Qed.
Lemma dtype_eqb_eq a b : dtype_eqb a b = true <-> a = b.
Proof. destruct a, b; cbn; split; intro H; try reflexivity; try discriminate. Qed.

Section Generic.
  Context {S : Type} (eqb : S -> S -> bool) (eqb_eq : forall a b, eqb a b = true <-> a = b).

  (* position-wise: the reader either ignores the position or expects exactly the slot the writer put there *)
  Lemma lookup_combine (isskip : S -> bool) (f : S -> val) :
    forall ser des, Forall2 (fun x d => isskip d = true \/ x = d) ser des ->
    forall s, isskip s = false ->
    lookup eqb s (combine des (map f ser)) = if mem eqb s des then Some (f s) else None.
  Proof.
    induction 1 as [|x d ser des Hxd _ IH]; intros s Hs; cbn; [reflexivity|].
    destruct (eqb s d) eqn:E; [|now apply IH].
    apply eqb_eq in E. subst d. destruct Hxd as [Hk | ->]; [congruence | reflexivity].
  Qed.

  (* reader and writer use the same schema *)
  Lemma lookup_same (f : S -> val) ser s :
    lookup eqb s (combine ser (map f ser)) = if mem eqb s ser then Some (f s) else None.
  Proof. apply (lookup_combine (fun _ => false)); [|reflexivity]. induction ser; constructor; auto. Qed.

  Lemma list_eqb_eq : forall a b : list S, list_eqb eqb a b = true -> a = b.
  Proof.
    induction a as [|x a IH]; destruct b as [|y b]; cbn; intro H; try reflexivity; try discriminate.
    apply andb_true_iff in H as [->%eqb_eq H2]. f_equal. now apply IH.
  Qed.
End Generic.

Lemma ocompat_Forall2 : forall a b, forallb2 ocompat a b = true ->
  Forall2 (fun x d => oslot_eqb d OSkip = true \/ x = d) a b.
Proof.
  induction a as [|x a IH]; intros [|d b] H; try discriminate; constructor; cbn in H; apply andb_true_iff in H as [Hxd H].
  - apply orb_true_iff in Hxd as [Hs|He%oslot_eqb_eq]; auto.
  - now apply IH.
Qed.

Lemma mapM_map {A B C} (f : B -> option C) (g : A -> B) (h : A -> C) : forall l : list A,
  (forall x, In x l -> f (g x) = Some (h x)) -> mapM f (map g l) = Some (map h l).
Proof.
  induction l as [|x l IH]; intro H; cbn; [reflexivity|].
  rewrite (H x (or_introl eq_refl)), IH; [reflexivity|]. intros y Hy. apply H. now right.
Qed.

(* a slot that is read when the encoding carries it and defaulted otherwise; f is what the constructor does to it *)
Lemma carried_or_default {A} (b : bool) (f : A -> A) (x d : A) : f x = x ->
  match (if b then Some x else None) with Some y => f y | None => d end = if b then x else d.
Proof. intros H. destruct b; [exact H|reflexivity]. Qed.

Lemma valid_element_mnorm v : valid_element (mnorm v) = valid_element v.
Proof. destruct v; reflexivity. Qed.

Lemma py_name_str v : is_str v = true -> py_name (mnorm v) = mnorm v.
Proof. now destruct v. Qed.

Lemma or_default_charge v : is_int v = true -> or_default (mnorm v) (VInt 0) = mnorm v.
Proof. destruct v; try discriminate. intros _. unfold or_default. cbn. now destruct (Z.eqb_spec z 0) as [->|]. Qed.

Lemma or_default_mult v : is_nonzero_int v = true -> or_default (mnorm v) (VInt 1) = mnorm v.
Proof. destruct v; try discriminate. unfold or_default. cbn. now destruct (Z.eqb z 0). Qed.

Lemma or_default_attrib v : is_map v = true -> or_default (mnorm v) (VMap []) = mnorm v.
Proof. destruct v; try discriminate. intros _. now destruct kv. Qed.

Lemma dec_atom_enc ser dflt a :
  wf_atomb a = true -> valid_element (a_element dflt) = true ->
  dec_atom ser dflt (mnorm (enc_atom ser a)) = Some (norm_atom ser dflt a).
Proof.
  intros Hwf Hd. unfold dec_atom, enc_atom, norm_atom, abuild. cbn [mnorm seq_items]. rewrite map_map. cbv zeta.
  rewrite !(lookup_same aslot_eqb aslot_eqb_eq (fun x => mnorm (aget a x))), !(carried_or_default _ (fun x => x)) by reflexivity.
  replace (valid_element _) with true; [reflexivity|]. symmetry.
  destruct (mem aslot_eqb AElement ser); [rewrite valid_element_mnorm; exact Hwf|exact Hd].
Qed.

Lemma as_index_ok n i : (Z.of_N i < Z.of_nat n)%Z -> as_index n (VInt (Z.of_N i)) = Some i.
Proof.
  intro H. unfold as_index. rewrite (proj2 (Z.leb_le 0 _)), (proj2 (Z.ltb_lt _ _) H), N2Z.id by lia. reflexivity.
Qed.

Lemma dec_bond_enc ser dflt n b :
  mem bslot_eqb BA1 ser = true -> mem bslot_eqb BA2 ser = true -> wf_bondb n b = true ->
  dec_bond ser dflt n (mnorm (enc_bond ser b)) = Some (norm_bond ser dflt b).
Proof.
  intros H1 H2 [Ha%Z.ltb_lt Hb%Z.ltb_lt]%andb_true_iff.
  unfold dec_bond, enc_bond, norm_bond. cbn [mnorm seq_items]. rewrite map_map. cbv zeta.
  rewrite !(lookup_same bslot_eqb bslot_eqb_eq (fun x => mnorm (bget b x))), H1, H2. cbn [bget mnorm].
  now rewrite (as_index_ok n _ Ha), (as_index_ok n _ Hb), !(carried_or_default _ (fun x => x)) by reflexivity.
Qed.

Lemma arr_of_ok W s xs : arr_ok W s = true -> arr_of W s (VArr (dt_of (w_sdt W) s) xs) = Some xs.
Proof. unfold arr_ok, arr_of. intros [H1 H2]%andb_true_iff. now rewrite H1, H2. Qed.

Lemma len_is_true {A} (l : list A) z : len_is l z = true -> Z.of_nat (length l) = z.
Proof. unfold len_is. apply Z.eqb_eq. Qed.

Lemma storable_aget a s : storable_atom a = true -> storable (aget a s) = true.
Proof.
  unfold storable_atom. rewrite forallb_forall. intros H. destruct s; try (apply H; cbn; tauto). reflexivity.
Qed.

Lemma storable_bget b s : storable_bond b = true -> storable (bget b s) = true.
Proof.
  unfold storable_bond. rewrite forallb_forall. intros H. destruct s; try (apply H; cbn; tauto); reflexivity.
Qed.

Lemma storable_encode W o : storable_obj o = true -> storable (encode W o) = true.
Proof.
  unfold storable_obj. rewrite !andb_true_iff, !forallb_forall. intros [[[[[H1 H2] H3] H4] Ha] Hb].
  unfold encode. cbn [storable]. rewrite forallb_map. apply forallb_forall. intros s _.
  (* only OAtoms and OBonds hold nested values *)
  destruct s; cbn [oget storable]; try assumption; try reflexivity; rewrite forallb_map; apply forallb_forall; intros x Hx;
    cbn [enc_atom enc_bond storable]; rewrite forallb_map; apply forallb_forall; intros s _.
  - apply storable_aget, Ha, Hx.
  - apply storable_bget, Hb, Hx.
Qed.

(* wiring_ok taken apart once.  Its three `negb (mem _ XOdd _)` conjuncts are not among the facts: they make a
   position the sentinel run could not classify fail the check; the round trip holds without them. *)
Lemma wiring_ok_spec W : wiring_ok W = true ->
  Forall2 (fun x d => oslot_eqb d OSkip = true \/ x = d) (w_oser W) (w_odes W)
  /\ mem oslot_eqb OAtoms (w_odes W) = true /\ mem oslot_eqb OBonds (w_odes W) = true
  /\ mem oslot_eqb OCoords (w_odes W) = true /\ mem oslot_eqb OCharges (w_odes W) = true
  /\ arr_ok W OCoords = true /\ arr_ok W OCharges = true
  /\ (w_ens W = true -> mem oslot_eqb ONConf (w_odes W) = true /\ mem oslot_eqb OWeights (w_odes W) = true
                        /\ arr_ok W OWeights = true)
  /\ w_aser W = w_ades W /\ valid_element (a_element (w_adflt W)) = true
  /\ w_bser W = w_bdes W /\ mem bslot_eqb BA1 (w_bdes W) = true /\ mem bslot_eqb BA2 (w_bdes W) = true.
Proof.
  intros [[[[[[[[[[[[[[[Hc _]%andb_prop HmA]%andb_prop HmB]%andb_prop HmC]%andb_prop HmQ]%andb_prop HaC]%andb_prop
    HaQ]%andb_prop Hens]%andb_prop Ha]%andb_prop _]%andb_prop Hdv]%andb_prop Hb]%andb_prop _]%andb_prop Hb1]%andb_prop Hb2]%andb_prop.
  apply ocompat_Forall2 in Hc. apply (list_eqb_eq aslot_eqb aslot_eqb_eq) in Ha. apply (list_eqb_eq bslot_eqb bslot_eqb_eq) in Hb.
  repeat split; try assumption; destruct (w_ens W); try discriminate;
    apply andb_prop in Hens as [[? ?]%andb_prop ?]; assumption.
Qed.

Section Main.
  Variable W : wiring.
  Hypothesis Hok : wiring_ok W = true.

  Lemma decode_get_norm (o : obj) (get : oslot -> option val) :
    wf_obj (w_ens W) o ->
    (forall s, oslot_eqb s OSkip = false ->
               get s = if mem oslot_eqb s (w_odes W) then Some (mnorm (oget W o s)) else None) ->
    decode_get W get = Some (norm_obj W o).
  Proof.
    intros Hwf Hget.
    destruct (wiring_ok_spec W Hok) as (_ & HmA & HmB & HmC & HmQ & HaC & HaQ & Hens & Haeq & Hdv & Hbeq & Hb1 & Hb2).
    unfold wf_obj, wf_objb in Hwf. rewrite !andb_true_iff, !forallb_forall in Hwf.
    destruct Hwf as [[[[[[[Hname Hcharge] Hmult] Hattr] Hatoms] Hbonds] Hshape] _].
    unfold decode_get. rewrite !Hget, HmA, HmB, HmC, HmQ by reflexivity. cbn [oget].
    rewrite (carried_or_default _ py_name), (carried_or_default _ (fun x => or_default x (VInt 0))), (carried_or_default _ (fun x => or_default x (VInt 1))),
      (carried_or_default _ (fun x => or_default x (VMap [])))
      by auto using py_name_str, or_default_charge, or_default_mult, or_default_attrib.
    cbn [mnorm seq_items]. rewrite !map_map, (arr_of_ok W OCoords _ HaC), (arr_of_ok W OCharges _ HaQ).
    rewrite (mapM_map _ _ (norm_atom (w_ades W) (w_adflt W))), map_length
      by (intros a Ha; rewrite Haeq; apply dec_atom_enc; auto).
    replace (natoms_ok _ _) with true by (destruct (mem oslot_eqb ONAtoms (w_odes W)); cbn; now rewrite ?Z.eqb_refl).
    cbn [negb]. rewrite (mapM_map _ _ (norm_bond (w_bdes W) (w_bdflt W)))
      by (intros b Hb; rewrite Hbeq; apply dec_bond_enc; auto).
    unfold wf_shapeb in Hshape. unfold norm_obj. destruct (w_ens W); rewrite !andb_true_iff in Hshape.
    - destruct (Hens eq_refl) as (HmK & HmW & HaW). destruct Hshape as [[Hc Hq] Hw].
      rewrite HmK, HmW, (arr_of_ok W OWeights _ HaW), (proj2 (Z.leb_le 0 _)), Hc, Hq, Hw, N2Z.id by lia. reflexivity.
    - destruct Hshape as [[[->%N.eqb_eq Hw] Hc] Hq]. rewrite Hc, Hq. now destruct (o_weights o).
  Qed.

  Theorem roundtrip_of_wiring (o : obj) :
    wf_obj (w_ens W) o -> roundtrip W o = Some (norm_obj W o).
  Proof.
    intro Hwf. destruct (wiring_ok_spec W Hok) as (Hc & _).
    assert (Hst : storable_obj o = true) by (apply andb_true_iff in Hwf; tauto).
    unfold roundtrip. cbv zeta. rewrite (storable_encode W o Hst). unfold decode, encode. cbn [mnorm seq_items].
    rewrite !map_map, map_length, (Forall2_length _ _ _ Hc), Nat.eqb_refl. cbn [negb].
    apply decode_get_norm; [exact Hwf|]. intros s Hs.
    exact (lookup_combine oslot_eqb oslot_eqb_eq (fun d => oslot_eqb d OSkip) _ _ _ Hc s Hs).
  Qed.

  (* "nothing else changes": conformer count, array contents and shapes, number and order of atoms and bonds,
     bond endpoints *)
  Theorem nothing_else (o : obj) :
    let o' := norm_obj W o in
    o_nconf o' = o_nconf o /\ o_coords o' = o_coords o /\ o_charges o' = o_charges o /\ o_weights o' = o_weights o
    /\ length (o_atoms o') = length (o_atoms o) /\ length (o_bonds o') = length (o_bonds o)
    /\ map (fun b => (b_a1 b, b_a2 b)) (o_bonds o') = map (fun b => (b_a1 b, b_a2 b)) (o_bonds o).
  Proof.
    cbn. rewrite !map_length, map_map. repeat split; reflexivity.
  Qed.
End Main.

Lemma frame_norm_obj W o : frame (norm_obj W o) = frame o.
Proof. unfold frame. destruct (nothing_else W o) as (-> & -> & -> & -> & -> & _ & ->). reflexivity. Qed.

Lemma frame_reset_v1 da db o : frame (reset_obj_v1 da db o) = frame o.
Proof. unfold frame, reset_obj_v1. cbn. now rewrite !map_length, map_map. Qed.

(* current encoding: every slot is carried, so the trip is the msgpack normalisation and nothing else *)
Theorem norm_obj_covers_all W o : covers_all W = true -> norm_obj W o = mnorm_obj o.
Proof.
  unfold covers_all. intros [[[[[H1 H2]%andb_prop H3]%andb_prop H4]%andb_prop Ha]%andb_prop Hb]%andb_prop.
  rewrite forallb_forall in Ha, Hb.
  unfold norm_obj, mnorm_obj, norm_atom, mnorm_atom, abuild, norm_bond, mnorm_bond.
  now rewrite H1, H2, H3, H4, !Ha, !Hb by (cbn; tauto).
Qed.

(* legacy encoding: its schema has no formal charge / spin / attributes; those come back as the constructor
   defaults, everything else as in the current encoding *)
Theorem norm_obj_covers_v1 W o :
  covers_v1 W = true -> norm_obj W o = reset_obj_v1 (w_adflt W) (w_bdflt W) (mnorm_obj o).
Proof.
  unfold covers_v1.
  intros [[[[[[[H1 H2]%andb_prop H3]%andb_prop H4%negb_true_iff]%andb_prop Ha]%andb_prop Ha']%andb_prop Hb]%andb_prop Hb'%negb_true_iff]%andb_prop.
  rewrite forallb_forall in Ha, Ha', Hb.
  assert (Ha2 : forall s, In s [AFCharge; AFSpin; AAttrib] -> mem aslot_eqb s (w_ades W) = false)
    by (intros s Hs; apply negb_true_iff, Ha', Hs).
  unfold norm_obj, mnorm_obj, reset_obj_v1, norm_atom, mnorm_atom, reset_atom_v1, abuild, norm_bond, mnorm_bond, reset_bond_v1.
  cbn [o_name o_charge o_mult o_attrib o_atoms o_bonds o_nconf o_coords o_charges o_weights]. rewrite !map_map.
  now rewrite H1, H2, H3, H4, Hb', !Ha, !Ha2, !Hb by (cbn; tauto).
Qed.

Theorem roundtrip_v2 W : wiring_ok W = true -> covers_all W = true ->
  forall o, wf_obj (w_ens W) o -> roundtrip W o = Some (mnorm_obj o).
Proof. intros Hok Hc o Hwf. rewrite <- (norm_obj_covers_all W o Hc). now apply roundtrip_of_wiring. Qed.

Theorem roundtrip_v2_exact W : wiring_ok W = true -> covers_all W = true ->
  forall o, wf_obj (w_ens W) o -> msgpack_stable o -> roundtrip W o = Some o.
Proof. intros Hok Hc o Hwf Hs. now rewrite (roundtrip_v2 W Hok Hc o Hwf), Hs. Qed.

Theorem roundtrip_v1 W : wiring_ok W = true -> covers_v1 W = true ->
  forall o, wf_obj (w_ens W) o -> roundtrip W o = Some (reset_obj_v1 (w_adflt W) (w_bdflt W) (mnorm_obj o)).
Proof. intros Hok Hc o Hwf. rewrite <- (norm_obj_covers_v1 W o Hc). now apply roundtrip_of_wiring. Qed.

Lemma mnorm_changes_lists : exists v, mnorm v <> v.
Proof. exists (VList []). cbn. discriminate. Qed.
