(* exec depends only on the faults of the names that occur; hence a check over all subsets of those names
   decides the property for EVERY fault assignment. *)
From Coq Require Import List Bool String.
Import ListNotations.
From Molli Require Import Common.Exc.

Lemma exec_ext f g c : (forall n, In n (names c) -> f n = g n) -> exec f c = exec g c.
Proof.
  induction c as [n|c1 IH1 c2 IH2|b IHb fn IHf|]; simpl; intros H.
  - rewrite (H n) by auto. reflexivity.
  - rewrite IH1, IH2; auto using in_or_app.
  - rewrite IHb, IHf; auto using in_or_app.
  - reflexivity.
Qed.

Lemma filter_in_subsets (f : string -> bool) l : In (filter f l) (subsets l).
Proof.
  induction l as [|x l IH]; simpl; [auto|].
  destruct (f x); apply in_or_app; [left; apply in_map; exact IH|right; exact IH].
Qed.

Lemma mem_filter (f : string -> bool) l n : In n l -> mem n (filter f l) = f n.
Proof.
  intros Hn. apply eq_true_iff_eq. unfold mem. rewrite existsb_exists. split.
  - intros [m [Hm He]]. apply String.eqb_eq in He. subst m. apply filter_In in Hm. apply Hm.
  - intros E. exists n. rewrite filter_In, String.eqb_refl. auto.
Qed.

(* [chk] may look at the fault assignment only through the names of c *)
Theorem forall_faults_sound c (chk : (string -> bool) -> trace * bool -> bool) :
  (forall f g r, (forall n, In n (names c) -> f n = g n) -> chk f r = chk g r) ->
  forall_faults c chk = true ->
  forall faults, chk faults (exec faults c) = true.
Proof.
  intros Hext H faults. unfold forall_faults in H. rewrite forallb_forall in H.
  specialize (H (filter faults (names c)) (filter_in_subsets faults (names c))).
  assert (A : forall n, In n (names c) -> (fun n => mem n (filter faults (names c))) n = faults n)
    by (intros n Hn; apply mem_filter; exact Hn).
  rewrite (exec_ext _ faults c A) in H. rewrite (Hext _ faults _ A) in H. exact H.
Qed.
