(* C02: the derived views of a handle (items, values) and pickled copies of a handle, against the insert-only map:
   what items/values return (items_open, items_closed), the discipline and specification of the extended operation
   set (ok_vop, vstep_spec, ok_vrun, vrun_spec), and one step of it (vstep_refines). *)
From Coq Require Import NArith List Bool.
Import ListNotations.
From Molli Require Import Model.UKV Proofs.UKVBase Proofs.UKV Model.UKVViews.
Open Scope N_scope.

(* reading the keys of a sublist of the records through a complete open handle returns those records *)
Lemma gets_sub H rs h : full H rs h -> closed h = false -> NoDup (map fst rs) ->
  forall l, incl l rs -> gets (H ++ blocks rs) h (map fst l) = Some l.
Proof.
  intros Hf Hc Hnd l. induction l as [|[k v] l IH]; intros Hin; [reflexivity|].
  cbn [map fst gets].
  rewrite <- (app_nil_r (blocks rs)), (get_spec H rs [] h k Hf Hc), app_nil_r.
  rewrite (assoc_in rs k v Hnd (Hin _ (or_introl eq_refl))).
  rewrite IH; [reflexivity|]. intros x Hx. apply Hin. right. exact Hx.
Qed.

(* items() of an open handle is exactly the abstract map, in insertion order; values() its values *)
Theorem items_open H rs w i :
  Inv H rs w -> closed (hnth (snd w) i) = false ->
  items (fst w) (hnth (snd w) i) = VRItems rs /\ values (fst w) (hnth (snd w) i) = VRVals (map snd rs).
Proof.
  intros I Hc. pose proof (inv_open _ _ _ I i Hc) as Hf.
  unfold items, values. rewrite (full_keys H rs _ Hf), (inv_file _ _ _ I).
  rewrite (gets_sub H rs _ Hf Hc (inv_nodup _ _ _ I) rs (incl_refl rs)). split; reflexivity.
Qed.

(* through a closed handle nothing is served: the generator raises at its first key (or is empty) *)
Theorem items_closed f h : closed h = true ->
  (items f h = VRFail \/ items f h = VRItems []) /\ (values f h = VRFail \/ values f h = VRVals []).
Proof.
  intros Hc. unfold items, values. destruct (keys h) as [|k ks]; [split; right; reflexivity|].
  cbn [gets]. unfold get. rewrite Hc. split; left; reflexivity.
Qed.

(* both, in the shape vstep_spec asks for *)
Lemma views_spec H rs w i : Inv H rs w -> let f := fst w in let h := hnth (snd w) i in
  (if closed h then items f h = VRFail \/ items f h = VRItems [] else items f h = VRItems rs) /\
  (if closed h then values f h = VRFail \/ values f h = VRVals [] else values f h = VRVals (map snd rs)).
Proof.
  intros I f h. destruct (closed h) eqn:Ec; [apply items_closed; exact Ec|apply (items_open H rs w i I Ec)].
Qed.

(* the discipline for the derived operations: base operations as before; a handle object is copied (pickled) only
   while it is closed, into a slot whose handle is closed *)
Definition ok_vop (w : world) (o : vop) : Prop :=
  match o with
  | VBase o' => ok_op w o'
  | VItems i | VValues i | VHeader i => (i < length (snd w))%nat
  | VDup i j => (i < length (snd w))%nat /\ (j < length (snd w))%nat /\
                closed (hnth (snd w) i) = true /\ closed (hnth (snd w) j) = true
  end.

Definition vstep_spec (rs : list kv) (w : world) (o : vop) (r : vres) (rs' : list kv) : Prop :=
  match o with
  | VBase o' => exists r', r = VR r' /\ step_spec rs (hnth (snd w) (op_handle o')) o' r' rs'
  | VItems i => rs' = rs /\ if closed (hnth (snd w) i) then r = VRFail \/ r = VRItems [] else r = VRItems rs
  | VValues i => rs' = rs /\ if closed (hnth (snd w) i) then r = VRFail \/ r = VRVals [] else r = VRVals (map snd rs)
  | VDup _ _ => rs' = rs /\ r = VR ROk
  | VHeader _ => rs' = rs /\ r = (let '(a, b, c) := read_header (fst w) in VRHdr a b c)
  end.

Theorem vstep_refines H rs w o :
  Inv H rs w -> ok_vop w o ->
  exists rs', Inv H rs' (fst (vstep w o)) /\ vstep_spec rs w o (snd (vstep w o)) rs'.
Proof.
  intros I Hok. destruct o as [o'|i|i|i j|i]; cbn [vstep ok_vop vstep_spec] in *.
  - destruct (step_refines H rs w o' I Hok) as [rs' [I' [S' _]]]. exists rs'.
    destruct (step w o') as [w' r'] eqn:E. simpl in *. split; [exact I'|]. exists r'. split; [reflexivity|exact S'].
  - exists rs. split; [exact I|]. split; [reflexivity|]. apply (views_spec H rs w i I).
  - exists rs. split; [exact I|]. split; [reflexivity|]. apply (views_spec H rs w i I).
  - (* the copy is closed, and one more snapshot *)
    exists rs. simpl. split; [|split; reflexivity].
    destruct Hok as [Hi [Hj [Hci Hcj]]]. destruct w as [f hs]. simpl in *. fold (hnth hs i).
    pose proof (inv_file _ _ _ I) as If. simpl in If. rewrite If.
    apply (inv_upd H rs rs f hs j (hnth hs i) I Hj (inv_wf _ _ _ I) (inv_nodup _ _ _ I) (inv_snap _ _ _ I i)); [congruence|].
    intros a _. split; [apply (inv_snap _ _ _ I)|]. intros Ca. split; [apply (inv_open _ _ _ I); exact Ca|congruence].
  - exists rs. simpl. split; [exact I|split; reflexivity].
Qed.

Fixpoint ok_vrun (w : world) (ops : list vop) : Prop :=
  match ops with
  | [] => True
  | o :: ops' => ok_vop w o /\ ok_vrun (fst (vstep w o)) ops'
  end.

Fixpoint vrun_spec (rs : list kv) (w : world) (ops : list vop) (out : list vres) (rs_final : list kv) : Prop :=
  match ops, out with
  | [], [] => rs_final = rs
  | o :: ops', r :: out' =>
      exists rs', vstep_spec rs w o r rs' /\ vrun_spec rs' (fst (vstep w o)) ops' out' rs_final
  | _, _ => False
  end.
