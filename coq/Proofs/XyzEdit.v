(* C08, write / edit / write sessions: the two sides of a session have one entry per write; `wf_ens` is kept by the
   edits that change lengths (element set, atom added, atom deleted); `upd_nth` / `drop_nth`.  Then the reader tail
   (`tail_ok` decides for every valuation) and, from `read_coord_nR` on, the path-sensitive unit law over R (Reals
   is required there). *)
From Coq Require Import List Bool Arith Lia.
From Molli Require Import Model.XyzText Model.XyzEdit Proofs.XyzText.
Import ListNotations.
Local Open Scope list_scope.

(* the two sides of a session have one entry per write *)
Lemma session_lengths syms steps : forall e, List.length (run_session syms e steps) = List.length (session_expect e steps).
Proof. induction steps as [|s steps IH]; intros e; [reflexivity|]. destruct s; cbn [run_session session_expect]; simpl; auto. Qed.

Definition wf_ens (e : wens) : Prop := Forall (fun f => List.length f = List.length (we_elems e)) (we_frames e).

Lemma upd_nth_length {A} i (x : A) l : List.length (upd_nth i x l) = List.length l.
Proof. revert i. induction l as [|y l IH]; intros [|i]; simpl; auto. Qed.
Lemma upd_nth_same {A} i (x : A) l : (i < List.length l)%nat -> nth_error (upd_nth i x l) i = Some x.
Proof. revert i. induction l as [|y l IH]; intros [|i] H; simpl in *; try lia; [reflexivity|]. apply IH. lia. Qed.
Lemma upd_nth_other {A} i j (x : A) l : j <> i -> nth_error (upd_nth i x l) j = nth_error l j.
Proof.
  revert i j. induction l as [|y l IH]; intros [|i] [|j] H; simpl; try reflexivity; try contradiction.
  apply IH. intros E. apply H. now subst.
Qed.
Lemma drop_nth_length {A} i (l : list A) : (i < List.length l)%nat -> S (List.length (drop_nth i l)) = List.length l.
Proof. revert i. induction l as [|y l IH]; intros [|i] H; simpl in *; try lia. rewrite IH; lia. Qed.

Lemma wf_set_elem e i z : wf_ens e -> wf_ens (apply_wop (WSetElem i z) e).
Proof. unfold wf_ens. cbn [apply_wop we_elems we_frames]. now rewrite upd_nth_length. Qed.
(* an edit that does the same thing to the length of the element list and of every frame *)
Lemma wf_ens_map nm els (h : list trip -> list trip) e :
  (forall f, List.length f = List.length (we_elems e) -> List.length (h f) = List.length els) ->
  wf_ens e -> wf_ens (mk_wens nm els (map h (we_frames e))).
Proof. unfold wf_ens. cbn [we_elems we_frames]. intros Hh H. apply Forall_map. eapply Forall_impl; [|exact H]. exact Hh. Qed.
Lemma wf_add_atom e z p : wf_ens e -> wf_ens (apply_wop (WAddAtom z p) e).
Proof. apply wf_ens_map. intros f Hf. now rewrite !app_length, Hf. Qed.
Lemma wf_del_atom e i : (i < List.length (we_elems e))%nat -> wf_ens e -> wf_ens (apply_wop (WDelAtom i) e).
Proof.
  intros Hi. apply wf_ens_map. intros f Hf. apply eq_add_S. rewrite !drop_nth_length; [exact Hf|exact Hi|now rewrite Hf].
Qed.

(* the reader tail: a run only looks at the conditions the tail mentions *)
Lemma run_tail_ext k t : conds_lt k t = true -> forall env1 env2, (forall c, (c < k)%nat -> env1 c = env2 c) ->
  forall n, run_tail env1 t n = run_tail env2 t n.
Proof.
  induction t as [|r IH|r IH| |c a IHa b IHb]; intros Hc env1 env2 He n; cbn [run_tail conds_lt] in *; try reflexivity.
  - now apply IH.
  - f_equal. now apply IH.
  - rewrite !andb_true_iff in Hc. destruct Hc as [[Hc Ha] Hb]. apply Nat.ltb_lt in Hc. rewrite (He c Hc). destruct (env2 c); [now apply IHa|now apply IHb].
Qed.

Lemma envs_cover k : forall env : nat -> bool, exists l, In l (envs k) /\ forall c, (c < k)%nat -> env c = env_of l c.
Proof.
  induction k as [|k IH]; intros env; [exists []; split; [now left|intros c Hc; lia]|].
  destruct (IH (fun c => env (S c))) as (l & Hl & He). exists (env 0%nat :: l). split.
  - cbn [envs]. apply in_or_app. destruct (env 0%nat); [left|right]; now apply in_map.
  - intros [|c] Hc; [reflexivity|]. apply He. lia.
Qed.

(* decided on the finitely many valuations, true for every valuation *)
Theorem tail_ok_all k t : tail_ok k t = true -> forall (env : nat -> bool) n, In n (run_tail env t 0) -> n = 1%nat.
Proof.
  unfold tail_ok. rewrite !andb_true_iff, forallb_forall. intros [[Hc Hf] _] env n Hn.
  destruct (envs_cover k env) as (l & Hl & He). rewrite (run_tail_ext k t Hc env (env_of l) He) in Hn.
  apply Hf in Hl. rewrite forallb_forall in Hl. apply Hl, Nat.eqb_eq in Hn. now subst.
Qed.
Lemma tail_ok_yields k t : tail_ok k t = true -> exists (env : nat -> bool), run_tail env t 0 <> [].
Proof.
  unfold tail_ok. rewrite !andb_true_iff, existsb_exists. intros [_ [l [_ Hl]]].
  exists (env_of l). now destruct (run_tail (env_of l) t 0).
Qed.

From Coq Require Import Reals.
Local Open Scope R_scope.

Definition read_coord_nR : sexpr -> bool -> R -> nat -> R -> R := read_coord_n Rmult Rdiv Q2R.

Lemma read_coord_once e ang v c : read_coord_nR e ang v 1 c = read_coordR e ang v c.
Proof. reflexivity. Qed.

(* on EVERY path of the loop body (every valuation of the conditions the extracted tail mentions) the object that is
   yielded carries coordinates in Angstrom *)
Theorem units_law_paths e k t (r : unit_row) : row_ok e r = true -> tail_ok k t = true ->
  forall (env : nat -> bool) n, In n (run_tail env t 0) -> forall c : R,
  read_coord_nR e (snd r) (Q2R (snd (fst r))) n (Q2R (snd (fst r)) * c) = c.
Proof.
  intros Hr Ht env n Hn c. rewrite (tail_ok_all k t Ht env n Hn), read_coord_once. now apply units_law.
Qed.
