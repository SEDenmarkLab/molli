(* C02, the write buffer of a collection: what is buffered is lost only by failing -- a flush takes the queue apart into
   the items it wrote, at most ONE item it dropped (the one whose write failed, reported), and the items still buffered;
   and outside a writing session no get / listing / items / values / contains / len and no begin or end of a reading
   session touches the buffer (or anything else of the handle: such a get is a pure read). *)
From Coq Require Import NArith PeanoNat List Bool Lia.
Import ListNotations.
From Molli Require Import Model.UKV Model.Backend Proofs.UKV.
Open Scope N_scope.

(* put, in any state: it succeeds and keeps the mode and open flags of the handle, or fails and changes nothing *)
Lemma put_cases f h k v :
  (exists f' h', put f h k v = (f', h', ROk) /\ md h' = md h /\ closed h' = closed h) \/
  (exists e, put f h k v = (f, h, RErr e)).
Proof.
  unfold put. destruct (closed h || _); [eauto|]. destruct (lookup (toc h) k); [eauto|].
  destruct (enc_block k v); [|eauto]. destruct (eof h); [left|eauto]. do 2 eexists. repeat split.
Qed.

Lemma put_kind f h k v :
  (exists f' h', put f h k v = (f', h', ROk)) \/ (exists e, put f h k v = (f, h, RErr e)).
Proof. destruct (put_cases f h k v) as [[f' [h' [E _]]]|Ee]; eauto. Qed.

(* flush: queue before = written ++ dropped ++ queue after; success empties the queue and drops nothing; a failure drops
   exactly one item -- the first one whose write fails -- and keeps every later one buffered *)
Theorem flush_loop_takes_apart : forall fuel f b f' b' e,
  (length (queue b) < fuel)%nat -> flush_loop fuel f b = (f', b', e) ->
  exists written dropped,
    queue b = written ++ dropped ++ queue b' /\
    match e with
    | None => dropped = [] /\ queue b' = []
    | Some _ => length dropped = 1%nat
    end /\ st b' = st b /\ ro b' = ro b /\ bufsize b' = bufsize b /\ has_uk b' = has_uk b.
Proof.
  induction fuel as [|fuel IH]; intros f b f' b' e Hn E; [lia|].
  cbn [flush_loop] in E. destruct (queue b) as [|[k v] q'] eqn:Eq.
  - inversion E; subst. exists [], []. cbn. repeat split; reflexivity.
  - destruct (negb (has_uk b)) eqn:Hh.
    + inversion E; subst. exists [], [(k, v)]. cbn. repeat split; reflexivity.
    + destruct (put_kind f (uk b) k v) as [[f1 [h1 Ep]]|[x Ep]]; rewrite Ep in E.
      * apply IH in E; [|cbn [queue]; simpl in Hn; lia].
        destruct E as [w [d [E1 R]]]. cbn [queue st ro bufsize has_uk] in *.
        exists ((k, v) :: w), d. rewrite E1. auto.
      * inversion E; subst. exists [], [(k, v)]. cbn. repeat split; reflexivity.
Qed.

Theorem flush_takes_apart f b f' b' e :
  flush f b = (f', b', e) ->
  exists written dropped,
    queue b = written ++ dropped ++ queue b' /\
    match e with None => dropped = [] /\ queue b' = [] | Some _ => length dropped = 1%nat end /\ st b' = st b.
Proof.
  intros E. apply flush_loop_takes_apart in E; [|lia].
  destruct E as [w [d [E1 [E2 [E3 _]]]]]. exists w, d. auto.
Qed.

Theorem get_outside_writing f b k : writing b = false -> exists r, b_get f b k = (f, b, r).
Proof.
  intros W. unfold b_get. rewrite W. cbn [andb]. destruct (negb (has_uk b)); [eauto|].
  destruct (get f (uk b) k); eauto.
Qed.

Lemma items_loop_outside_writing : forall ks f b acc, writing b = false -> exists r, b_items_loop ks f b acc = (f, b, r).
Proof.
  induction ks as [|k ks IH]; intros f b acc W; cbn [b_items_loop]; [eauto|].
  destruct (get_outside_writing f b k W) as [r ->]. destruct r; eauto.
Qed.

(* the operations of the property's histories that only read *)
Definition reads (o : bop) : option nat :=
  match o with
  | CGet i _ | CKeys i | CContains i _ | CLen i | CItems i | CValues i => Some i
  | _ => None
  end.

(* a reading operation changes nothing at all when the handle is not inside a writing session: not the file, not any
   handle, not the buffer *)
Theorem reading_changes_nothing f bs o i :
  reads o = Some i -> (i < length bs)%nat -> writing (nth i bs b0) = false ->
  exists r, bstep (f, bs) o = ((f, bs), r).
Proof.
  intros Ho Hi W.
  destruct (items_loop_outside_writing (bkeys (nth i bs b0)) f (nth i bs b0) [] W) as [ri Ei].
  destruct o; try discriminate; injection Ho as ->; cbn [bstep]; unfold b_values, b_items.
  (* get, items and values go through b_get or the items loop and put the unchanged handle back; the others only look *)
  1: destruct (get_outside_writing f (nth i bs b0) k W) as [rg ->].
  all: rewrite ?Ei, ?upd_nth_id by exact Hi; eauto.
Qed.

(* a reading session begins and ends without touching the buffer *)
Theorem read_session_keeps_buffer f b :
  queue (snd (fst (b_begin_r f b))) = queue b /\ queue (snd (fst (b_end_r f b))) = queue b /\ fst (fst (b_end_r f b)) = f.
Proof.
  unfold b_begin_r, b_end_r. destruct (open_ f (uk b) MR) as [f' h']. cbn. repeat split; reflexivity.
Qed.

(* o is a reading operation of handle i *)
Definition in_read_session (i : nat) (o : bop) : bool :=
  match reads o with Some j => Nat.eqb i j | None => false end.

Lemma brun_cons w o ops : brun w (o :: ops) = (snd (bstep w o) :: fst (brun (fst (bstep w o)) ops), snd (brun (fst (bstep w o)) ops)).
Proof. simpl. destruct (bstep w o) as [w' r]. simpl. destruct (brun w' ops). reflexivity. Qed.

Lemma brun_app ops1 : forall ops2 w, snd (brun w (ops1 ++ ops2)) = snd (brun (snd (brun w ops1)) ops2).
Proof. induction ops1 as [|o ops1 IH]; intros ops2 w; [reflexivity|]. rewrite <- app_comm_cons, !brun_cons. apply IH. Qed.

Theorem reads_run_changes_nothing i : forall ops f bs,
  forallb (in_read_session i) ops = true -> (i < length bs)%nat -> writing (nth i bs b0) = false ->
  snd (brun (f, bs) ops) = (f, bs).
Proof.
  induction ops as [|o ops IH]; intros f bs Ha Hi W; [reflexivity|].
  cbn [forallb] in Ha. apply andb_true_iff in Ha. destruct Ha as [Ho Ha].
  unfold in_read_session in Ho. destruct (reads o) as [j|] eqn:Er; [|discriminate]. apply Nat.eqb_eq in Ho. subst j.
  destruct (reading_changes_nothing f bs o i Er Hi W) as [r E]. rewrite brun_cons, E. apply IH; assumption.
Qed.

(* a whole reading session: begin, any reads, end -- the buffered puts are all still there, in order *)
Theorem reading_session_keeps_buffer i ops f bs :
  forallb (in_read_session i) ops = true -> (i < length bs)%nat ->
  let w := snd (brun (f, bs) (BeginR i :: ops ++ [EndR i])) in
  queue (nth i (snd w) b0) = queue (nth i bs b0).
Proof.
  intros Ha Hi. rewrite brun_cons, brun_app. cbn [bstep]. unfold b_begin_r.
  destruct (open_ f (uk (nth i bs b0)) MR) as [f1 h1]. cbn [fst].
  rewrite (reads_run_changes_nothing i); [|exact Ha|rewrite length_upd; exact Hi|rewrite nth_upd_same by exact Hi; reflexivity].
  cbn [brun bstep snd]. unfold b_end_r. rewrite nth_upd_same by exact Hi. cbn [snd].
  rewrite nth_upd_same by (rewrite length_upd; exact Hi). reflexivity.
Qed.
