(* C04, whole schedules: what a schedule's outcomes must be (lrun_spec), the invariant J at the start and along every
   schedule, and acquisition of a free lock.  Serialisability is proved from these in Props/C04.v. *)
From Coq Require Import PeanoNat List Bool.
Import ListNotations.
From Molli Require Import Model.UKV Proofs.UKVBase Proofs.UKV Model.Session Proofs.Session.

(* what a schedule's outcomes must be, in terms of the abstract map only *)
Fixpoint lrun_spec (rs : list kv) (s : lworld) (ls : list label) (outs : list outcome) (rs_final : list kv) : Prop :=
  match ls, outs with
  | [], [] => rs_final = rs
  | l :: ls', o :: outs' =>
      match lstep s l with
      | Some (s', r) =>
          o = Done r /\
          match label_op s l with
          | Some op => exists rs1, step_spec rs (hnth (snd (lw s)) (op_handle op)) op r rs1 /\
                                   lrun_spec rs1 s' ls' outs' rs_final
          | None => lrun_spec rs s' ls' outs' rs_final
          end
      | None => o = Refused /\ lrun_spec rs s ls' outs' rs_final
      end
  | _, _ => False
  end.

Lemma lrun_cons s l ls :
  lrun s (l :: ls) = match lstep s l with
                     | Some (s', r) => (Done r :: fst (lrun s' ls), snd (lrun s' ls))
                     | None => (Refused :: fst (lrun s ls), snd (lrun s ls))
                     end.
Proof. simpl. destruct (lstep s l) as [[s' r]|]; [destruct (lrun s' ls)|destruct (lrun s ls)]; reflexivity. Qed.

Lemma J_init f n m ow : J (mkl (f, repeat h0 n) (repeat p0 m) ow).
Proof. constructor; simpl; unfold pnth, hnth; intros; rewrite nth_repeat in *; discriminate. Qed.

(* the invariant -- hence mutual exclusion, its first clause -- holds in every reachable state *)
Lemma lrun_J ls : forall s, J s -> J (snd (lrun s ls)).
Proof.
  induction ls as [|l ls IH]; intros s Js; [exact Js|]. rewrite lrun_cons.
  destruct (lstep s l) as [[s' r]|] eqn:E; apply IH; [apply (lstep_sound s l s' r Js E)|exact Js].
Qed.

(* no lock leak in the model: when nobody holds the lock, any process can take it in either mode *)
Theorem acquire_enabled_when_free s p w :
  (p < length (procs s))%nat -> (forall q, plock (pnth (procs s) q) = LFree) ->
  exists s', lstep s (LAcq p w) = Some (s', ROk) /\ plock (pnth (procs s') p) = (if w then LWrite else LRead).
Proof.
  intros Hp Hfree. simpl. rewrite (proj2 (Nat.ltb_lt _ _) Hp), (Hfree p). simpl.
  rewrite (proj2 (others_ok_iff (procs s) p _ 0)) by (intros q _ _; rewrite (Hfree q); destruct w; reflexivity).
  eexists. split; [reflexivity|]. simpl. rewrite pnth_upd_same by exact Hp. reflexivity.
Qed.
