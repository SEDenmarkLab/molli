(* The buffering layer IS the model: the translated bodies of CollectionBackendBase.put / get / flush and of
   UkvCollectionBackend._write / _read / update_keys (Gen/BackendCode.v) compute, for every state, what
   Model/Backend.v's b_put / b_get / flush compute. *)
From Coq Require Import NArith ZArith List Bool String Lia.
Import ListNotations.
From Molli Require Import Model.UKV Model.MiniPy Model.Backend Model.MiniPyB Gen.UKVCode Gen.BackendCode
  Proofs.UKVCode.
Open Scope string_scope.
Open Scope N_scope.

(* the backend object state represents the model backend b over the file f *)
Record BRep (s : bstate) (f : bytes) (b : backend) : Prop := {
  br_file : file (inner s) = f;
  br_has : has_inner s = has_uk b;
  br_uk : has_uk b = true -> Rep (inner s) (uk b);
  br_q : bq s = queue b;
  br_ks : bks s = bkeys b;
  br_used : bused s = used b;
  br_buf : bbuf s = bufsize b;
  br_ro : bro s = ro b;
  br_sess : bsess s = st b
}.

Definition bout_of (e : option berr) : boutcome := match e with None => BONormal | Some x => BORaise x end.
Definition with_uk (b : backend) (h : handle) : backend := mkb h (has_uk b) (queue b) (bkeys b) (used b) (bufsize b) (ro b) (st b).

Lemma brep_restore s f b l : BRep s f b -> BRep (restore_loc s l) f b.
Proof. intros [A1 A2 A3 A4 A5 A6 A7 A8 A9]. constructor; assumption. Qed.

(* _write(key, value): the translated UKVFile.put on the inner object *)
Lemma write_code fuel s f b k v :
  BRep s f b -> has_uk b = true -> bloc s "key" = Some k -> bloc s "value" = Some v ->
  let '(s', o) := bexec fuel write_prog s in
  let '(f', h', r) := put f (uk b) k v in
  BRep s' f' (with_uk b h') /\ bloc s' = bloc s /\
  o = match r with ROk => BONormal | RErr e => BORaise (berr_of e) | _ => BORaise BAttr end.
Proof.
  intros R Hh Lk Lv. destruct R as [Rf Rh Ru Rq Rk Rus Rb Rr Rs]. specialize (Ru Hh).
  unfold write_prog. cbn [bexec]. rewrite Rh, Hh. cbn [negb bind_inner beval_val]. rewrite Lk. cbn [bind_inner beval_val]. rewrite Lv. cbn [bind_inner].
  set (st0 := set_local (set_local (inner s) "key" (VBytes k)) "value" (VBytes v)).
  assert (R0 : Rep st0 (uk b)) by (apply rep_locals, rep_locals; exact Ru).
  assert (Lk0 : lookup_env (locals st0) "key" = Some (VBytes k)).
  { unfold st0. cbn [set_local locals]. rewrite lookup_set_other by discriminate. apply lookup_set_same. }
  assert (Lv0 : lookup_env (locals st0) "value" = Some (VBytes v)) by (unfold st0; cbn [set_local locals]; apply lookup_set_same).
  pose proof (put_code fuel st0 (uk b) k v R0 Lk0 Lv0) as P. change (file st0) with (file (inner s)) in P. rewrite Rf in P.
  pose proof (put_result_kind f (uk b) k v) as K.
  destruct (exec fuel put_prog st0) as [st1 o1]. destruct (put f (uk b) k v) as [[f' h'] r]. destruct P as [P1 [P2 P3]].
  split; [|split].
  - constructor; cbn; try assumption.
    intros _. exact P2.
  - reflexivity.
  - subst o1. destruct K as [K|[e K]]; subst r; [reflexivity|destruct e; reflexivity].
Qed.

Definition set_used (b : backend) (u : Z) : backend := mkb (uk b) (has_uk b) (queue b) (bkeys b) u (bufsize b) (ro b) (st b).

(* the body of flush()'s loop as the translator emits it; flush_code checks by [change] that flush_prog has this shape *)
Definition loop_body : bstmt := BTryReraise (BCall write_prog) (BSeq (BCall update_keys_prog) BKeysAddQueued).

(* the while loop of flush() is the model's flush_loop (the model resets the buffer accounting inside the loop's last
   step, the code right after the loop: stated with the accounting left as it was) *)
Lemma flush_loop_code fuel : forall n s f b,
  (List.length (bq s) < n)%nat -> BRep s f b ->
  let '(s', o) := bwloop (bexec fuel loop_body) "key" "value" n s in
  let '(f', b', e) := flush_loop n f b in
  o = bout_of e /\ BRep s' f' (match e with None => set_used b' (used b) | Some _ => b' end).
Proof.
  induction n as [|n IH]; intros s f b Hn R; [lia|].
  pose proof R as R0. destruct R as [Rf Rh Ru Rq Rk Rus Rb Rr Rs].
  cbn [bwloop flush_loop]. rewrite Rq. destruct (queue b) as [|[k v] q'] eqn:Eq.
  - (* empty queue *)
    cbn [bout_of]. split; [reflexivity|]. constructor; cbn; try assumption; try reflexivity; try (rewrite Rq; exact Eq).
  - set (s1 := set_bloc (set_bloc (mkbs (inner s) (has_inner s) q' (bks s) (bused s) (bbuf s) (bro s) (bsess s) (bheld s) (bloc s)) "key" k) "value" v).
    set (b1 := mkb (uk b) (has_uk b) q' (bkeys b) (used b) (bufsize b) (ro b) (st b)).
    assert (R1 : BRep s1 f b1).
    { constructor; cbn; try assumption; reflexivity. }
    assert (Lk : bloc s1 "key" = Some k) by reflexivity.
    assert (Lv : bloc s1 "value" = Some v) by reflexivity.
    destruct (has_uk b) eqn:Hh; cbn [negb].
    + (* the UKVFile exists: _write is the translated put *)
      pose proof (write_code fuel s1 f b1 k v R1 eq_refl Lk Lv) as W. change (uk b1) with (uk b) in W.
      unfold loop_body at 1. cbn [bexec].
      destruct (bexec fuel write_prog s1) as [s2 o2]. destruct (put f (uk b) k v) as [[f' h'] r] eqn:Ep.
      destruct W as [W1 [W2 W3]]. subst o2.
      pose proof (put_result_kind f (uk b) k v) as K. rewrite Ep in K.
      destruct K as [K|[e K]]; subst r.
      * (* written: next item *)
        cbn [bexec]. fold loop_body.
        set (s2' := restore_loc s2 (bloc s1)).
        assert (W1' : BRep s2' f' (with_uk b1 h')) by (apply brep_restore; exact W1).
        assert (Hn' : (List.length (bq s2') < n)%nat).
        { rewrite (br_q _ _ _ W1'). cbn [with_uk queue b1]. rewrite Rq in Hn. simpl in Hn. lia. }
        specialize (IH s2' f' (with_uk b1 h') Hn' W1').
        destruct (bwloop (bexec fuel loop_body) "key" "value" n s2') as [s3 o3].
        change (with_uk b1 h') with (mkb h' true q' (bkeys b) (used b) (bufsize b) (ro b) (st b)) in IH.
        destruct (flush_loop n f' (mkb h' true q' (bkeys b) (used b) (bufsize b) (ro b) (st b))) as [[f3 b3] e3].
        exact IH.
      * (* the write failed: the listing is repaired, the exception propagates *)
        cbn [bexec].
        set (s2' := restore_loc s2 (bloc s1)).
        assert (Hi : has_inner s2' = true) by (cbn [s2' restore_loc has_inner]; rewrite (br_has _ _ _ W1); reflexivity).
        unfold update_keys_prog. cbn [bexec]. rewrite Hi. cbn [negb].
        assert (R2 : Rep (inner s2') h') by (cbn [s2' restore_loc inner]; apply (br_uk _ _ _ W1); reflexivity).
        rewrite (keys_code (inner s2') h' R2). cbn [bexec restore_loc].
        cbn [bout_of]. split; [destruct e; reflexivity|].
        destruct W1 as [A1 A2 A3 A4 A5 A6 A7 A8 A9].
        constructor; cbn in A2, A3, A4, A5, A6, A7, A8, A9 |- *; try assumption.
        -- reflexivity.
        -- rewrite A4. reflexivity.
    + (* no UKVFile yet: AttributeError from _write and again from update_keys in the handler *)
      unfold loop_body at 1. cbn [bexec]. unfold write_prog at 1. cbn [bexec].
      assert (Hi : has_inner s1 = false) by (cbn [s1 set_bloc has_inner]; rewrite Rh; reflexivity).
      rewrite Hi. cbn [negb bexec]. unfold update_keys_prog. cbn [bexec restore_loc has_inner]. rewrite Hi. cbn [negb restore_loc].
      cbn [bout_of]. split; [reflexivity|]. apply brep_restore. apply brep_restore. exact R1.
Qed.

Lemma flush_loop_fuel : forall n m f b, (List.length (queue b) < n)%nat -> (List.length (queue b) < m)%nat ->
  flush_loop n f b = flush_loop m f b.
Proof.
  induction n as [|n IH]; intros m f b Hn Hm; [lia|]. destruct m as [|m]; [lia|].
  cbn [flush_loop]. destruct (queue b) as [|[k v] q'] eqn:Eq; [reflexivity|].
  destruct (negb (has_uk b)); [reflexivity|]. destruct (put f (uk b) k v) as [[f' h'] r]. destruct r; try reflexivity.
  apply IH; cbn [queue]; simpl in Hn, Hm; lia.
Qed.

Lemma flush_loop_none : forall n f b f' b', (List.length (queue b) < n)%nat -> flush_loop n f b = (f', b', None) -> used b' = 0%Z.
Proof.
  induction n as [|n IH]; intros f b f' b' Hn H; [lia|].
  cbn [flush_loop] in H. destruct (queue b) as [|[k v] q'] eqn:Eq; [inversion H; reflexivity|].
  destruct (negb (has_uk b)); [discriminate|]. destruct (put f (uk b) k v) as [[f1 h1] r]. destruct r; try discriminate.
  eapply IH; [|exact H]. cbn [queue]. simpl in Hn. lia.
Qed.

Lemma bexec_seq fuel a b s : bexec fuel (BSeq a b) s = (let '(s1, o) := bexec fuel a s in match o with BONormal => bexec fuel b s1 | _ => (s1, o) end).
Proof. reflexivity. Qed.
Lemma bexec_while fuel kx vx body s : bexec fuel (BWhilePop kx vx body) s = bwloop (bexec fuel body) kx vx fuel s.
Proof. reflexivity. Qed.
Lemma bexec_call fuel body s : bexec fuel (BCall body) s = (let '(s1, o) := bexec fuel body s in (restore_loc s1 (bloc s), match o with BOReturn _ => BONormal | _ => o end)).
Proof. reflexivity. Qed.

Lemma bexec_if fuel c a b s : bexec fuel (BIf c a b) s = match beval_bool s c with Some true => bexec fuel a s | Some false => bexec fuel b s | None => (s, BORaise BAttr) end.
Proof. reflexivity. Qed.

Theorem flush_code fuel s f b :
  (List.length (queue b) < fuel)%nat -> BRep s f b ->
  let '(s', o) := bexec fuel flush_prog s in
  let '(f', b', e) := flush f b in
  o = bout_of e /\ BRep s' f' b'.
Proof.
  intros Hn R. unfold flush. change flush_prog with (BSeq (BWhilePop "key" "value" loop_body) BUsedReset).
  rewrite bexec_seq, bexec_while.
  assert (Hn' : (List.length (bq s) < fuel)%nat) by (rewrite (br_q _ _ _ R); exact Hn).
  pose proof (flush_loop_code fuel fuel s f b Hn' R) as L.
  rewrite (flush_loop_fuel (S (List.length (queue b))) fuel f b (Nat.lt_succ_diag_r _) Hn).
  destruct (bwloop (bexec fuel loop_body) "key" "value" fuel s) as [s1 o1].
  destruct (flush_loop fuel f b) as [[f' b'] e] eqn:Ef. destruct L as [L1 L2]. subst o1.
  destruct e as [x|]; cbn [bout_of]; [|change (bexec fuel BUsedReset s1) with (mkbs (inner s1) (has_inner s1) (bq s1) (bks s1) 0%Z (bbuf s1) (bro s1) (bsess s1) (bheld s1) (bloc s1), BONormal)].
  - split; [reflexivity|exact L2].
  - split; [reflexivity|].
    pose proof (flush_loop_none fuel f b f' b' Hn Ef) as U.
    destruct L2 as [A1 A2 A3 A4 A5 A6 A7 A8 A9].
    constructor; cbn in *; try assumption.
    symmetry; exact U.
Qed.

Definition bout_of_res (r : bres) : boutcome :=
  match r with BOk => BONormal | BVal v => BOReturn (Some v) | BErr x => BORaise x | _ => BORaise BAttr end.

Opaque flush_prog.

(* put(key, value) of the buffering layer: Model.Backend.b_put, for every buffer size
   (fuel: the item this put appends, on top of what flush needs for the queue) *)
Theorem bput_code fuel s f b k v :
  (S (List.length (queue b)) < fuel)%nat -> BRep s f b -> bloc s "key" = Some k -> bloc s "value" = Some v ->
  let '(s', o) := bexec fuel bput_prog s in
  let '(f', b', r) := b_put f b k v in
  BRep s' f' b' /\ o = bout_of_res r.
Proof.
  intros Hn R Lk Lv. pose proof R as R0. destruct R as [Rf Rh Ru Rq Rk Rus Rb Rr Rs].
  unfold bput_prog, b_put. cbn [bexec beval_bool]. rewrite Rr. destruct (ro b) eqn:Ero.
  - cbn [bexec]. split; [exact R0|reflexivity].
  - repeat (progress (cbn [bexec beval_bytes beval_bool bloc bbuf bused inner has_inner bq bks bro bsess bheld]; rewrite ?Lk, ?Lv)).
    rewrite Rb, Rus. cbn [bufsize used].
    destruct (bufsize b <? used b + Z.of_N (len k) + Z.of_N (len v))%Z eqn:Eo.
    + set (s1 := mkbs (inner s) (has_inner s) (bq s ++ [(k, v)]) (set_add (bks s) k) (used b + Z.of_N (len k) + Z.of_N (len v))%Z (bufsize b) (bro s) (bsess s) (bheld s) (bloc s)).
      set (b1 := mkb (uk b) (has_uk b) (queue b ++ [(k, v)]) (set_add (bkeys b) k) (used b + Z.of_N (len k) + Z.of_N (len v))%Z (bufsize b) false (st b)).
      assert (R1 : BRep s1 f b1).
      { constructor; cbn; try assumption; try reflexivity; congruence. }
      assert (Hn1 : (List.length (queue b1) < fuel)%nat) by (cbn [b1 queue]; rewrite app_length; simpl; lia).
      pose proof (flush_code fuel s1 f b1 Hn1 R1) as F.
      destruct (bexec fuel flush_prog s1) as [s2 o2]. destruct (flush f b1) as [[f' b2] e].
      destruct F as [F1 F2]. subst o2. split; [apply brep_restore; exact F2|]. destruct e; reflexivity.
    + split; [|reflexivity].
      constructor; cbn; try assumption; try reflexivity; congruence.
Qed.

(* _read(key): the translated UKVFile.get on the inner object, as a call that returns its result *)
Lemma read_code fuel s1 f1 b1 k :
  BRep s1 f1 b1 -> bloc s1 "key" = Some k ->
  let '(s', o) := bexec fuel (BCallRet read_prog) s1 in
  BRep s' f1 b1 /\ o = bout_of_res (if negb (has_uk b1) then BErr BAttr else
                                    match get f1 (uk b1) k with RVal v => BVal v | RErr x => BErr (berr_of x) | _ => BOther end).
Proof.
  intros R1 L1. cbn [bexec]. unfold read_prog. cbn [bexec]. rewrite (br_has _ _ _ R1).
  destruct (has_uk b1) eqn:Hh; cbn [negb].
  - cbn [bind_inner beval_val]. rewrite L1. cbn [bind_inner].
    set (st0 := set_local (inner s1) "key" (VBytes k)).
    assert (R0 : Rep st0 (uk b1)) by (apply rep_locals, (br_uk _ _ _ R1 Hh)).
    assert (Lk0 : lookup_env (locals st0) "key" = Some (VBytes k)) by (unfold st0; cbn [set_local locals]; apply lookup_set_same).
    pose proof (get_code fuel st0 (uk b1) k R0 Lk0) as G. change (file st0) with (file (inner s1)) in G. rewrite (br_file _ _ _ R1) in G.
    destruct (exec fuel get_prog st0) as [st1 o1]. destruct G as [G1 [G2 [G3 [G4 G5]]]].
    split.
    + destruct R1 as [A1 A2 A3 A4 A5 A6 A7 A8 A9].
      constructor; cbn; try assumption.
      intros Hx. specialize (A3 Hx). destruct A3 as [B1 B2 B3 B4 B5 B6].
      constructor; rewrite ?G2; try assumption; change (attrs st0) with (attrs (inner s1)); try assumption.
      * intros Hc. rewrite G3, G4. change (strm st0) with (strm (inner s1)). apply B5; exact Hc.
    + subst o1. unfold get. destruct (closed (uk b1)); [reflexivity|]. destruct (lookup (toc (uk b1)) k); reflexivity.
  - split; [apply brep_restore; exact R1|reflexivity].
Qed.

(* get(key) of the buffering layer: a buffered key is flushed first, then read through the translated UKVFile.get *)
Theorem bget_code fuel s f b k :
  (List.length (queue b) < fuel)%nat -> BRep s f b -> bloc s "key" = Some k ->
  let '(s', o) := bexec fuel bget_prog s in
  let '(f', b', r) := b_get f b k in
  BRep s' f' b' /\ o = bout_of_res r.
Proof.
  intros Hn R Lk. unfold bget_prog, b_get, writing. rewrite bexec_seq, bexec_if. cbn [beval_bool beval_bytes]. rewrite Lk, (br_q _ _ _ R), (br_sess _ _ _ R).
  assert (Hc' : (if sess_eqb (st b) SWriting then Some (existsb (fun p => beq k (fst p)) (queue b)) else Some false) =
                Some (match st b with SWriting => true | _ => false end && existsb (fun p => beq k (fst p)) (queue b))%bool).
  { destruct (st b); reflexivity. }
  rewrite Hc'. clear Hc'.
  destruct (match st b with SWriting => true | _ => false end && existsb (fun p => beq k (fst p)) (queue b))%bool eqn:Eq.
  - pose proof (flush_code fuel s f b Hn R) as F. rewrite bexec_call.
    destruct (bexec fuel flush_prog s) as [s2 o2]. destruct (flush f b) as [[f1 b1] e]. destruct F as [F1 F2]. subst o2.
    destruct e as [x|]; cbn [bout_of].
    + split; [apply brep_restore; exact F2|reflexivity].
    + assert (L2 : bloc (restore_loc s2 (bloc s)) "key" = Some k) by exact Lk.
      pose proof (read_code fuel (restore_loc s2 (bloc s)) f1 b1 k (brep_restore _ _ _ _ F2) L2) as Rd.
      destruct (bexec fuel (BCallRet read_prog) (restore_loc s2 (bloc s))) as [s3 o3].
      destruct (negb (has_uk b1)); [exact Rd|]. destruct (get f1 (uk b1) k); exact Rd.
  - change (bexec fuel BSkip s) with (s, BONormal). pose proof (read_code fuel s f b k R Lk) as Rd.
    destruct (bexec fuel (BCallRet read_prog) s) as [s3 o3].
    destruct (negb (has_uk b)); [exact Rd|]. destruct (get f (uk b) k); exact Rd.
Qed.

Transparent flush_prog.
(* from here on, and in the files that import this one, the UKVFile methods called on the inner object stay folded *)
Opaque init_prog open_prog close_prog.

Definition opened (b : backend) (h' : handle) : backend := mkb h' true (queue b) (bkeys b) (used b) (bufsize b) (ro b) (st b).

(* what begin_read (m = MR) and begin_write (m = MA) look like; the lemmas about it are stated for any program of this shape,
   so that both generated programs instantiate them by reflexivity *)
Definition begin_shape (m : mode) : bstmt :=
  BIf (BENot BEHasUkv)
      (BUkvNew init_prog [("path", BENone); ("mode", BEStr (mode_str m)); ("h1", BENone); ("h2", BENone); ("b0", BENone)])
      (BUkvCall open_prog [("mode", BEStr (mode_str m))]).

(* begin_read() / begin_write(): the first session of a backend object constructs its UKVFile (mode r / a), later ones
   reopen it; either way the handle is Model.UKV.open_ of the backend's handle (h0 before the first session) *)
Lemma begin_code fuel (m : mode) prog s f b :
  prog = begin_shape m ->
  (List.length f < fuel)%nat -> BRep s f b -> headed f -> (has_uk b = false -> uk b = h0) -> last_in (uk b) ->
  let '(s', o) := bexec fuel prog s in
  let '(f', h') := open_ f (uk b) m in
  o = BONormal /\ BRep s' f' (opened b h').
Proof.
  intros -> Hfuel R Hh Hh0 Hin. destruct R as [Rf Rh Ru Rq Rk Rus Rb Rr Rs]. subst f.
  unfold begin_shape. cbn [bexec beval_bool]. rewrite Rh. destruct (has_uk b) eqn:Hu; cbn [negb].
  - (* the UKVFile exists: open(mode) *)
    cbn [bexec]. rewrite ?Rh. cbn [negb bind_inner beval_val].
    pose proof (open_code fuel (set_local (inner s) "mode" (VStr (mode_str m))) (uk b) m Hfuel Hh
                  (rep_locals _ _ _ _ (Ru eq_refl)) Hin (or_introl (lookup_set_same _ _ _))) as O. cbn [set_local file] in O.
    destruct (exec fuel open_prog _) as [st1 o1]. destruct (open_ (file (inner s)) (uk b) m) as [f' h'].
    destruct O as (O1 & O2 & O3).
    split; [destruct O2 as [-> | ->]; reflexivity|]. constructor; cbn; auto.
  - (* first session: UKVFile(path, mode=...) *)
    rewrite (Hh0 eq_refl). cbn [bexec bind_inner beval_val].
    match goal with |- context [exec fuel init_prog ?x] => set (st0 := x) end.
    pose proof (init_code fuel st0 m VNone VNone VNone Hfuel Hh) as I.
    do 4 (lapply I; [clear I; intros I|unfold st0; simpl; lookups; reflexivity]). change (file st0) with (file (inner s)) in I.
    destruct (exec fuel init_prog st0) as [st1 o1]. destruct (open_ (file (inner s)) h0 m) as [f' h'].
    destruct I as (I1 & -> & I3).
    split; [reflexivity|]. constructor; cbn; auto.
Qed.

(* end_read() / end_write(): the UKVFile is closed *)
Theorem end_code fuel prog s f b :
  prog = BUkvCall close_prog [] -> BRep s f b -> has_uk b = true ->
  (lookup_env (attrs (inner s)) "mode" = Some (VStr "r") \/ lookup_env (attrs (inner s)) "mode" = Some (VStr "a")) ->
  let '(s', o) := bexec fuel prog s in
  o = BONormal /\ BRep s' f (with_uk b (close_ (uk b))).
Proof.
  intros -> R Hh M. destruct R as [Rf Rh Ru Rq Rk Rus Rb Rr Rs]. specialize (Ru Hh).
  cbn [bexec]. rewrite Rh, Hh. cbn [negb bind_inner].
  pose proof (close_code fuel (inner s) (uk b) Ru M) as C.
  destruct (exec fuel close_prog (inner s)) as [st1 o1]. destruct C as [C1 [C2 [C3 C4]]]. subst o1.
  split; [reflexivity|].
  constructor; cbn; try assumption.
  - rewrite C1. exact Rf.
  - intros _. exact C2.
Qed.
