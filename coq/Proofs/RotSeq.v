(* C11, sequences of operations on one live structure (Model/RotSeq.v): `far_side` is the least set containing a3 that is
   closed under the bonds of the CURRENT graph not leading back into a2; one rotate_dihedral step in whatever state it is
   applied (target, far side rigid, rest fixed, bond lengths kept); every step of every sequence has its documented effect. *)
From Coq Require Import Reals List Lia Bool.
From Molli Require Import Common.Field3 Common.Field3R Model.Rot Model.RotSeq Proofs.Rot Proofs.RotMotion.
Import ListNotations.

Lemma list_eqb_eq a : forall b, list_eqb a b = true -> a = b.
Proof.
  induction a as [|x a IH]; intros [|y b] H; simpl in H; try discriminate; [reflexivity|].
  apply andb_prop in H. destruct H as [H1 H2]. apply Bool.eqb_prop in H1. subst. f_equal. now apply IH.
Qed.

(* a visited set is a table over the atoms 0 .. n-1: membership is the predicate that filled it, below n *)
Lemma member_map_seq (f : nat -> bool) n y : member (map f (seq 0 n)) y = true <-> y < n /\ f y = true.
Proof.
  unfold member. destruct (Nat.lt_ge_cases y n) as [L|L].
  - rewrite (nth_indep _ false (f 0)), map_nth, seq_nth by (rewrite ?map_length, ?seq_length; exact L). tauto.
  - rewrite nth_overflow by (now rewrite map_length, seq_length). split; [discriminate | lia].
Qed.

Lemma joins_iff e x y : joins e x y = true <-> (fst e = x /\ snd e = y) \/ (fst e = y /\ snd e = x).
Proof. unfold joins. rewrite orb_true_iff, !andb_true_iff, !Nat.eqb_eq. reflexivity. Qed.
Lemma joins_sym e x y : joins e x y = joins e y x.
Proof. unfold joins. apply orb_comm. Qed.
Lemma adjb_sym G x y : adjb G x y = adjb G y x.
Proof. unfold adjb. induction G as [|e G IH]; simpl; [reflexivity|]. now rewrite IH, joins_sym. Qed.

(* one round of the search adds exactly the atoms bonded to a visited atom, the blocked atom excepted *)
Lemma member_grow G n blk V y :
  member (grow G n blk V) y = true <->
  y < n /\ (member V y = true \/ (y <> blk /\ exists x, member V x = true /\ adjb G x y = true)).
Proof.
  unfold grow. rewrite member_map_seq, orb_true_iff, andb_true_iff, negb_true_iff, Nat.eqb_neq.
  apply and_iff_compat_l, or_iff_compat_l, and_iff_compat_l. unfold adjb. rewrite existsb_exists. split.
  - (* the edge e found by the code joins y to its other end, which is visited *)
    intros [e [He D]]. apply orb_true_iff in D.
    destruct D as [D|D]; apply andb_true_iff in D; destruct D as [D1 D2]; apply Nat.eqb_eq in D1.
    + exists (snd e). split; [exact D2|]. apply existsb_exists. exists e. split; [exact He|]. apply joins_iff. auto.
    + exists (fst e). split; [exact D2|]. apply existsb_exists. exists e. split; [exact He|]. apply joins_iff. auto.
  - intros [x [Hx A]]. apply existsb_exists in A. destruct A as [e [He J]]. exists e. split; [exact He|].
    apply joins_iff in J. apply orb_true_iff.
    destruct J as [[<- <-]|[<- <-]]; [right | left]; now rewrite Nat.eqb_refl, Hx.
Qed.

(* whatever `grow` preserves holds of the result of the iteration, and the result is a fixed point *)
Lemma far_iter_inv G n blk (I : list bool -> Prop) :
  (forall V, I V -> I (grow G n blk V)) ->
  forall fuel V T, far_iter G n blk fuel V = Some T -> I V -> I T /\ grow G n blk T = T.
Proof.
  intros Step. induction fuel as [|f IH]; intros V T H HV; simpl in H;
    destruct (list_eqb (grow G n blk V) V) eqn:E; try discriminate.
  1, 2: injection H as <-; split; [exact HV | now apply list_eqb_eq].
  apply (IH _ _ H). now apply Step.
Qed.

(* Q is closed under the bonds of G that do not lead into the blocked atom blk *)
Definition closed_avoiding (G : graph) (n blk : nat) (Q : nat -> Prop) : Prop :=
  forall x y, x < n -> y < n -> Q x -> adjb G x y = true -> y <> blk -> Q y.

(* The atoms behind a2 -> a3: a3 is among them, a2 is not, they are closed under every bond that does not lead back
   into a2, and they are the LEAST such set -- a function of the graph given, of nothing else. *)
Theorem far_side_spec (G : graph) (n i2 i3 : nat) (sel : nat -> bool) :
  far_side G n i2 i3 = Some sel ->
  i3 < n /\ i2 <> i3 /\ adjb G i2 i3 = true /\
  sel i3 = true /\ sel i2 = false /\
  (forall y, sel y = true -> y < n) /\
  (forall x y, y < n -> sel x = true -> adjb G x y = true -> y <> i2 -> sel y = true) /\
  (forall Q : nat -> Prop, Q i3 -> closed_avoiding G n i2 Q -> forall y, sel y = true -> Q y).
Proof.
  unfold far_side. intros H.
  destruct (adjb G i2 i3 && negb (Nat.eqb i2 i3) && Nat.ltb i3 n) eqn:C; [|discriminate].
  apply andb_true_iff in C. destruct C as [C C3]. apply andb_true_iff in C. destruct C as [C1 C2].
  apply Nat.ltb_lt in C3. apply negb_true_iff, Nat.eqb_neq in C2.
  destruct (far_iter G n i2 n _) as [T|] eqn:FI; [|discriminate]. injection H as <-.
  (* invariant of the rounds: a3 is inside, and nothing is inside beyond what every closed set containing a3 holds *)
  apply (far_iter_inv G n i2 (fun V => member V i3 = true /\
           forall Q : nat -> Prop, Q i3 -> closed_avoiding G n i2 Q ->
             forall y, member V y = true -> y < n /\ Q y)) in FI.
  - destruct FI as [[T3 Least] Fix]. repeat split; try assumption.
    + (* the atoms other than a2 are such a closed set *)
      destruct (member T i2) eqn:Hm; [|reflexivity].
      destruct (Least (fun y => y <> i2) (not_eq_sym C2) (fun _ _ _ _ _ _ Hb => Hb) i2 Hm) as [_ Hn]. now destruct Hn.
    + intros y Hy. now apply (Least (fun _ => True)).
    + intros x y Hy Hx A Hb. rewrite <- Fix. apply member_grow. eauto 6.
    + intros Q Q3 Cl y Hy. now apply (Least Q).
  - intros V [H3 Least]. split; [apply member_grow; auto|].
    intros Q Q3 Cl y Hy. apply member_grow in Hy. destruct Hy as [Hlt [Hy|[Hb [x [Hx A]]]]]; [now apply Least|].
    split; [exact Hlt|]. destruct (Least Q Q3 Cl x Hx). now apply (Cl x y).
  - split; [apply member_map_seq; split; [exact C3 | apply Nat.eqb_refl]|].
    intros Q Q3 _ y Hy. apply member_map_seq in Hy. destruct Hy as [Hlt Hy]. apply Nat.eqb_eq in Hy. now subst.
Qed.

(* connectivity edits, as seen by the next search *)
Lemma joins_same e i j x y : joins e x y = true -> joins e i j = joins (i, j) x y.
Proof. intros J. apply Bool.eq_iff_eq_true. apply joins_iff in J. rewrite !joins_iff. cbn [fst snd]. intuition congruence. Qed.
Lemma adjb_del_bond G i j x y : adjb (graph_del_bond i j G) x y = adjb G x y && negb (joins (i, j) x y).
Proof.
  apply Bool.eq_iff_eq_true. unfold adjb, graph_del_bond.
  rewrite andb_true_iff, negb_true_iff, !existsb_exists. split.
  - intros [e [[He N]%filter_In J]]. rewrite <- (joins_same e i j x y J). apply negb_true_iff in N. eauto.
  - intros [[e [He J]] K]. exists e. split; [|exact J]. apply filter_In. rewrite (joins_same e i j x y J), K. auto.
Qed.

Lemma remove_row_nth {A} (d : A) : forall (l : list A) i k,
  nth k (remove_row i l) d = nth (if Nat.ltb k i then k else S k) l d.
Proof.
  induction l as [|x l IH]; intros i k.
  - destruct i, k; simpl; try reflexivity; now destruct (Nat.ltb _ _).
  - destruct i as [|i]; simpl; [reflexivity|].
    destruct k as [|k]; simpl; [reflexivity|]. rewrite IH.
    change (Nat.ltb (S k) (S i)) with (Nat.ltb k i). now destruct (Nat.ltb k i).
Qed.
Lemma remove_row_length {A} : forall (l : list A) i, i < length l -> length (remove_row i l) = Nat.pred (length l).
Proof.
  induction l as [|x l IH]; intros i H; simpl in H; [inversion H|].
  destruct i as [|i]; simpl; [reflexivity|]. rewrite IH by lia. destruct l; simpl in *; [lia | reflexivity].
Qed.

Local Open Scope R_scope.

(* the arctan2 arguments read from the other end of the chain are the same: dihedral(a,b,c,d) = dihedral(d,c,b,a) *)
Lemma dihedral_args_reverse (p1 p2 p3 p4 : vecR) (n : R) :
  dihedral_args ROps p4 p3 p2 p1 n = dihedral_args ROps p1 p2 p3 p4 n.
Proof. unfold dihedral_args. coords. f_equal; ring. Qed.

(* every bond of G is as long in X' as in X *)
Definition bonded_dist_kept (G : graph) (X X' : list vecR) : Prop :=
  forall x y, (x < length X)%nat -> (y < length X)%nat -> adjb G x y = true ->
    dist2 ROps (pt X' x) (pt X' y) = dist2 ROps (pt X x) (pt X y).

(* preconditions of a rotate_dihedral call in the state (X, G) it is applied to *)
Definition rd_pre (X : list vecR) (G : graph) (i1 i2 i3 i4 : nat) (st ct n2 rho : R) : Prop :=
  (i1 < length X)%nat /\ (i2 < length X)%nat /\ (i4 < length X)%nat /\
  adjb G i3 i4 = true /\ i4 <> i2 /\
  (forall sel, far_side G (length X) i2 i3 = Some sel -> sel i1 = false) /\           (* a2 - a3 is not a ring bond *)
  0 < n2 /\ n2 * n2 = norm2 ROps (vsub ROps (pt X i3) (pt X i2)) /\
  0 < rho /\
  rho * rho = fst (dihedral_args ROps (pt X i1) (pt X i2) (pt X i3) (pt X i4) n2) * fst (dihedral_args ROps (pt X i1) (pt X i2) (pt X i3) (pt X i4) n2)
            + snd (dihedral_args ROps (pt X i1) (pt X i2) (pt X i3) (pt X i4) n2) * snd (dihedral_args ROps (pt X i1) (pt X i2) (pt X i3) (pt X i4) n2) /\
  st * st + ct * ct = 1.
(* ... and its effect *)
Definition rd_post (X : list vecR) (G : graph) (i1 i2 i3 i4 : nat) (st ct n2 rho : R) (X' : list vecR) (G' : graph) : Prop :=
  exists sel, far_side G (length X) i2 i3 = Some sel /\ G' = G /\
    dihedral_args ROps (pt X' i1) (pt X' i2) (pt X' i3) (pt X' i4) n2 = (rho * st, rho * ct) /\
    dihedral_args ROps (pt X' i4) (pt X' i3) (pt X' i2) (pt X' i1) n2 = (rho * st, rho * ct) /\
    same_shape_on (fun i => sel i = true) X X' /\
    (forall i, sel i = false -> pt X' i = pt X i) /\
    bonded_dist_kept G X X'.

Theorem seq_rotate_dihedral_step (X : list vecR) (G : graph) (i1 i2 i3 i4 : nat) (st ct n2 rho : R) (X' : list vecR) (G' : graph) :
  sstep ROps (X, G) (SRotDih i1 i2 i3 i4 st ct n2 rho) = Some (X', G') ->
  rd_pre X G i1 i2 i3 i4 st ct n2 rho -> rd_post X G i1 i2 i3 i4 st ct n2 rho X' G'.
Proof.
  intros H [_ [_ [L4 [A34 [N42 [Ring [Hn [En [Hr [Er Hsc]]]]]]]]]].
  unfold sstep in H. destruct (far_side G (length X) i2 i3) as [sel|] eqn:FS; [|discriminate].
  injection H as HX <-. exists sel. split; [exact FS|]. split; [reflexivity|].
  destruct (far_side_spec G (length X) i2 i3 sel FS) as [L3 [N23 [A23 [S3 [S2 [Slt [Cl _]]]]]]].
  assert (S4 : sel i4 = true) by (apply (Cl i3 i4); assumption).
  assert (S1 : sel i1 = false) by (apply Ring; reflexivity).
  destruct (rotate_dihedral_correct X i1 i2 i3 i4 sel st ct n2 rho L3 L4 S1 S2 S3 S4 Hn En Hr Er Hsc)
    as [Tgt [_ [Shape Frame]]].
  destruct (rotate_dihedral_as_map X i1 i2 i3 i4 sel st ct n2 rho Hn En Hr Er Hsc) as [f [EX [Rf [F2 _]]]].
  rewrite HX in *.
  split; [exact Tgt|]. split; [rewrite dihedral_args_reverse; exact Tgt|]. split; [exact Shape|]. split; [exact Frame|].
  (* bond lengths: a bond that leaves the turned side can only end on a2 (the side is closed under all other bonds),
     and the map f that turns the side fixes a2 *)
  assert (Cross : forall a b, (b < length X)%nat -> adjb G a b = true -> sel a = true -> sel b = false -> f (pt X b) = pt X b).
  { intros a b Lb Aab Sa Sb. destruct (Nat.eq_dec b i2) as [->|ne]; [exact F2|].
    rewrite (Cl a b Lb Sa Aab ne) in Sb. discriminate. }
  intros x y Lx Ly Axy. rewrite EX. apply update_rows_dist; try assumption.
  - now apply (Cross x y).
  - apply (Cross y x); [exact Lx | now rewrite adjb_sym].
Qed.

Definition sop_pre (s : sstate R) (op : sop R) : Prop :=
  match op with
  | SRotDih i1 i2 i3 i4 st ct n2 rho => rd_pre (fst s) (snd s) i1 i2 i3 i4 st ct n2 rho
  | STransform _ M => proper M
  | _ => True
  end.
Definition sop_post (s : sstate R) (op : sop R) (s' : sstate R) : Prop :=
  let X := fst s in let G := snd s in let X' := fst s' in let G' := snd s' in
  match op with
  | SRotDih i1 i2 i3 i4 st ct n2 rho => rd_post X G i1 i2 i3 i4 st ct n2 rho X' G'
  | STranslate None _ | STransform None _ => G' = G /\ same_shape X X'
  | STranslate (Some idx) _ | STransform (Some idx) _ =>
      G' = G /\ same_shape_on (fun i => in_idx idx i = true) X X' /\ (forall i, in_idx idx i = false -> pt X' i = pt X i)
  | SConnect i j => X' = X /\ forall x y, adjb G' x y = joins (i, j) x y || adjb G x y
  | SDelBond i j => X' = X /\ forall x y, adjb G' x y = adjb G x y && negb (joins (i, j) x y)
  | SAddAtom p => G' = G /\ length X' = S (length X) /\ pt X' (length X) = p /\ forall i, (i < length X)%nat -> pt X' i = pt X i
  | SDelAtom i => length X' = Nat.pred (length X) /\ forall k, pt X' k = pt X (if Nat.ltb k i then k else S k)
  end.

Theorem sstep_effect (s : sstate R) (op : sop R) (s' : sstate R) :
  sstep ROps s op = Some s' -> sop_pre s op -> sop_post s op s'.
Proof.
  destruct s as [X G], s' as [X' G']. intros H Pre.
  destruct op as [i1 i2 i3 i4 st ct n2 rho | idx v | idx M | i j | i j | p | i]; unfold sop_post; cbn [fst snd].
  - now apply seq_rotate_dihedral_step.
  - destruct idx as [idx|]; simpl in H; injection H as <- <-.
    + split; [reflexivity|]. apply sub_translate_rigid.
    + split; [reflexivity|]. apply translate_same_shape.
  - simpl in Pre. destruct idx as [idx|]; simpl in H; injection H as <- <-.
    + split; [reflexivity|]. now apply sub_transform_rigid.
    + split; [reflexivity|]. now apply transform_same_shape.
  - simpl in H. destruct (Nat.ltb i (length X) && Nat.ltb j (length X) && negb (Nat.eqb i j)); [|discriminate].
    injection H as <- <-. split; reflexivity.
  - simpl in H. destruct (adjb G i j); [|discriminate]. injection H as <- <-. split; [reflexivity|]. intros; apply adjb_del_bond.
  - simpl in H. injection H as <- <-. split; [reflexivity|]. split; [rewrite app_length; simpl; lia|]. split.
    + unfold pt. rewrite app_nth2 by lia. now rewrite Nat.sub_diag.
    + intros i Hi. unfold pt. now rewrite app_nth1.
  - simpl in H. destruct (Nat.ltb i (length X)) eqn:L; [|discriminate]. apply Nat.ltb_lt in L.
    injection H as <- <-. split; [now apply remove_row_length|]. intros k. unfold pt. apply remove_row_nth.
Qed.

(* the states a sequence goes through, each step with its effect on the state the previous steps left *)
Inductive trace_ok : sstate R -> list (sop R) -> list (sstate R) -> Prop :=
| trace_nil s : trace_ok s [] []
| trace_cons s op s' ops tr :
    sstep ROps s op = Some s' -> (sop_pre s op -> sop_post s op s') -> trace_ok s' ops tr -> trace_ok s (op :: ops) (s' :: tr).

Theorem srun_trace_ok : forall (ops : list (sop R)) (s : sstate R) (tr : list (sstate R)),
  srun ROps s ops = Some tr -> trace_ok s ops tr.
Proof.
  induction ops as [|op ops IH]; intros s tr H; simpl in H.
  - injection H as <-. constructor.
  - destruct (sstep ROps s op) as [s'|] eqn:E; [|discriminate].
    destruct (srun ROps s' ops) as [t|] eqn:R; [|discriminate]. injection H as <-.
    constructor; [exact E | now apply sstep_effect | now apply IH].
Qed.
