(* The effects of the translated methods on the file: replay = exec; put only appends, hence the crash images of a put
   are exactly the family C03_crash_reopen quantifies over (committed file followed by a prefix of the new block);
   opening a file writes nothing but at most one cut of a torn tail (no_writes, at_most_one_cut). *)
From Coq Require Import NArith List Bool String Lia.
Import ListNotations.
From Molli Require Import Model.UKV Model.MiniPy Gen.UKVCode Proofs.UKVBase Proofs.UKV Proofs.MiniPyFrame Proofs.UKVCode.
Open Scope string_scope.
Open Scope N_scope.

Lemma replay_app f a b : replay f (a ++ b)%list = replay (replay f a) b.
Proof. unfold replay. apply fold_left_app. Qed.

Lemma wloop_eff_replay ec eb fc fb x :
  (forall s, replay (file s) (fc s) = file (fst (ec s))) ->
  (forall s, replay (file s) (fb s) = file (fst (eb s))) ->
  forall n s, replay (file s) (wloop_eff ec eb fc fb x n s) = file (fst (wloop ec eb x n s)).
Proof.
  intros Hc Hb. induction n as [|n IH]; intros s; [reflexivity|].
  cbn [wloop wloop_eff]. specialize (Hc s). destruct (ec s) as [s1 o] eqn:E1. cbn [fst] in Hc.
  rewrite replay_app, Hc.
  destruct o; cbn [replay fold_left fst]; try reflexivity.
  destruct (lookup_env (locals s1) x) as [v|]; [|reflexivity].
  destruct (truthy v); [|reflexivity].
  specialize (Hb s1). destruct (eb s1) as [s2 o2] eqn:E2. cbn [fst] in Hb.
  rewrite replay_app, Hb. destruct o2; cbn [replay fold_left fst]; try reflexivity. apply IH.
Qed.

(* replaying the effects of a run reproduces the file the run ends with *)
Theorem effects_replay fuel : forall c s, replay (file s) (effects fuel c s) = file (fst (exec fuel c s)).
Proof.
  induction c as [ |a IHa b IHb|x e|a e|k v|cnd a IHa b IHb|cnd IHcnd x body IHbody| |z|e|e|e|x|x n|e|e| |w|x h d|args body IHbody|args body IHbody
                 |body IHbody handler IHh els IHe| ]; intros s; cbn [effects exec]; try reflexivity.
  (* SCall, SCallRet: binding the arguments leaves the file alone *)
  all: try solve [destruct (bind_args s s args) as [s0|z] eqn:Eb; [|reflexivity]; apply bind_args_frame in Eb; destruct Eb as [Eb _];
    specialize (IHbody s0); destruct (exec fuel body s0) as [s1 o]; cbn [fst restore_locals file] in *;
    rewrite <- Eb, IHbody; destruct o; reflexivity].
  - (* SSeq *) specialize (IHa s). destruct (exec fuel a s) as [s1 o] eqn:E1. cbn [fst] in IHa.
    rewrite replay_app, IHa. destruct o; cbn [replay fold_left]; try reflexivity. apply IHb.
  - (* SAssign *) destruct (eval s e); reflexivity.
  - (* SSetAttr *) destruct (eval s e); reflexivity.
  - (* STocSet *) destruct (eval s k) as [[]|]; try reflexivity. destruct (eval s v) as [[]|]; try reflexivity.
    destruct (lookup_env (attrs s) "_toc") as [[]|]; reflexivity.
  - (* SIf *) destruct (eval s cnd) as [v|]; [|reflexivity]. destruct (truthy v); [apply IHa|apply IHb].
  - (* SWhile *) apply wloop_eff_replay; assumption.
  - (* SReturn *) destruct (eval s e); reflexivity.
  - (* SSeek *) destruct (s_closed (strm s)); [reflexivity|]. destruct (eval s e) as [[]|]; reflexivity.
  - (* SSeekRel *) destruct (s_closed (strm s)); [reflexivity|]. destruct (eval s e) as [[]|]; reflexivity.
  - (* SSeekEnd *) destruct (s_closed (strm s)); reflexivity.
  - (* SRead *) destruct (s_closed (strm s)); [reflexivity|]. destruct (eval s n) as [[]|]; reflexivity.
  - (* SWrite *) destruct (s_closed (strm s)); [reflexivity|]. destruct (eval s e) as [[]|]; try reflexivity.
    destruct (s_wr (strm s)); reflexivity.
  - (* STruncate *) destruct (s_closed (strm s)); [reflexivity|]. destruct (eval s e) as [[]|]; try reflexivity.
    destruct (s_wr (strm s)); reflexivity.
  - (* SUnpackRead *) destruct (s_closed (strm s)); [reflexivity|]. unfold do_read. destruct (unpack h _); reflexivity.
  - (* STryElse *) specialize (IHbody s). destruct (exec fuel body s) as [s1 o] eqn:E1. cbn [fst] in IHbody.
    rewrite replay_app, IHbody. destruct o; cbn [replay fold_left]; try reflexivity.
    + apply IHe.
    + specialize (IHh s1). destruct (exec fuel handler s1) as [s2 o2]. cbn [fst] in *. fold (replay (file s1) (effects fuel handler s1)).
      rewrite IHh. destruct o2; reflexivity.
Qed.

(* effects that append: replay is concatenation, and every crash image is the file followed by a prefix of the appended bytes *)
Lemma appended_replay : forall l f b, appended (len f) l = Some b -> replay f l = (f ++ b)%list.
Proof.
  induction l as [|[p w|n] l IH]; intros f b H; cbn [appended] in H.
  - inversion H. cbn. symmetry. apply app_nil_r.
  - destruct (p =? len f) eqn:Ep; [|discriminate]. apply N.eqb_eq in Ep. subst p.
    destruct (appended (len f + len w) l) as [r|] eqn:Er; [|discriminate]. inversion H; subst b.
    cbn [replay fold_left apply_effect]. rewrite write_at_end. fold (replay (f ++ w)%list l).
    rewrite (IH (f ++ w)%list r) by (rewrite len_app; exact Er). rewrite <- app_assoc. reflexivity.
  - discriminate.
Qed.

Lemma firstn_app_prefix (w r : bytes) j : (j <= List.length w)%nat -> firstn j w = firstn j (w ++ r).
Proof. intros H. rewrite firstn_app. replace (j - List.length w)%nat with 0%nat by lia. cbn. rewrite app_nil_r. reflexivity. Qed.

Theorem appended_images : forall l f b img, appended (len f) l = Some b -> is_image f l img ->
  exists n, img = (f ++ firstn n b)%list.
Proof.
  induction l as [|e l IH]; intros f b img H I.
  - inversion I; subst. exists 0%nat. cbn. symmetry. apply app_nil_r.
  - inversion I; subst.
    + exists 0%nat. cbn. symmetry. apply app_nil_r.
    + destruct e as [p w|n]; cbn [appended] in H; [|discriminate].
      destruct (p =? len f) eqn:Ep; [|discriminate]. apply N.eqb_eq in Ep. subst p.
      destruct (appended (len f + len w) l) as [r|] eqn:Er; [|discriminate]. inversion H; subst b.
      cbn [apply_effect] in *. rewrite write_at_end in *.
      destruct (IH (f ++ w)%list r img) as [n Hn]; [rewrite len_app; exact Er|assumption|].
      exists (List.length w + n)%nat. rewrite Hn, <- app_assoc. f_equal.
      rewrite firstn_app. rewrite (firstn_all2 w) by lia. replace (List.length w + n - List.length w)%nat with n by lia. reflexivity.
    + cbn [appended] in H. destruct (p =? len f) eqn:Ep; [|discriminate]. apply N.eqb_eq in Ep. subst p.
      destruct (appended (len f + len b0) l) as [r|]; [|discriminate]. inversion H; subst b.
      exists j. rewrite write_at_end. f_equal. apply firstn_app_prefix. lia.
Qed.

(* one statement at a time, as in Proofs/UKVCode.v: what the first statement does to the file, then the rest from the state it leaves *)
Lemma effects_seq fuel a b s s1 l :
  exec fuel a s = (s1, ONormal) -> effects fuel a s = l -> effects fuel (SSeq a b) s = (l ++ effects fuel b s1)%list.
Proof. intros E L. cbn [effects]. rewrite E, L. reflexivity. Qed.

(* put(key, value) of a fresh key of legal size through an open append handle: its effects on the file are writes only,
   contiguous from the handle's end of file, and what they append is exactly the encoded block *)
Theorem put_effects fuel s h k v e :
  Rep s h -> lookup_env (locals s) "key" = Some (VBytes k) -> lookup_env (locals s) "value" = Some (VBytes v) ->
  closed h = false -> md h = MA -> lookup (toc h) k = None -> wfb k v = true -> eof h = Some e ->
  appended e (effects fuel put_prog s) = Some (encb k v).
Proof.
  intros [Rt Rl Re Rc Rs Rn] Lk Lv Hc Hm Hl Hw He. destruct (Rs Hc) as [Hcl Hwr]. rewrite Hm in Hwr. unfold wfb in Hw.
  unfold put_prog.
  repeat erewrite effects_seq
    by (run_stmt ltac:(rewrite ?Rc, ?Hc, ?Rt, ?Lk, ?Lv, ?Re, ?He, ?Hl, ?Hcl, ?Hwr; unfold pack_blk; rewrite ?Hw); reflexivity).
  simpl. rewrite !N.eqb_refl. unfold encb. simpl. rewrite ?app_nil_r, <- ?app_assoc. reflexivity.
Qed.

(* opening a file writes nothing, except possibly one cut of a torn tail: decided on the translated terms *)
Fixpoint no_writes (c : stmt) : bool :=
  match c with
  | SWrite _ | STruncate _ => false
  | SSeq a b | SIf _ a b | SWhile a _ b => no_writes a && no_writes b
  | SCall _ a | SCallRet _ a => no_writes a
  | STryElse a b c0 => no_writes a && no_writes b && no_writes c0
  | _ => true
  end.

Lemma wloop_eff_nil ec eb fc fb x : (forall s, fc s = []) -> (forall s, fb s = []) -> forall n s, wloop_eff ec eb fc fb x n s = [].
Proof.
  intros Hc Hb. induction n as [|n IH]; intros s; [reflexivity|]. cbn [wloop_eff].
  destruct (ec s) as [s1 o]. rewrite Hc. destruct o; try reflexivity. destruct (lookup_env (locals s1) x); [|reflexivity].
  destruct (truthy v); [|reflexivity]. destruct (eb s1) as [s2 o2]. rewrite Hb. destruct o2; try reflexivity. apply IH.
Qed.

Lemma no_writes_no_effects fuel : forall c s, no_writes c = true -> effects fuel c s = [].
Proof.
  induction c as [ |a IHa b IHb|x e|a e|k v|cnd a IHa b IHb|cnd IHcnd x body IHbody| |z|e|e|e|x|x n|e|e| |w|x h d|args body IHbody|args body IHbody
                 |body IHbody handler IHh els IHe| ]; intros s H; cbn [effects no_writes] in *; try reflexivity; try discriminate.
  - apply andb_prop in H. destruct H as [Ha Hb]. destruct (exec fuel a s) as [s1 o]. rewrite IHa by exact Ha.
    destruct o; try reflexivity. apply IHb; exact Hb.
  - apply andb_prop in H. destruct H as [Ha Hb]. destruct (eval s cnd) as [v|]; [|reflexivity]. destruct (truthy v); [apply IHa|apply IHb]; assumption.
  - apply andb_prop in H. destruct H as [Ha Hb]. apply wloop_eff_nil; intros s0; [apply IHcnd|apply IHbody]; assumption.
  - destruct (bind_args s s args); [apply IHbody; exact H|reflexivity].
  - destruct (bind_args s s args); [apply IHbody; exact H|reflexivity].
  - apply andb_prop in H. destruct H as [H Hc]. apply andb_prop in H. destruct H as [Ha Hb].
    destruct (exec fuel body s) as [s1 o]. rewrite IHbody by exact Ha. destruct o; try reflexivity; [apply IHe|apply IHh]; assumption.
Qed.

Lemma effects_seq_pure fuel a b s : no_writes a = true ->
  effects fuel (SSeq a b) s = (let '(s1, o) := exec fuel a s in match o with ONormal => effects fuel b s1 | _ => [] end).
Proof. intros H. cbn [effects]. destruct (exec fuel a s) as [s1 o]. rewrite (no_writes_no_effects fuel a s H). reflexivity. Qed.

Definition at_most_one_cut (l : list effect) : Prop := l = [] \/ exists n, l = [ET n].

Lemma effects_if_truncate fuel c e s : at_most_one_cut (effects fuel (SIf c (STruncate e) SSkip) s).
Proof.
  cbn [effects]. destruct (eval s c) as [v|]; [|left; reflexivity]. destruct (truthy v); [|left; reflexivity].
  destruct (s_closed (strm s)); [left; reflexivity|]. destruct (eval s e) as [[]|]; try (left; reflexivity).
  destruct (s_wr (strm s)); [right; eexists; reflexivity|left; reflexivity].
Qed.
