(* C01: storing what was read back changes nothing further -- msgpack normalisation is idempotent, so one
   round trip reaches a fixpoint of the codec (read -> store into another library -> read = the first read). *)
From Coq Require Import List Bool.
Import ListNotations.
From Molli Require Import Common.ListFacts Model.Codec Proofs.Codec.

(* Fixpoint, not induction: val is nested through list and list of pairs, and the inner `induction l` keeps the
   recursive calls on subterms of v (the same in storable_mnorm) *)
Fixpoint mnorm_idem (v : val) : mnorm (mnorm v) = mnorm v.
Proof.
  destruct v as [| b | z | s | b | bits | d s | l | l | kv | dt xs]; cbn [mnorm]; try reflexivity;
    f_equal; rewrite map_map.
  1, 2: induction l as [|x l IH]; cbn [map]; [reflexivity|]; f_equal; [apply mnorm_idem|exact IH].
  induction kv as [|[k x] kv IH]; cbn [map]; [reflexivity|]. f_equal; [f_equal; apply mnorm_idem|exact IH].
Qed.

Lemma mnorm_atom_idem a : mnorm_atom (mnorm_atom a) = mnorm_atom a.
Proof. unfold mnorm_atom, abuild. cbn [aget a_element a_isotope a_label a_atype a_stereo a_geom a_fcharge a_fspin a_attrib].
  now rewrite !mnorm_idem. Qed.

Lemma mnorm_bond_idem b : mnorm_bond (mnorm_bond b) = mnorm_bond b.
Proof. unfold mnorm_bond. cbn [b_a1 b_a2 b_label b_btype b_stereo b_forder b_attrib]. now rewrite !mnorm_idem. Qed.

Theorem mnorm_obj_idem o : mnorm_obj (mnorm_obj o) = mnorm_obj o.
Proof.
  unfold mnorm_obj. cbn [o_name o_charge o_mult o_attrib o_atoms o_bonds o_nconf o_coords o_charges o_weights].
  rewrite !mnorm_idem, !map_map.
  f_equal; apply map_ext; intros x; [apply mnorm_atom_idem|apply mnorm_bond_idem].
Qed.

(* what a round trip returns is msgpack-stable: a second round trip returns it unchanged *)
Theorem mnorm_obj_stable o : msgpack_stable (mnorm_obj o).
Proof. exact (mnorm_obj_idem o). Qed.

Fixpoint storable_mnorm (v : val) : storable (mnorm v) = true.
Proof.
  destruct v as [| b | z | s | b | bits | d s | l | l | kv | dt xs]; cbn [mnorm storable]; try reflexivity.
  1, 2: rewrite forallb_map; induction l as [|x l IH]; cbn [forallb]; [reflexivity|]; now rewrite storable_mnorm, IH.
  induction kv as [|[k x] kv IH]; cbn [map forallb]; [reflexivity|]. now rewrite !storable_mnorm, IH.
Qed.

Lemma is_str_mnorm v : is_str (mnorm v) = is_str v.  Proof. destruct v; reflexivity. Qed.
Lemma is_int_mnorm v : is_int (mnorm v) = is_int v.  Proof. destruct v; reflexivity. Qed.
Lemma is_nz_mnorm v : is_nonzero_int (mnorm v) = is_nonzero_int v.  Proof. destruct v; reflexivity. Qed.
Lemma is_map_mnorm v : is_map (mnorm v) = is_map v.  Proof. destruct v; reflexivity. Qed.

Lemma storable_atom_mnorm a : storable_atom (mnorm_atom a) = true.
Proof. unfold storable_atom, mnorm_atom, abuild. cbn [forallb aget a_element a_isotope a_label a_atype a_stereo a_geom a_fcharge a_fspin a_attrib].
  now rewrite !storable_mnorm. Qed.

Lemma storable_bond_mnorm b : storable_bond (mnorm_bond b) = true.
Proof. unfold storable_bond, mnorm_bond. cbn [forallb bget b_label b_btype b_stereo b_forder b_attrib].
  now rewrite !storable_mnorm. Qed.

Theorem wf_obj_mnorm ens o : wf_obj ens o -> wf_obj ens (mnorm_obj o).
Proof.
  unfold wf_obj, wf_objb, storable_obj, wf_shapeb, mnorm_obj.
  cbn [o_name o_charge o_mult o_attrib o_atoms o_bonds o_nconf o_coords o_charges o_weights].
  rewrite is_str_mnorm, is_int_mnorm, is_nz_mnorm, is_map_mnorm, map_length, !forallb_map, !storable_mnorm.
  rewrite !andb_true_iff, !forallb_forall. intros [[[[[[[H1 H2] H3] H4] Ha] Hb] Hs] _].
  (* the endpoints are untouched, so Hb serves as it is *)
  repeat split; try assumption; intros x Hx.
  - unfold wf_atomb, mnorm_atom, abuild. cbn [a_element aget]. rewrite valid_element_mnorm. exact (Ha x Hx).
  - apply storable_atom_mnorm.
  - apply storable_bond_mnorm.
Qed.

(* one trip reaches a fixed point, for any accepted wiring that carries every slot *)
Theorem second_trip W : wiring_ok W = true -> covers_all W = true ->
  forall o o1, wf_obj (w_ens W) o -> roundtrip W o = Some o1 -> o1 = mnorm_obj o /\ roundtrip W o1 = Some o1.
Proof.
  intros Hok Hc o o1 Hw E. rewrite (roundtrip_v2 W Hok Hc o Hw) in E. injection E as <-. split; [reflexivity|].
  apply roundtrip_v2_exact; auto using wf_obj_mnorm, mnorm_obj_stable.
Qed.
