(* C07 -- lemmas about Model/Mol2Text.v, in this order.
   Tables: what the boolean checks on Gen/Mol2Types.v say about get_tok / set_tok for every triple of the domain
   (types_acc_sound, types_ok_sound, bonds_ok_sound, ...), and how the two sweeps over all triples are decided row by row.
   Text, for an arbitrary vocabulary: a joined line splits back into its fields; what `run` does with each kind of
   written line (the run_ lemmas); read (write m) = Some (norm m) for one molecule and for a list; the written text is a fixed
   point; ensembles; views.
   Real vocabulary: wf_real_mol / wf_real_ens (with neg_zero and canon_cpos the words Props/C07.v states its theorems
   in) and that they provide what the text lemmas ask (real_good_mol, real_good_ens). *)
From Coq Require Import String.
From Coq Require Import List Bool NArith ZArith Lia.
From Molli Require Import Common.StrSplit Common.Dec6 Gen.Mol2Types Model.Mol2Text.
Import ListNotations.
Local Open Scope N_scope.

Lemma In_seqN n x : In x (seqN n) <-> x < n.
Proof.
  unfold seqN. rewrite in_map_iff. split.
  - intros [k [<- Hk]]. apply in_seq in Hk. lia.
  - intros H. exists (N.to_nat x). split; [apply N2Nat.id|]. apply in_seq. lia.
Qed.

Lemma in_dom_lt e t g : in_dom (e, t, g) = true <-> e < n_elt /\ t < n_atype /\ g < n_geom.
Proof. unfold in_dom. rewrite !andb_true_iff, !N.ltb_lt. tauto. Qed.

Lemma all_triples_sound chk : all_triples chk = true -> forall a, in_dom a = true -> chk a = true.
Proof.
  unfold all_triples. intros H [[e t] g] [He [Ht Hg]]%in_dom_lt. rewrite <- In_seqN in He, Ht, Hg.
  rewrite forallb_forall in H. specialize (H e He). rewrite forallb_forall in H. specialize (H t Ht).
  rewrite forallb_forall in H. exact (H g Hg).
Qed.

Lemma index_of_nth l : nodupb l = true -> forall k s i, nth_error l k = Some s -> index_of s l i = Some (i + N.of_nat k).
Proof.
  induction l as [|x r IH]; intros Hnd k s i Hk; [now destruct k|].
  simpl in Hnd. apply andb_prop in Hnd as [Hx%negb_true_iff Hr]. destruct k as [|k]; simpl in *.
  - injection Hk as ->. rewrite str_eqb_refl. f_equal. lia.
  - destruct (str_eqb s x) eqn:E.
    + (* x would occur twice *)
      apply str_eqb_eq in E. subst s. apply nth_error_In in Hk. apply not_true_iff_false in Hx. destruct Hx.
      apply existsb_exists. exists x. now rewrite str_eqb_refl.
    + rewrite (IH Hr k s (N.succ i) Hk). f_equal. lia.
Qed.

Lemma nthN_In {A} (l : list A) k x : nthN l k = Some x -> In x l.
Proof. apply nth_error_In. Qed.

Lemma nthN_lt {A} (l : list A) k : k < lenN l -> exists x, nthN l k = Some x.
Proof.
  unfold nthN, lenN. intros H. destruct (nth_error l (N.to_nat k)) eqn:E; [eauto|].
  apply nth_error_None in E. lia.
Qed.

(* in a list of words without repetition, position k holds a blank-free word, and looking that word up gives k *)
Lemma token_at l k : nodupb l = true -> forallb (tokb pyws) l = true -> k < lenN l ->
  exists s, nthN l k = Some s /\ index_of s l 0 = Some k /\ tok pyws s.
Proof.
  intros Hnd Ht Hk. destruct (nthN_lt l k Hk) as [s Hs]. exists s. split; [exact Hs|]. split.
  - rewrite (index_of_nth l Hnd _ _ 0 Hs). now rewrite N2Nat.id.
  - apply tokb_tok. rewrite forallb_forall in Ht. eapply Ht, nthN_In, Hs.
Qed.

Record vocab_wf : Prop := {
  vw_nodup : nodupb tokens_s = true; vw_tok : forallb (tokb pyws) tokens_s = true;
  vw_sym : forallb (tokb pyws) symbols_s = true;
  vw_bnodup : nodupb bond_tokens_s = true; vw_btok : forallb (tokb pyws) bond_tokens_s = true }.
Lemma vocab_wfb_sound : vocab_wfb = true -> vocab_wf.
Proof.
  unfold vocab_wfb. intros [[[[H1 H2]%andb_prop H3]%andb_prop H4]%andb_prop H5]%andb_prop. constructor; assumption.
Qed.

(* the reader finds the written token at the index the writer took it from *)
Lemma set_get_tok a k : vocab_wf -> get_tokidx a = Some k -> k < lenN tokens_s ->
  nthN tokens_s k = Some (get_tok a) /\ tok pyws (get_tok a)
  /\ set_tok (get_tok a) = match nthN set_tbl k with Some r => r | None => None end.
Proof.
  intros W Ek Hk. destruct (token_at _ k (vw_nodup W) (vw_tok W) Hk) as [s [Hs [Hi Ht]]].
  unfold set_tok, get_tok. rewrite Ek, Hs, Hi. auto.
Qed.

Lemma types_accb_wf : types_accb = true -> vocab_wf.
Proof. unfold types_accb. intros [W _]%andb_prop. exact (vocab_wfb_sound W). Qed.

Theorem types_acc_sound : types_accb = true -> forall a, in_dom a = true ->
  exists a', set_tok (get_tok a) = Some a' /\ elt_of a' = elt_of a /\ in_dom a' = true /\ tok pyws (get_tok a).
Proof.
  unfold types_accb. intros [W H]%andb_prop a Hd. apply vocab_wfb_sound in W. apply (all_triples_sound _ H) in Hd. clear H.
  unfold triple_accb in Hd. destruct (get_tokidx a) as [k|] eqn:Ek; [|discriminate].
  apply andb_prop in Hd as [Hk%N.ltb_lt H]. destruct (set_get_tok a k W Ek Hk) as [_ [Ht Es]].
  destruct (nthN set_tbl k) as [[a'|]|]; try discriminate. apply andb_prop in H as [He%N.eqb_eq Hd]. now exists a'.
Qed.

Theorem types_ok_sound : types_okb = true -> forall a, in_dom a = true ->
  forall a', set_tok (get_tok a) = Some a' -> get_tok a' = get_tok a.
Proof.
  unfold types_okb. intros [W H]%andb_prop a Hd a' Hs. apply vocab_wfb_sound in W. apply (all_triples_sound _ H) in Hd. clear H.
  unfold triple_okb in Hd. destruct (get_tokidx a) as [k|] eqn:Ek; [|discriminate].
  apply andb_prop in Hd as [Hk%N.ltb_lt H]. destruct (set_get_tok a k W Ek Hk) as [Hn [_ Es]]. rewrite Es in Hs.
  destruct (nthN set_tbl k) as [[a1|]|]; try discriminate. injection Hs as ->. apply andb_prop in H as [_ H].
  destruct (get_tokidx a') as [k'|] eqn:Ek'; [|discriminate]. apply N.eqb_eq in H. subst k'.
  unfold get_tok at 1. now rewrite Ek', Hn.
Qed.

(* Deciding the sweep row by row.  triple_okb asks of a triple only its element e and the index k of its
   token, and a row of the table (one element, n_atype * n_geom entries) holds a handful of distinct tokens:
   so it is enough to check every (e, k) with k among the distinct entries of row e.  (triple_accb asks less,
   so types_accb follows from types_okb without a sweep of its own: types_okb_accb.)  Evaluating all_triples
   itself recomputes `lenN tokens_s` and walks set_tbl for each of the 44 982 triples; the kernel's plain
   reduction (what coqchk uses in place of the VM) needs minutes for that.  For the same reason the length L
   of the token list is an argument here: an argument is evaluated once, a constant at every use. *)
Definition idx_okb (L e k : N) : bool :=
  (k <? L) &&
  match nthN set_tbl k with
  | Some (Some a') => (elt_of a' =? e) && in_dom a' && match get_tokidx a' with Some k' => k' =? k | None => false end
  | _ => false
  end.
Fixpoint dedup (l : list N) : list N :=
  match l with
  | [] => []
  | x :: r => let d := dedup r in if existsb (N.eqb x) d then d else x :: d
  end.
Definition rows_okb (chk : N -> N -> bool) : bool :=
  forallb (fun e => match nthN get_rows e with
                    | Some row => (n_atype * n_geom <=? lenN row) && forallb (chk e) (dedup row)
                    | None => false
                    end) (seqN n_elt).

Lemma In_dedup x l : In x l -> In x (dedup l).
Proof.
  induction l as [|y r IH]; [easy|]. cbn [dedup]. intros [->|H].
  - destruct (existsb _ _) eqn:E; [|now left]. apply existsb_exists in E. destruct E as [z [Hz E]].
    apply N.eqb_eq in E. now subst z.
  - destruct (existsb _ _); [|right]; auto.
Qed.

Lemma rows_okb_row chk e : rows_okb chk = true -> e < n_elt ->
  exists row, nthN get_rows e = Some row /\ n_atype * n_geom <= lenN row /\ forall k, In k row -> chk e k = true.
Proof.
  unfold rows_okb. intros H He. rewrite forallb_forall in H. specialize (H e (proj2 (In_seqN _ _) He)).
  destruct (nthN get_rows e) as [row|]; [|discriminate]. apply andb_prop in H. destruct H as [Hlen H].
  exists row. split; [reflexivity|]. split; [now apply N.leb_le|].
  intros k Hk. rewrite forallb_forall in H. now apply H, In_dedup.
Qed.

Lemma get_tokidx_row e t g row : e < n_elt -> t < n_atype -> g < n_geom -> nthN get_rows e = Some row ->
  get_tokidx (e, t, g) = nthN row (t * n_geom + g).
Proof.
  intros He Ht Hg Er. unfold get_tokidx, in_dom.
  rewrite (proj2 (N.ltb_lt _ _) He), (proj2 (N.ltb_lt _ _) Ht), (proj2 (N.ltb_lt _ _) Hg), Er. reflexivity.
Qed.

Lemma all_triples_complete chk :
  (forall e t g, e < n_elt -> t < n_atype -> g < n_geom -> chk (e, t, g) = true) -> all_triples chk = true.
Proof.
  intros H. unfold all_triples.
  apply forallb_forall. intros e He. apply forallb_forall. intros t Ht. apply forallb_forall. intros g Hg.
  apply H; now apply In_seqN.
Qed.

Lemma all_triples_by_rows (chk2 : N -> N -> bool) (chk : triple -> bool) :
  (forall a k, get_tokidx a = Some k -> chk a = chk2 (elt_of a) k) ->
  rows_okb chk2 = true -> all_triples chk = true.
Proof.
  intros Hchk H. apply all_triples_complete. intros e t g He Ht Hg.
  destruct (rows_okb_row _ e H He) as [row [Er [Hlen Hrow]]].
  assert (Hi : t * n_geom + g < n_atype * n_geom) by nia.
  destruct (nthN_lt row (t * n_geom + g)) as [k Hk]; [lia|].
  rewrite (Hchk (e, t, g) k).
  - eapply Hrow, nthN_In; eauto.
  - rewrite <- Hk. now apply get_tokidx_row.
Qed.

Lemma types_okb_by_rows : vocab_wfb && rows_okb (idx_okb (lenN tokens_s)) = true -> types_okb = true.
Proof.
  unfold types_okb. intros H. apply andb_prop in H. destruct H as [-> H].
  apply (all_triples_by_rows (idx_okb (lenN tokens_s))); [|exact H]. intros a k E. unfold triple_okb. rewrite E. reflexivity.
Qed.

(* triple_okb asks what triple_accb asks and, on top, that the token read back is written as itself *)
Lemma triple_okb_accb a : triple_okb a = true -> triple_accb a = true.
Proof.
  unfold triple_okb, triple_accb. destruct (get_tokidx a) as [k|]; [|easy]. destruct (k <? lenN tokens_s); [|easy].
  destruct (nthN set_tbl k) as [[a'|]|]; try easy. cbn [andb]. intros H. apply andb_prop in H. exact (proj1 H).
Qed.
Lemma types_okb_accb : types_okb = true -> types_accb = true.
Proof.
  unfold types_okb, types_accb. intros H. apply andb_prop in H. destruct H as [-> H]. apply all_triples_complete.
  intros e t g He Ht Hg. apply triple_okb_accb, (all_triples_sound _ H), in_dom_lt. auto.
Qed.

Lemma sym_tok a : vocab_wf -> in_dom a = true -> tok pyws (sym a).
Proof.
  intros W H. destruct a as [[e t] g]. apply in_dom_lt in H as [He _]. unfold sym. simpl fst.
  assert (He' : e < lenN symbols_s) by (unfold symbols_s, lenN; now rewrite map_length).
  destruct (nthN_lt _ _ He') as [s Hs]. rewrite Hs. apply tokb_tok.
  pose proof (vw_sym W) as Ht. rewrite forallb_forall in Ht. eapply Ht, nthN_In, Hs.
Qed.

Theorem bonds_ok_sound : bonds_okb = true ->
  forall b, b < n_btype ->
  exists b', bset_tok (bget_tok b) = Some b' /\ b' < n_btype /\ bget_tok b' = bget_tok b /\ tok pyws (bget_tok b).
Proof.
  unfold bonds_okb. intros [W H]%andb_prop b Hb. apply vocab_wfb_sound in W.
  rewrite forallb_forall in H. specialize (H b (proj2 (In_seqN _ _) Hb)). unfold bond_okb in H.
  destruct (nthN bond_get b) as [k|] eqn:Ek; [|discriminate]. apply andb_prop in H as [Hk%N.ltb_lt H].
  destruct (token_at _ k (vw_bnodup W) (vw_btok W) Hk) as [s [Hs [Hi Ht]]].
  destruct (nthN bond_set k) as [[b'|]|] eqn:Es; try discriminate. apply andb_prop in H as [Hb'%N.ltb_lt H].
  destruct (nthN bond_get b') as [k'|] eqn:Ek'; [|discriminate]. apply N.eqb_eq in H. subst k'.
  exists b'. unfold bset_tok, bget_tok. now rewrite Ek, Ek', Hs, Hi, Es.
Qed.

Theorem bond_spec_sound : bond_spec_okb = true ->
  forall name tk, In (name, tk) bond_spec ->
  exists b, pos_of name btype_names 0 = Some b /\ bget_tok b = u8 tk /\ bset_tok (u8 tk) = Some b.
Proof.
  unfold bond_spec_okb. intros H name tk Hin. rewrite forallb_forall in H. specialize (H _ Hin). cbn [fst snd] in H.
  destruct (pos_of name btype_names 0) as [b|]; [|discriminate]. exists b.
  apply andb_prop in H as [H1%str_eqb_eq H2]. destruct (bset_tok (u8 tk)) as [b'|]; [|discriminate].
  apply N.eqb_eq in H2. now subst b'.
Qed.

Lemma N_list_eqb_eq a : forall b, N_list_eqb a b = true -> a = b.
Proof.
  induction a as [|x a IH]; intros [|y b] H; try easy. apply andb_prop in H as [->%N.eqb_eq H]. f_equal. now apply IH.
Qed.
Lemma optN_list_eqb_eq a : forall b, optN_list_eqb a b = true -> a = b.
Proof.
  induction a as [|[x|] a IH]; intros [|[y|] b] H; try easy; simpl in H.
  - apply andb_prop in H as [->%N.eqb_eq H]. f_equal. now apply IH.
  - f_equal. now apply IH.
Qed.
Lemma triple_eqb_eq a b : triple_eqb a b = true -> a = b.
Proof.
  destruct a as [[e t] g], b as [[e' t'] g']. unfold triple_eqb. rewrite !andb_true_iff, !N.eqb_eq.
  now intros [[-> ->] ->].
Qed.

(* stateless_okb and sybyl_spec_okb compare finite tables; they are stated as lemmas all the same, so that the C07
   theorems close by `apply ...; vm_compute`: with the evaluated check as a local hypothesis, Qed evaluates it again
   without the VM *)
Lemma stateless_sound : stateless_okb = true ->
  get_after = seqN (lenN tokens) /\ bond_get_after = bond_get /\ bond_set_after = bond_set.
Proof.
  unfold stateless_okb. intros H. apply andb_prop in H as [[H1 H2]%andb_prop H3].
  split; [exact (N_list_eqb_eq _ _ H1)|]. split; [exact (N_list_eqb_eq _ _ H2)|exact (optN_list_eqb_eq _ _ H3)].
Qed.

Lemma sybyl_spec_sound : sybyl_spec_okb = true ->
  forall e t g k, In (e, t, g, k) sybyl_spec ->
  exists a, triple_of e t g = Some a /\ get_tok a = u8 k /\ set_tok (u8 k) = Some a.
Proof.
  unfold sybyl_spec_okb. intros H e t g k Hin. rewrite forallb_forall in H. specialize (H _ Hin). cbv beta iota in H.
  destruct (triple_of e t g) as [a|]; [|discriminate H]. exists a.
  apply andb_prop in H as [H1%str_eqb_eq H2]. destruct (set_tok (u8 k)) as [a'|]; [|discriminate H2].
  apply triple_eqb_eq in H2. subst a'. split; [reflexivity|]. split; [exact H1|reflexivity].
Qed.

Definition fields_ok (fs : list fld) : Prop := Forall (fun f => tok pyws (fld_tok f)) fs.

Lemma split_fld f rest : tok pyws (fld_tok f) -> match rest with [] => True | c :: _ => pyws c = true end ->
  split pyws (fld_text f ++ rest) = fld_tok f :: split pyws rest.
Proof.
  intros Ht Hr. destruct f as [w t|w t]; cbn [fld_text fld_tok] in *; unfold rpad, lpad; rewrite <- app_assoc.
  - rewrite split_tok_cons, split_ws; [reflexivity|apply spaces_ws|exact Ht|]. now destruct (w - length t)%nat.
  - rewrite split_ws by apply spaces_ws. now apply split_tok_cons.
Qed.

Lemma split_join_sp fs : fields_ok fs -> split pyws (strip pyws (join_sp fs)) = map fld_tok fs.
Proof.
  rewrite strip_split. induction 1 as [|f fs Hf _ IH]; [reflexivity|]. destruct fs as [|g fs].
  - cbn [join_sp map]. rewrite <- (app_nil_r (fld_text f)). now apply split_fld.
  - change (join_sp (f :: g :: fs)) with (fld_text f ++ SP :: join_sp (g :: fs)).
    rewrite split_fld by easy. cbn [map]. f_equal. exact IH.
Qed.

Lemma nl_free_fld f : tok pyws (fld_tok f) -> nl_free (fld_text f).
Proof.
  intros Ht. destruct f as [w t|w t]; simpl in *; unfold rpad, lpad;
  apply nl_free_app; auto using spaces_nl_free, tok_nl_free.
Qed.

Lemma fields_nl_free fs : Forall (fun f => tok pyws (fld_tok f)) fs -> nl_free (join_sp fs).
Proof.
  induction 1 as [|f fs Hf _ IH]; [reflexivity|]. destruct fs as [|g fs]; [now apply nl_free_fld|].
  change (join_sp (f :: g :: fs)) with (fld_text f ++ SP :: join_sp (g :: fs)).
  apply nl_free_app; [now apply nl_free_fld|exact IH].
Qed.

(* a record line the reader takes: n is 5 for atoms, 4 for bonds, the `length toks <? 5` / `<? 4` of Model `step`
   (MOL2Atom / MOL2Bond need that many positional fields) *)
Definition rec_ok (n : nat) (fs : list fld) : Prop := fields_ok fs /\ (n <= length fs)%nat.

Lemma lines_nl_free n F : Forall (rec_ok n) F -> Forall nl_free (map join_sp F).
Proof. intros H. apply Forall_map. eapply Forall_impl, H. intros fs [Hf _]. now apply fields_nl_free. Qed.

Lemma u8_tok_by_compute s : tokb pyws (u8 s) = true -> tok pyws (u8 s).
Proof. apply tokb_tok. Qed.

Fixpoint imap {A B} (f : N -> A -> B) (i : N) (l : list A) : list B :=
  match l with [] => [] | a :: r => f i a :: imap f (N.succ i) r end.

Lemma imap_length {A B} (f : N -> A -> B) l : forall i, length (imap f i l) = length l.
Proof. induction l; intros i; simpl; auto. Qed.

Lemma lenN_imap {A B} (f : N -> A -> B) i l : lenN (imap f i l) = lenN l.
Proof. unfold lenN. now rewrite imap_length. Qed.

Lemma Forall_imap {A B} (f : N -> A -> B) (Q : B -> Prop) l : forall i,
  (forall i a, In a l -> Q (f i a)) -> Forall Q (imap f i l).
Proof. induction l as [|a l IH]; intros i H; constructor; [|apply IH; intros]; apply H; simpl; auto. Qed.

Lemma imap_map {A B} (f : N -> A -> B) (n : A -> A) l : forall i,
  (forall i a, In a l -> f i (n a) = f i a) -> imap f i (map n l) = imap f i l.
Proof.
  induction l as [|a l IH]; intros i H; simpl; [reflexivity|].
  rewrite H by now left. now rewrite IH by (intros; apply H; now right).
Qed.

Lemma all_some_imap {A B C} (f : N -> A -> B) (g : B -> option C) (h : A -> C) l : forall i,
  (forall i a, In a l -> g (f i a) = Some (h a)) -> all_some (map g (imap f i l)) = Some (map h l).
Proof.
  induction l as [|a l IH]; intros i H; simpl; [reflexivity|].
  rewrite H by now left. now rewrite IH by (intros; apply H; now right).
Qed.

Lemma all_some_map {A B} (f : A -> option B) (g : A -> B) l :
  Forall (fun x => f x = Some (g x)) l -> all_some (map f l) = Some (map g l).
Proof. induction 1 as [|x l Hx _ IH]; [reflexivity|]. simpl. now rewrite Hx, IH. Qed.

Lemma lenN_cons {A} (x : A) l : lenN (x :: l) = N.succ (lenN l).
Proof. unfold lenN. simpl length. now rewrite Nat2N.inj_succ. Qed.

(* reader state between two blocks: `push` is the list of finished blocks once the pending header (if any) and its
   records are flushed by the next MOLECULE tag or the end of the text; `hd_complete`: that pending block holds
   the records its header declares, so the flush does not raise *)
Definition push (hd : option rawhdr) (at_ bd : list (list str)) (dn : list rawblock) : list rawblock :=
  match hd with Some h => (h, at_, bd) :: dn | None => dn end.
Definition hd_complete (hd : option rawhdr) (at_ bd : list (list str)) : Prop :=
  match hd with Some h => complete h at_ bd = true | None => True end.

Lemma count_down (mk : N -> mode) n :
  (if N.succ n =? 1 then Top else mk (N.succ n - 1)) = (if n =? 0 then Top else mk n).
Proof.
  destruct (N.eqb_spec n 0) as [->|E]; [reflexivity|].
  destruct (N.eqb_spec (N.succ n) 1); [lia|]. f_equal. lia.
Qed.

(* One lemma per kind of line of a written block: what `run` does with it from the state the previous kind leaves.
   Those by reflexivity are there so that run_mol reads as the sequence of lines.  The bond section is the atom
   section with Bonds for Atoms, 4 for 5 and s_bonds for s_atoms (run_bond_line, run_bond_lines). *)
Section Steps.
Variables (sk : bool) (dn : list rawblock) (hd : option rawhdr) (at_ bd : list (list str)) (na nb : option N).
Variable rest : list str.

Lemma run_produced :
  run (mk_st Top sk dn hd at_ bd na nb) (L_PRODUCED :: rest) = run (mk_st Top sk dn hd at_ bd na nb) rest.
Proof. reflexivity. Qed.

Lemma run_molecule : hd_complete hd at_ bd ->
  run (mk_st Top sk dn hd at_ bd na nb) (L_MOLECULE :: rest) = run (mk_st HName false (push hd at_ bd dn) None [] [] na nb) rest.
Proof.
  intros Hc. destruct hd as [h|]; [|reflexivity]. cbn [run].
  change (step _ L_MOLECULE) with (if complete h at_ bd then Some (mk_st HName false ((h, at_, bd) :: dn) None [] [] na nb) else None).
  now rewrite Hc.
Qed.

Lemma run_record nm cn mt ch :
  run (mk_st HName sk dn hd at_ bd na nb) (nm :: cn :: mt :: ch :: rest)
  = run (mk_st (HStatus (strip pyws nm) (strip pyws cn) (strip pyws ch)) sk dn hd at_ bd na nb) rest.
Proof. reflexivity. Qed.

Lemma run_status_blank nm cn ch a b r : all_some (map parse_nat (split pyws cn)) = Some (a :: b :: r) ->
  run (mk_st (HStatus nm cn ch) sk dn hd at_ bd na nb) ([] :: rest)
  = run (mk_st Top sk dn (Some (mk_hdr nm a (Some b) ch)) at_ bd (Some a) (Some b)) rest.
Proof. intros H. cbn [run]. unfold step. cbn [s_mode]. unfold finish_header. now rewrite H. Qed.

Lemma run_atom_tag n :
  run (mk_st Top sk dn hd at_ bd (Some n) nb) (L_ATOM :: rest)
  = run (mk_st (if n =? 0 then Top else Atoms n) false dn hd [] bd (Some n) nb) rest.
Proof. reflexivity. Qed.

Lemma run_bond_tag n :
  run (mk_st Top sk dn hd at_ bd na (Some n)) (L_BOND :: rest)
  = run (mk_st (if n =? 0 then Top else Bonds n) false dn hd at_ [] na (Some n)) rest.
Proof. reflexivity. Qed.

Lemma run_atom_line n fs : rec_ok 5 fs ->
  run (mk_st (Atoms (N.succ n)) sk dn hd at_ bd na nb) (join_sp fs :: rest)
  = run (mk_st (if n =? 0 then Top else Atoms n) sk dn hd (map fld_tok fs :: at_) bd na nb) rest.
Proof.
  intros [H Hl]. cbn [run]. unfold step. cbn [s_mode s_skip s_done s_hdr s_atoms s_bonds s_na s_nb].
  rewrite split_join_sp, map_length, count_down by exact H. now destruct (Nat.ltb_spec (length fs) 5); [lia|].
Qed.

Lemma run_bond_line n fs : rec_ok 4 fs ->
  run (mk_st (Bonds (N.succ n)) sk dn hd at_ bd na nb) (join_sp fs :: rest)
  = run (mk_st (if n =? 0 then Top else Bonds n) sk dn hd at_ (map fld_tok fs :: bd) na nb) rest.
Proof.
  intros [H Hl]. cbn [run]. unfold step. cbn [s_mode s_skip s_done s_hdr s_atoms s_bonds s_na s_nb].
  rewrite split_join_sp, map_length, count_down by exact H. now destruct (Nat.ltb_spec (length fs) 4); [lia|].
Qed.
End Steps.

(* a whole section of n records (n = 0: the tag alone), whatever the fields are *)
Lemma run_atom_lines F : forall sk dn hd acc bd na nb rest, Forall (rec_ok 5) F ->
  run (mk_st (if lenN F =? 0 then Top else Atoms (lenN F)) sk dn hd acc bd na nb) (map join_sp F ++ rest)
  = run (mk_st Top sk dn hd (rev (map (map fld_tok) F) ++ acc) bd na nb) rest.
Proof.
  induction F as [|fs F IH]; intros sk dn hd acc bd na nb rest G; [reflexivity|]. inversion G as [|x y Gf GF]; subst.
  rewrite lenN_cons. destruct (N.eqb_spec (N.succ (lenN F)) 0); [lia|]. cbn [map app].
  rewrite run_atom_line, IH by assumption. cbn [rev]. now rewrite <- app_assoc.
Qed.

Lemma run_bond_lines F : forall sk dn hd at_ acc na nb rest, Forall (rec_ok 4) F ->
  run (mk_st (if lenN F =? 0 then Top else Bonds (lenN F)) sk dn hd at_ acc na nb) (map join_sp F ++ rest)
  = run (mk_st Top sk dn hd at_ (rev (map (map fld_tok) F) ++ acc) na nb) rest.
Proof.
  induction F as [|fs F IH]; intros sk dn hd at_ acc na nb rest G; [reflexivity|]. inversion G as [|x y Gf GF]; subst.
  rewrite lenN_cons. destruct (N.eqb_spec (N.succ (lenN F)) 0); [lia|]. cbn [map app].
  rewrite run_bond_line, IH by assumption. cbn [rev]. now rewrite <- app_assoc.
Qed.

Section Roundtrip.
Variable V : vocab.

(* Three layers of well-formedness: wf_mol (Model: name, labels, bond ends), wf_real_mol (below: wf_mol and every
   type a member of its enumeration), and good_mol: what the text lemmas use of the vocabulary for the atoms /
   bonds of one molecule.  real_good_mol connects them: types_acc_sound, sym_tok and bonds_ok_sound provide good_atom /
   good_bond for every atom and bond type of the real vocabulary. *)
Definition good_atom (a : atom V) : Prop :=
  wf_label (a_label a) = true /\ tok pyws (V_get V (a_ty a)) /\ tok pyws (V_sym V (a_ty a))
  /\ exists t', V_set V (V_get V (a_ty a)) = Some t'.
Definition good_bond (na : N) (b : bond V) : Prop :=
  wf_bond V na b = true /\ tok pyws (V_bget V (b_ty b)) /\ exists t', V_bset V (V_bget V (b_ty b)) = Some t'.
Definition good_mol (m : mol V) : Prop :=
  wf_name (m_name m) = true /\ Forall good_atom (m_atoms m) /\ Forall (good_bond (lenN (m_atoms m))) (m_bonds m).

Variable wq : bool.

Lemma atom_lines_imap l : forall i, atom_lines V wq i l = map join_sp (imap (atom_fields V wq) i l).
Proof. induction l as [|a l IH]; intros i; simpl; [reflexivity|]. now rewrite IH. Qed.
Lemma bond_lines_imap l : forall i, bond_lines V wq i l = map join_sp (imap (bond_fields V wq) i l).
Proof. induction l as [|b l IH]; intros i; simpl; [reflexivity|]. now rewrite IH. Qed.

Lemma or_sym_nonempty s a : s <> [] -> or_sym V s a = s.
Proof. now destruct s. Qed.

Lemma label_of_tok a : good_atom a -> tok pyws (label_of V a).
Proof.
  intros [Hl [_ [Hs _]]]. unfold label_of, or_sym, wf_label in *. destruct (a_label a); [exact Hs|now apply tokb_tok].
Qed.
Lemma type_of_eq a : good_atom a -> type_of V a = V_get V (a_ty a).
Proof. intros [_ [[Hne _] _]]. now apply or_sym_nonempty. Qed.

Lemma atom_fields_ok i a : good_atom a -> rec_ok 5 (atom_fields V wq i a).
Proof.
  intros G. split; [|cbn; lia]. unfold atom_fields. repeat apply Forall_cons; try apply Forall_nil; cbn [fld_tok];
  try apply print_nat_tok; try apply print_fixed_tok; try (apply tokb_tok; reflexivity).
  - (* label *) now apply label_of_tok.
  - (* type *) rewrite type_of_eq by exact G. now destruct G as [_ [H _]].
  - (* charge *) destruct wq; [apply print_fixed_tok|now apply tokb_tok].
Qed.
Lemma bond_fields_ok na i b : good_bond na b -> rec_ok 4 (bond_fields V wq i b).
Proof.
  intros [_ [Ht _]]. split; [|cbn; lia]. unfold bond_fields. repeat apply Forall_cons; try apply Forall_nil; cbn [fld_tok];
  try apply print_nat_tok. exact Ht.
Qed.

Lemma atom_recs_ok l i : Forall good_atom l -> Forall (rec_ok 5) (imap (atom_fields V wq) i l).
Proof. rewrite Forall_forall. intros G. apply Forall_imap. intros j a Ha. now apply atom_fields_ok, G. Qed.
Lemma bond_recs_ok na l i : Forall (good_bond na) l -> Forall (rec_ok 4) (imap (bond_fields V wq) i l).
Proof. rewrite Forall_forall. intros G. apply Forall_imap. intros j b Hb. now apply (bond_fields_ok na), G. Qed.

Lemma wf_name_strip n : wf_name n = true -> strip pyws n = n /\ nl_free n.
Proof. unfold wf_name. now intros [H1 H2%str_eqb_eq]%andb_prop. Qed.

Lemma counts_fields_ok a b : fields_ok [FL 0 (print_nat a); FL 0 (print_nat b); FL 0 (u8 "0"); FL 0 (u8 "0"); FL 0 (u8 "0")].
Proof. repeat apply Forall_cons; try apply Forall_nil; cbn [fld_tok]; try apply print_nat_tok; now apply tokb_tok. Qed.

Lemma counts_parse a b :
  all_some (map parse_nat (split pyws (strip pyws (counts_line a b)))) = Some [a; b; 0; 0; 0].
Proof.
  unfold counts_line. rewrite split_join_sp by apply counts_fields_ok. cbn [map fld_tok]. now rewrite !parse_print_nat.
Qed.

(* the records as the reader collects them: latest first *)
Definition atom_toks (m : mol V) : list (list str) := rev (map (map fld_tok) (imap (atom_fields V wq) 0 (m_atoms m))).
Definition bond_toks (m : mol V) : list (list str) := rev (map (map fld_tok) (imap (bond_fields V wq) 0 (m_bonds m))).
Definition hdr_of (m : mol V) : rawhdr :=
  mk_hdr (m_name m) (lenN (m_atoms m)) (Some (lenN (m_bonds m))) (u8 "USER_CHARGES").
Definition block_of (m : mol V) : rawblock := (hdr_of m, atom_toks m, bond_toks m).

Lemma run_mol m sk dn hd at_ bd na nb rest : good_mol m -> hd_complete hd at_ bd ->
  run (mk_st Top sk dn hd at_ bd na nb) (mol_lines V wq m ++ rest)
  = run (mk_st Top false (push hd at_ bd dn) (Some (hdr_of m)) (atom_toks m) (bond_toks m)
               (Some (lenN (m_atoms m))) (Some (lenN (m_bonds m)))) rest.
Proof.
  intros [Hn [Ga Gb]] Hc. destruct (wf_name_strip _ Hn) as [Hs _].
  unfold hdr_of, atom_toks, bond_toks, mol_lines, header_lines. rewrite atom_lines_imap, bond_lines_imap.
  (* the counts in the header are the numbers of record lines that follow *)
  rewrite <- (lenN_imap (atom_fields V wq) 0 (m_atoms m)), <- (lenN_imap (bond_fields V wq) 0 (m_bonds m)).
  rewrite <- app_assoc. cbn [app]. rewrite run_produced, run_molecule, run_record, Hs by exact Hc.
  erewrite run_status_blank by apply counts_parse.
  rewrite run_atom_tag, <- app_assoc, run_atom_lines, app_nil_r by now apply atom_recs_ok.
  cbn [app]. rewrite run_bond_tag, run_bond_lines, app_nil_r by now apply (bond_recs_ok _ _ _ Gb). reflexivity.
Qed.

Lemma block_complete m : complete (hdr_of m) (atom_toks m) (bond_toks m) = true.
Proof.
  unfold complete, hdr_of, atom_toks, bond_toks, lenN. cbn [h_na h_nb].
  rewrite !rev_length, !map_length, !imap_length. now rewrite !N.eqb_refl.
Qed.

Lemma run_mols ms : forall sk dn hd at_ bd na nb, ms <> [] -> Forall good_mol ms -> hd_complete hd at_ bd ->
  match run (mk_st Top sk dn hd at_ bd na nb) (concat (map (mol_lines V wq) ms)) with
  | Some s => finish s | None => None end
  = Some (rev (push hd at_ bd dn) ++ map block_of ms).
Proof.
  induction ms as [|m ms IH]; intros sk dn hd at_ bd na nb Hne G Hc; [easy|].
  inversion G as [|x y Gm Gms]; subst. cbn [map concat]. rewrite run_mol by assumption.
  destruct ms as [|m' ms'].
  - cbn [map concat run]. unfold finish. cbn [s_mode s_hdr s_atoms s_bonds s_done]. now rewrite block_complete.
  - rewrite IH; [|discriminate|exact Gms|apply block_complete]. cbn [push rev map]. now rewrite <- app_assoc.
Qed.

Lemma mol_lines_nl_free m : good_mol m -> Forall nl_free (mol_lines V wq m).
Proof.
  intros [Hn [Ga Gb]]. destruct (wf_name_strip _ Hn) as [_ Hnl]. unfold mol_lines, header_lines.
  rewrite atom_lines_imap, bond_lines_imap. apply Forall_app. split.
  - repeat constructor; try reflexivity; [exact Hnl|]. apply fields_nl_free, counts_fields_ok.
  - constructor; [reflexivity|]. apply Forall_app. split; [|constructor; [reflexivity|]].
    + eapply lines_nl_free, atom_recs_ok, Ga.
    + eapply lines_nl_free, bond_recs_ok, Gb.
Qed.

Theorem read_blocks_write_all ms : ms <> [] -> Forall good_mol ms ->
  read_blocks (write_all V wq ms) = Some (map block_of ms).
Proof.
  intros Hne G. unfold read_blocks, write_all. rewrite lines_of_text.
  - unfold init_st. rewrite run_mols; [reflexivity|exact Hne|exact G|exact I].
  - apply Forall_concat, Forall_map. eapply Forall_impl, G. apply mol_lines_nl_free.
Qed.

Lemma conv_atom_toks i a : good_atom a ->
  conv_atom V wq true (map fld_tok (atom_fields V wq i a)) = Some (norm_atom V wq a).
Proof.
  intros G. pose proof (type_of_eq a G) as Et. destruct G as [_ [_ [_ [t' Hs]]]].
  unfold atom_fields. cbn [map fld_tok]. unfold conv_atom, norm_atom. rewrite !parse_print_fixed, Et, Hs.
  destruct wq; cbn [andb]; [now rewrite parse_print_fixed|reflexivity].
Qed.

Lemma conv_bond_toks na i b : good_bond na b ->
  conv_bond V na (map fld_tok (bond_fields V wq i b)) = Some (norm_bond V b).
Proof.
  intros [[H1%N.ltb_lt H2%N.ltb_lt]%andb_prop [_ [t' Hs]]]. unfold bond_fields. cbn [map fld_tok].
  unfold conv_bond, norm_bond. rewrite !parse_print_nat, Hs, !N.add_sub.
  assert (E : (1 <=? b_a1 b + 1) && (b_a1 b + 1 <=? na) && (1 <=? b_a2 b + 1) && (b_a2 b + 1 <=? na) = true).
  { repeat (apply andb_true_intro; split); apply N.leb_le; lia. }
  now rewrite E.
Qed.

Lemma conv_block_of m : good_mol m -> conv_block V wq (block_of m) = Some (norm V wq m).
Proof.
  intros [_ [Ga Gb]]. rewrite Forall_forall in Ga, Gb. unfold conv_block, block_of, atom_toks, bond_toks.
  rewrite !rev_involutive, !map_map.
  change (negb (str_eqb (h_chrg (hdr_of m)) (u8 "NO_CHARGES"))) with true. cbn [h_na hdr_of].
  rewrite (all_some_imap _ _ (norm_atom V wq)) by (intros; now apply conv_atom_toks, Ga).
  now rewrite (all_some_imap _ _ (norm_bond V)) by (intros; now apply conv_bond_toks, Gb).
Qed.

(* loads_all_mol2 (concatenation of dumps_mol2) *)
Theorem read_all_write_all ms : ms <> [] -> Forall good_mol ms ->
  read_all V wq (write_all V wq ms) = Some (map (norm V wq) ms).
Proof.
  intros Hne G. unfold read_all. rewrite read_blocks_write_all, map_map by assumption.
  apply all_some_map. eapply Forall_impl, G. apply conv_block_of.
Qed.

(* loads_mol2 (dumps_mol2 m) *)
Theorem read_write m : good_mol m -> read V wq (write V wq m) = Some (norm V wq m).
Proof.
  intros G. unfold read. replace (write V wq m) with (write_all V wq [m]).
  - now rewrite read_all_write_all by (discriminate || now constructor).
  - unfold write_all. cbn [map concat]. now rewrite app_nil_r.
Qed.
End Roundtrip.

Section FixedPoint.
Variable V : vocab.
Variable wq : bool.

Definition fix_atom (a : atom V) : Prop :=
  forall t', V_set V (V_get V (a_ty a)) = Some t' -> V_get V t' = V_get V (a_ty a).
Definition fix_bond (b : bond V) : Prop :=
  forall t', V_bset V (V_bget V (b_ty b)) = Some t' -> V_bget V t' = V_bget V (b_ty b).
(* the recorded exception, hypothesis of C07_text_fixed_point: a charge that is written "-0.000" (the reader's
   canon_q forgets the sign of a zero) *)
Definition neg_zero (q : fx) : bool := fneg q && (fmag q =? 0).

Lemma canon_q_id q : neg_zero q = false -> canon_q q = q.
Proof.
  destruct q as [n m]. unfold neg_zero, canon_q. cbn [fneg fmag]. destruct (N.eqb_spec m 0) as [->|]; [|reflexivity].
  now destruct n.
Qed.

Lemma atom_fields_norm i a : good_atom V a -> fix_atom a -> (wq = true -> neg_zero (a_q a) = false) ->
  atom_fields V wq i (norm_atom V wq a) = atom_fields V wq i a.
Proof.
  intros G F Hq. pose proof (label_of_tok V a G) as [Hl _]. pose proof (type_of_eq V a G) as Et.
  destruct G as [_ [[Hg _] [_ [t' Hs]]]]. specialize (F t' Hs).
  unfold atom_fields, norm_atom. rewrite Et, Hs. unfold label_of at 1, type_of at 1. cbn [a_ty a_label a_x a_y a_z a_q].
  rewrite F, !or_sym_nonempty, ?Et by assumption. destruct wq; [|reflexivity]. now rewrite canon_q_id by now apply Hq.
Qed.

Lemma bond_fields_norm na i b : good_bond V na b -> fix_bond b -> bond_fields V wq i (norm_bond V b) = bond_fields V wq i b.
Proof.
  intros [_ [_ [t' Hs]]] F. specialize (F t' Hs). unfold bond_fields, norm_bond. rewrite Hs. cbn [b_a1 b_a2 b_ty].
  now rewrite F.
Qed.

Theorem text_fixed_point m : good_mol V m -> Forall fix_atom (m_atoms m) -> Forall fix_bond (m_bonds m) ->
  (wq = true -> forallb (fun a => negb (neg_zero (a_q a))) (m_atoms m) = true) ->
  write V wq (norm V wq m) = write V wq m.
Proof.
  intros [_ [Ga Gb]] Fa Fb Hq. rewrite Forall_forall in Ga, Gb, Fa, Fb.
  unfold write, mol_lines, norm, lenN. cbn [m_name m_atoms m_bonds]. rewrite !atom_lines_imap, !bond_lines_imap, !map_length.
  rewrite !imap_map; [reflexivity|intros; eapply bond_fields_norm; eauto|].
  intros i a Ha. apply atom_fields_norm; auto. intros Hw. specialize (Hq Hw). rewrite forallb_forall in Hq.
  now apply negb_true_iff, Hq.
Qed.
End FixedPoint.

Section Ensemble.
Variable V : vocab.

(* an atom of the ensemble's topology with no coordinates: the term norm_ens (Model) builds inline *)
Definition al_atom (p : V_atom V * str) : atom V := mk_atom (fst p) (snd p) fx0 fx0 fx0 fx0.
Definition good_ens (e : ens V) : Prop :=
  wf_name (e_name e) = true /\ Forall (fun p => good_atom V (al_atom p)) (e_atoms e)
  /\ Forall (good_bond V (lenN (e_atoms e))) (e_bonds e)
  /\ e_confs e <> [] /\ Forall (fun c => length c = length (e_atoms e)) (e_confs e).

(* conf_atom on a pair, as conformer_mol maps it over `combine` *)
Definition cf (p : (V_atom V * str) * cpos) : atom V := conf_atom V (fst p) (snd p).

(* being a good atom does not depend on the coordinates and the charge *)
Lemma conformer_atoms_good A : forall c, Forall (fun p => good_atom V (al_atom p)) A ->
  Forall (good_atom V) (map cf (combine A c)).
Proof.
  induction A as [|al A IH]; intros c G; [constructor|]. destruct c as [|x c]; [constructor|].
  inversion G as [|? ? Gal GA]; subst. constructor; [exact Gal|now apply IH].
Qed.

Lemma conformer_len e c : length c = length (e_atoms e) -> length (m_atoms (conformer_mol V e c)) = length (e_atoms e).
Proof. intros H. unfold conformer_mol. cbn [m_atoms]. rewrite map_length, combine_length. lia. Qed.

Lemma good_conformer e c : good_ens e -> In c (e_confs e) -> good_mol V (conformer_mol V e c).
Proof.
  intros [Hn [Ga [Gb [_ Hl]]]] Hc. rewrite Forall_forall in Hl. split; [exact Hn|]. split; [now apply conformer_atoms_good|].
  unfold lenN. rewrite (conformer_len e c (Hl c Hc)). exact Gb.
Qed.

(* what reading does to one position of a conformer, in C07_ensemble_count_order / C07_history_count_order: the
   function norm_ens (Model) maps over every conformer, by conversion *)
Definition canon_cpos (c : cpos) : cpos := mk_cpos (c_x c) (c_y c) (c_z c) (canon_q (c_q c)).

Lemma conf_topology A : forall c, length c = length A ->
  map (fun a => (a_ty a, a_label a)) (map (norm_atom V true) (map cf (combine A c)))
  = map (fun p => (a_ty (norm_atom V true (al_atom p)), label_of V (al_atom p))) A.
Proof.
  induction A as [|al A IH]; intros [|x c] H; try easy. cbn [combine map]. now rewrite IH by (simpl in H; lia).
Qed.

Lemma conf_positions A : forall c, length c = length A ->
  map (@cpos_of V) (map (norm_atom V true) (map cf (combine A c))) = map canon_cpos c.
Proof.
  induction A as [|al A IH]; intros [|x c] H; try easy. cbn [combine map]. rewrite IH by (simpl in H; lia). now destruct x.
Qed.

Theorem read_ens_write_ens e : good_ens e -> read_ens V (write_ens V e) = Some (norm_ens V e).
Proof.
  intros G. pose proof G as [_ [_ [_ [Hne Hl]]]]. rewrite Forall_forall in Hl. unfold read_ens, write_ens.
  rewrite read_all_write_all; [|now destruct (e_confs e)|].
  2:{ apply Forall_forall. intros m [c [<- Hc]]%in_map_iff. now apply good_conformer. }
  unfold norm_ens. destruct (e_confs e) as [|c0 cs]; [easy|]. unfold ens_of_mols. cbn [map].
  (* every conformer has the atoms of the ensemble, so the constructor accepts them *)
  assert (Hlen : forall c, In c (c0 :: cs) -> length (m_atoms (norm V true (conformer_mol V e c))) = length (e_atoms e)).
  { intros c Hc. unfold norm. cbn [m_atoms]. rewrite map_length. now apply conformer_len, Hl. }
  rewrite (proj2 (forallb_forall _ (map (norm V true) (map (conformer_mol V e) (c0 :: cs))))).
  2:{ intros m [m1 [<- [c [<- Hc]]%in_map_iff]]%in_map_iff. apply Nat.eqb_eq. now rewrite !Hlen by (assumption || now left). }
  unfold norm, conformer_mol. cbn [m_atoms m_name m_bonds map]. f_equal. f_equal; [apply conf_topology, Hl; now left|]. f_equal.
  - apply conf_positions, Hl. now left.
  - rewrite !map_map. apply map_ext_in. intros c Hc. apply conf_positions, Hl. now right.
Qed.

End Ensemble.

Section View.
Variable V : vocab.

(* pos_in is list.index: the position it returns holds the atom asked for, and lies inside the selection *)
Lemma pos_in_spec sel : forall i k0 k, pos_in i sel k0 = Some k ->
  k0 <= k /\ k < k0 + lenN sel /\ nth_error sel (N.to_nat (k - k0)) = Some i.
Proof.
  induction sel as [|j r IH]; intros i k0 k H; simpl in H; [discriminate|].
  rewrite lenN_cons. destruct (N.eqb_spec i j) as [->|].
  - injection H as <-. rewrite N.sub_diag. split; [lia|]. split; [lia|reflexivity].
  - destruct (IH _ _ _ H) as [H1 [H2 H3]]. split; [lia|]. split; [lia|].
    now replace (N.to_nat (k - k0)) with (S (N.to_nat (k - N.succ k0))) by lia.
Qed.

Lemma pos_in_nthN sel i k : pos_in i sel 0 = Some k -> k < lenN sel /\ nthN sel k = Some i.
Proof.
  intros H. destruct (pos_in_spec sel i 0 k H) as [_ [H2 H3]]. split; [lia|]. unfold nthN. now rewrite N.sub_0_r in H3.
Qed.

Lemma pos_in_complete sel : forall i k0, In i sel -> exists k, pos_in i sel k0 = Some k.
Proof.
  induction sel as [|j r IH]; intros i k0 Hin; [destruct Hin|]. simpl. destruct (N.eqb_spec i j) as [->|]; [eauto|].
  destruct Hin as [->|Hin]; [easy|now apply IH].
Qed.

(* ... the FIRST such position *)
Lemma pos_in_first sel : forall i k0 k, pos_in i sel k0 = Some k ->
  forall n, (n < N.to_nat (k - k0))%nat -> nth_error sel n <> Some i.
Proof.
  induction sel as [|j r IH]; intros i k0 k H n Hn; simpl in H; [discriminate|].
  destruct (N.eqb_spec i j) as [->|E]; [injection H as <-; lia|]. destruct n as [|n]; simpl; [congruence|].
  apply (IH _ _ _ H). destruct (pos_in_spec r i (N.succ k0) k H) as [H1 _]. lia.
Qed.

Lemma pick_spec {A} (l : list A) sel : wf_sel (lenN l) sel = true ->
  length (pick l sel) = length sel /\ forall k i, nth_error sel k = Some i -> nth_error (pick l sel) k = nthN l i.
Proof.
  unfold wf_sel. induction sel as [|j r IH]; intros H; [split; [reflexivity|now intros [|k]]|].
  simpl in H. apply andb_prop in H as [Hj%N.ltb_lt Hr].
  destruct (nthN_lt l j Hj) as [a Ha]. destruct (IH Hr) as [IH1 IH2]. simpl. rewrite Ha. split; [simpl; now rewrite IH1|].
  intros [|k] i Hk; simpl in Hk |- *; [injection Hk as <-; now rewrite Ha|now apply IH2].
Qed.

Lemma pick_Forall {A} (P : A -> Prop) (l : list A) sel : Forall P l -> Forall P (pick l sel).
Proof.
  rewrite Forall_forall. intros H. induction sel as [|j r IH]; [constructor|]. simpl. destruct (nthN l j) eqn:E; [|exact IH].
  constructor; [|exact IH]. apply nthN_In in E. now apply H.
Qed.

Lemma view_bonds_In sel (bs : list (bond V)) b' : In b' (view_bonds V sel bs) <-> exists b, In b bs /\ view_bond V sel b = Some b'.
Proof.
  induction bs as [|b r IH]; simpl; [split; [tauto|intros [b [[] _]]]|].
  destruct (view_bond V sel b) as [b1|] eqn:E; simpl; rewrite IH; split.
  - intros [<-|[b0 [Hin Hv]]]; eauto.
  - intros [b0 [[<-|Hin] Hv]]; [left; congruence|eauto].
  - intros [b0 [Hin Hv]]; eauto.
  - intros [b0 [[<-|Hin] Hv]]; [congruence|eauto].
Qed.

(* the ends of a bond of the view are positions of the view, holding the very atoms the parent's bond joins *)
Lemma view_bond_spec sel (b b' : bond V) : view_bond V sel b = Some b' ->
  b_a1 b' < lenN sel /\ b_a2 b' < lenN sel /\ nthN sel (b_a1 b') = Some (b_a1 b) /\ nthN sel (b_a2 b') = Some (b_a2 b)
  /\ b_ty b' = b_ty b.
Proof.
  unfold view_bond. destruct (pos_in (b_a1 b) sel 0) as [i|] eqn:E1; [|discriminate].
  destruct (pos_in (b_a2 b) sel 0) as [j|] eqn:E2; [|discriminate]. intros [= <-]. cbn [b_a1 b_a2 b_ty].
  destruct (pos_in_nthN _ _ _ E1). destruct (pos_in_nthN _ _ _ E2). auto.
Qed.

Lemma view_bond_complete sel (b : bond V) : In (b_a1 b) sel -> In (b_a2 b) sel -> exists b', view_bond V sel b = Some b'.
Proof.
  intros H1 H2. unfold view_bond. destruct (pos_in_complete sel _ 0 H1) as [i ->]. destruct (pos_in_complete sel _ 0 H2) as [j ->]. eauto.
Qed.

Lemma good_view nm (m : mol V) sel : good_mol V m -> wf_name nm = true -> wf_sel (lenN (m_atoms m)) sel = true ->
  good_mol V (sub_view V nm m sel).
Proof.
  intros [_ [Ga Gb]] Hn Hs. split; [exact Hn|]. split; [now apply pick_Forall|]. cbn [sub_view m_atoms m_bonds].
  destruct (pick_spec (m_atoms m) sel Hs) as [Hlen _]. rewrite Forall_forall in Gb.
  apply Forall_forall. intros b' [b [Hin Hv]]%view_bonds_In. destruct (Gb b Hin) as [_ [Gt Gs]].
  destruct (view_bond_spec sel b b' Hv) as [L1%N.ltb_lt [L2%N.ltb_lt [_ [_ Ety]]]].
  unfold good_bond, wf_bond, lenN in *. now rewrite Ety, Hlen, L1, L2.
Qed.

End View.

(* hypothesis of C07_roundtrip, C07_preserved, C07_text_fixed_point, C07_view_*: wf_mol (name one stripped line,
   labels blank-free or empty, bond ends atoms of the molecule) and every atom / bond type a member of its enumeration *)
Definition wf_real_mol (m : mol RV) : bool :=
  wf_mol RV m && forallb (fun a : atom RV => in_dom (a_ty a)) (m_atoms m)
  && forallb (fun b : bond RV => b_ty b <? n_btype) (m_bonds m).
(* the same for a ConformerEnsemble (C07_ensemble, C07_history_*, C07_conformer_roundtrip): wf_ens adds at least one
   conformer and conformers of the ensemble's size *)
Definition wf_real_ens (e : ens RV) : bool :=
  wf_ens RV e && forallb (fun p : triple * str => in_dom (fst p)) (e_atoms e)
  && forallb (fun b : bond RV => b_ty b <? n_btype) (e_bonds e).

(* cited by case CWs of Model check_case: pyws is false from 12289 on *)
Lemma pyws_bound c : pyws c = true -> c <= 12288.
Proof. intros H%pyws_true. lia. Qed.

Lemma fx_val_canon q : fx_val (canon_q q) = fx_val q.
Proof.
  destruct q as [n m]. unfold canon_q, fx_val. cbn [fneg fmag]. destruct (N.eqb_spec m 0) as [->|]; [|reflexivity].
  now destruct n.
Qed.

(* types_accb and bonds_okb are closed: with them among the hypotheses, tactics that look for a contradiction by
   evaluating (easy, now, discriminate without argument) would decide the tables again; hence `discriminate Hne` with
   its argument and `exact` where `now` would do elsewhere *)
Section Real.
Hypothesis Hacc : types_accb = true.
Hypothesis Hbond : bonds_okb = true.

Lemma real_good_atom (a : atom RV) : wf_label (a_label a) = true -> in_dom (a_ty a) = true -> good_atom RV a.
Proof.
  intros Hl Hd. destruct (types_acc_sound Hacc _ Hd) as [a' [Hs [_ [_ Htok]]]].
  split; [exact Hl|]. split; [exact Htok|]. split; [exact (sym_tok _ (types_accb_wf Hacc) Hd)|]. exists a'. exact Hs.
Qed.

Lemma real_good_bond na (b : bond RV) : wf_bond RV na b = true -> b_ty b < n_btype -> good_bond RV na b.
Proof.
  intros Hw Hb. destruct (bonds_ok_sound Hbond _ Hb) as [b' [Hs [_ [_ Htok]]]].
  split; [exact Hw|]. split; [exact Htok|]. exists b'. exact Hs.
Qed.

Lemma real_good_mol m : wf_real_mol m = true -> good_mol RV m.
Proof.
  unfold wf_real_mol, wf_mol. intros [[[[Hn Hl]%andb_prop Hwb]%andb_prop Hd]%andb_prop Hb]%andb_prop.
  rewrite forallb_forall in Hl, Hwb, Hd, Hb.
  split; [exact Hn|]. split; apply Forall_forall.
  - intros a Ha. exact (real_good_atom a (Hl a Ha) (Hd a Ha)).
  - intros b Hin. exact (real_good_bond _ b (Hwb b Hin) (proj1 (N.ltb_lt _ _) (Hb b Hin))).
Qed.

Lemma real_good_ens e : wf_real_ens e = true -> good_ens RV e.
Proof.
  unfold wf_real_ens, wf_ens.
  intros [[[[[[Hn Hl]%andb_prop Hwb]%andb_prop Hne]%andb_prop Hlen]%andb_prop Hd]%andb_prop Hb]%andb_prop.
  rewrite forallb_forall in Hl, Hwb, Hlen, Hd, Hb.
  split; [exact Hn|]. split; [|split; [|split]]; try apply Forall_forall.
  - intros p Hp. exact (real_good_atom (al_atom RV p) (Hl p Hp) (Hd p Hp)).
  - intros b Hin. exact (real_good_bond _ b (Hwb b Hin) (proj1 (N.ltb_lt _ _) (Hb b Hin))).
  - destruct (e_confs e); [discriminate Hne|discriminate].
  - intros c Hc. exact (proj1 (Nat.eqb_eq _ _) (Hlen c Hc)).
Qed.

End Real.
