(* C15: bonds_with_atom / connected_atoms / n_bonds_with_atom / bonded_valence of Model/Graph.v as filters
   and sums over the bond list; sums of bond counts over atoms; simple graphs, with a decision procedure. *)
From Coq Require Import Arith List Bool Lia QArith.
From Molli Require Import Common.ListFacts Model.Graph Proofs.Graph.
Import ListNotations.
Open Scope nat_scope.

Definition bond_at (g : graph) (i : nat) : nat * nat := nth i g (0, 0).
Definition incident (g : graph) (a i : nat) : bool := bond_has (bond_at g i) a.

Lemma bwa_from_S g a : forall k, bwa_from (S k) g a = map S (bwa_from k g a).
Proof.
  induction g as [|b g IH]; intros k; cbn [bwa_from map]; [reflexivity|]. rewrite IH. now destruct (bond_has b a).
Qed.

Lemma filter_map {A B} (p : B -> bool) (f : A -> B) l : filter p (map f l) = map f (filter (fun x => p (f x)) l).
Proof. induction l as [|x l IH]; cbn [map filter]; [reflexivity|]. rewrite IH. now destruct (p (f x)). Qed.

(* bonds_with_atom = the positions of the bond list whose bond contains the atom, in list order *)
Theorem bonds_with_atom_filter g a :
  bonds_with_atom g a = filter (incident g a) (seq 0 (length g)).
Proof.
  unfold bonds_with_atom. induction g as [|b g IH]; [reflexivity|].
  cbn [bwa_from length seq filter]. rewrite bwa_from_S, IH, <- seq_shift, filter_map. reflexivity.
Qed.

Theorem bonds_with_atom_spec g a i :
  In i (bonds_with_atom g a) <-> exists b, nth_error g i = Some b /\ (fst b = a \/ snd b = a).
Proof.
  rewrite bonds_with_atom_filter, filter_In, in_seq. unfold incident, bond_at. split.
  - intros [Hi Hb]. exists (nth i g (0, 0)). split; [apply nth_error_nth'; lia|].
    now apply bond_has_true.
  - intros [b [Hn Hb]]. assert (Hi : i < length g) by (apply nth_error_Some; congruence).
    split; [lia|]. rewrite (nth_error_nth _ _ _ Hn). now apply bond_has_true.
Qed.

(* connected_atoms = the other end of each of those bonds, in the same order *)
Theorem connected_atoms_bonds g a :
  connected_atoms g a = map (fun i => bond_other (bond_at g i) a) (bonds_with_atom g a).
Proof.
  unfold bonds_with_atom, connected_atoms. induction g as [|b g IH]; [reflexivity|].
  cbn [filter bwa_from]. rewrite bwa_from_S. destruct (bond_has b a); cbn [map]; rewrite map_map, IH; reflexivity.
Qed.

Theorem connected_atoms_sym g a b : In b (connected_atoms g a) <-> In a (connected_atoms g b).
Proof. rewrite !connected_atoms_adj. split; apply adj_sym. Qed.

Theorem n_bonds_with_atom_count g a :
  n_bonds_with_atom g a = length (bonds_with_atom g a) /\
  n_bonds_with_atom g a = length (filter (fun b => bond_has b a) g).
Proof.
  unfold n_bonds_with_atom. split.
  - rewrite connected_atoms_bonds. apply map_length.
  - unfold connected_atoms. apply map_length.
Qed.

Lemma fold_left_Qplus_compat l : forall z z', (z == z')%Q -> (fold_left Qplus l z == fold_left Qplus l z')%Q.
Proof.
  induction l as [|x l IH]; intros z z' H; cbn [fold_left]; [exact H|]. apply IH. now rewrite H.
Qed.

Lemma fold_filter_sum (p : nat -> bool) (ord : nat -> Q) l : forall z,
  (fold_left (fun acc i => acc + ord i) (filter p l) z ==
   fold_left Qplus (map (fun i => if p i then ord i else 0) l) z)%Q.
Proof.
  induction l as [|i l IH]; intros z; [reflexivity|].
  cbn [filter map fold_left]. destruct (p i); cbn [fold_left]; rewrite IH; [reflexivity|].
  apply fold_left_Qplus_compat. now rewrite Qplus_0_r.
Qed.

(* bonded_valence = the sum over ALL bonds of (order if the bond contains the atom, else 0), added in
   bond-list order starting from 0 *)
Theorem bonded_valence_sum g ord a :
  (bonded_valence g ord a ==
   fold_left Qplus (map (fun i => if incident g a i then ord i else 0) (seq 0 (length g))) 0)%Q.
Proof. unfold bonded_valence. rewrite bonds_with_atom_filter. apply fold_filter_sum. Qed.

Lemma list_sum_cons x l : list_sum (x :: l) = x + list_sum l.
Proof. reflexivity. Qed.

Lemma list_sum_zero (f : nat -> nat) l : (forall a, In a l -> f a = 0) -> list_sum (map f l) = 0.
Proof.
  induction l as [|a l IH]; intros H; [reflexivity|]. cbn [map]. rewrite list_sum_cons, H by now left.
  rewrite IH; [reflexivity|]. intros b Hb. apply H. now right.
Qed.

Lemma list_sum_indicator x n : x < n -> list_sum (map (fun a => if x =? a then 1 else 0) (seq 0 n)) = 1.
Proof.
  induction n as [|n IH]; intros Hx; [lia|].
  rewrite seq_S, map_app, list_sum_app. cbn [map]. rewrite list_sum_cons. cbn [list_sum fold_right Nat.add].
  destruct (Nat.eq_dec x n) as [->|Hne].
  - rewrite Nat.eqb_refl. rewrite list_sum_zero; [lia|].
    intros a Ha. apply in_seq in Ha. destruct (n =? a) eqn:E; [apply Nat.eqb_eq in E; lia|reflexivity].
  - rewrite IH by lia. apply Nat.eqb_neq in Hne. rewrite Hne. lia.
Qed.

Lemma list_sum_map_add (f h : nat -> nat) l :
  list_sum (map (fun a => f a + h a) l) = list_sum (map f l) + list_sum (map h l).
Proof. induction l as [|a l IH]; [reflexivity|]. cbn [map]. rewrite !list_sum_cons. lia. Qed.

Definition count_joins (g : graph) (x y : nat) : nat := length (filter (fun b => joins b x y) g).
(* on atoms 0..n-1 and without self loops the bond counts add up to twice the number of bonds *)
Theorem handshake n g :
  (forall b, In b g -> fst b < n /\ snd b < n /\ fst b <> snd b) ->
  list_sum (map (n_bonds_with_atom g) (seq 0 n)) = 2 * length g.
Proof.
  induction g as [|[x y] g IH]; intros Hwf.
  - cbn [length]. apply list_sum_zero. reflexivity.
  - destruct (Hwf (x, y) (or_introl eq_refl)) as (Hx & Hy & Hxy). cbn [fst snd] in *.
    assert (E : forall a, n_bonds_with_atom ((x, y) :: g) a =
                          ((if x =? a then 1 else 0) + (if y =? a then 1 else 0)) + n_bonds_with_atom g a).
    { intros a. unfold n_bonds_with_atom, connected_atoms. cbn [filter]. unfold bond_has at 1. cbn [fst snd].
      destruct (x =? a) eqn:E1; destruct (y =? a) eqn:E2; cbn [orb map length]; try lia.
      apply Nat.eqb_eq in E1, E2. congruence. }
    rewrite (map_ext _ _ E), list_sum_map_add, list_sum_map_add, !list_sum_indicator by assumption.
    rewrite IH; [cbn [length]; lia|]. intros b Hb. apply Hwf. now right.
Qed.

(* no self loops, at most one bond between two atoms: the molecular graphs of the property *)
Definition simple (g : graph) : Prop :=
  (forall b, In b g -> fst b <> snd b) /\ (forall x y, count_joins g x y <= 1).

Lemma count_joins_cons b g x y : count_joins (b :: g) x y = (if joins b x y then 1 else 0) + count_joins g x y.
Proof. unfold count_joins. cbn [filter]. now destruct (joins b x y). Qed.

Lemma adj_count_joins g x y : adj g x y -> 1 <= count_joins g x y.
Proof.
  intros Ha. unfold count_joins.
  assert (H : exists b, In b (filter (fun b => joins b x y) g)).
  { destruct Ha as [H|H]; [exists (x, y)|exists (y, x)]; apply filter_In; (split; [exact H|]);
      apply joins_true; cbn [fst snd]; tauto. }
  destruct H as [b Hb]. destruct (filter _ g); [destruct Hb|cbn [length]; lia].
Qed.

(* `remove_bond g x y` deletes exactly the bonds that `count_joins g x y` counts *)
Lemma count_joins_remove_bond g x y : count_joins g x y + length (remove_bond g x y) = length g.
Proof. apply filter_partition_length. Qed.

Lemma simple_tail b g : simple (b :: g) -> simple g.
Proof.
  intros [Hl Hc]. split; [intros b' Hb'; apply Hl; now right|].
  intros x y. specialize (Hc x y). rewrite count_joins_cons in Hc. lia.
Qed.

Lemma joins_other b a : bond_has b a = true -> joins b a (bond_other b a) = true.
Proof.
  intros Hb. apply bond_has_true in Hb. apply joins_true. unfold bond_other.
  destruct (Nat.eqb_spec (fst b) a); [now left|right]. destruct Hb; [contradiction|now split].
Qed.

(* in a simple graph no atom is listed twice among the neighbours *)
Theorem connected_atoms_nodup g a : simple g -> NoDup (connected_atoms g a).
Proof.
  induction g as [|b g IH]; intros Hs; [constructor|].
  specialize (IH (simple_tail _ _ Hs)). unfold connected_atoms in *. cbn [filter].
  destruct (bond_has b a) eqn:Eb; [|exact IH]. cbn [map]. constructor; [|exact IH].
  intros Hin. fold (connected_atoms g a) in Hin. apply connected_atoms_adj, adj_count_joins in Hin.
  pose proof (proj2 Hs a (bond_other b a)) as Hc. rewrite count_joins_cons, (joins_other _ _ Eb) in Hc. lia.
Qed.

(* a decision procedure for `simple`, used to exhibit simple graphs *)
Fixpoint simple_b (g : graph) : bool :=
  match g with
  | [] => true
  | b :: r => negb (fst b =? snd b) && forallb (fun b' => negb (joins b' (fst b) (snd b))) r && simple_b r
  end.

Lemma count_joins_none g x y : (forall b, In b g -> joins b x y = false) -> count_joins g x y = 0.
Proof.
  induction g as [|b g IH]; intros H; [reflexivity|]. rewrite count_joins_cons, (H b) by now left.
  apply IH. intros b' Hb'. apply H. now right.
Qed.

Lemma simple_b_sound g : simple_b g = true -> simple g.
Proof.
  induction g as [|b g IH]; intros H.
  - split; [intros b []|intros x y; cbn; lia].
  - cbn [simple_b] in H. rewrite !andb_true_iff, negb_true_iff, Nat.eqb_neq, forallb_forall in H.
    destruct H as [[Hl Hf] Hs]. destruct (IH Hs) as [Hl' Hc']. split.
    + intros b' [<-|Hb']; [exact Hl|now apply Hl'].
    + intros x y. rewrite count_joins_cons. destruct (joins b x y) eqn:Ej; [|apply Hc'].
      (* the bond joins x and y, so no later bond does *)
      rewrite count_joins_none; [lia|]. intros b' Hb'. specialize (Hf b' Hb'). apply negb_true_iff in Hf.
      apply joins_true in Ej. destruct Ej as [[<- <-]|[<- <-]]; [exact Hf|now rewrite joins_sym].
Qed.
