(* C04 + C03: the lock/process system INCLUDING process deaths at arbitrary points.  The invariant JD and the one-step
   theorem: the library stays an insert-only map of complete records, what completed sessions wrote is never lost, a
   dying writer leaves each of its own records completely or not at all (plus a torn tail no reader ever sees and the
   next writer cuts).  drun_spec says what a whole schedule must return; Props/C04.v proves it by induction. *)
From Coq Require Import NArith PeanoNat List Bool.
Import ListNotations.
From Molli Require Import Model.UKV Proofs.UKVBase Proofs.UKV Proofs.UKVTorn
  Model.Session Proofs.Session Proofs.SessionTop Model.SessionDeath.

Lemma is_writer_true h : is_writer h = true <-> closed h = false /\ md h = MA.
Proof. unfold is_writer. destruct (closed h), (md h); simpl; intuition discriminate. Qed.
Lemma is_writer_false h : is_writer h = false <-> closed h = true \/ md h = MR.
Proof. unfold is_writer. destruct (closed h), (md h); simpl; intuition discriminate. Qed.

(* cm: the records of completed sessions (and of sessions that died, as far as they were complete): "committed".
   rs: the complete records now in the file (cm plus what the writing session in progress has appended). *)
Record JD (H : bytes) (cm rs : list kv) (s : dworld) : Prop := {
  jd_J : J (dl s);
  jd_inv : exists tl, InvT H rs tl (lw (dl s)) /\ (dbase s <> None -> tl = []);
  jd_cm : exists qs, rs = cm ++ qs;
  jd_base : match dbase s with
            | None => cm = rs /\ forall i, is_writer (hnth (snd (lw (dl s))) i) = false
            | Some b => b = end_from (len H) cm /\
                        exists i, is_writer (hnth (snd (lw (dl s))) i) = true /\
                                  forall j, j <> i -> snap H cm (hnth (snd (lw (dl s))) j) /\
                                                      closed (hnth (snd (lw (dl s))) j) = true
            end
}.

Lemma JD_idle H rs tl ls :
  J ls -> InvT H rs tl (lw ls) -> (forall i, is_writer (hnth (snd (lw ls)) i) = false) -> JD H rs rs (mkd ls None).
Proof.
  intros Js I Nw. constructor; simpl; [exact Js|exists tl; split; [exact I|contradiction]|apply ext_refl|auto].
Qed.

Lemma JD_same_world H cm rs ls s1 b : JD H cm rs (mkd ls b) -> J s1 -> lw s1 = lw ls -> JD H cm rs (mkd s1 b).
Proof. intros [_ A B C] J1 E. constructor; simpl in *; rewrite ?E; assumption. Qed.

(* the session state stays as it is and at most handle i changes: it keeps its writer flag and, while a writing
   session is in progress, a closed handle stays closed and a snapshot of the committed records *)
Lemma JD_keep H cm rs rs' tl' ls s1 b i :
  JD H cm rs (mkd ls b) -> J s1 -> InvT H rs' tl' (lw s1) ->
  match b with None => rs' = rs | Some _ => tl' = [] /\ exists qs, rs' = rs ++ qs end ->
  (forall j, j <> i -> hnth (snd (lw s1)) j = hnth (snd (lw ls)) j) ->
  is_writer (hnth (snd (lw s1)) i) = is_writer (hnth (snd (lw ls)) i) ->
  (b <> None -> closed (hnth (snd (lw ls)) i) = true ->
   closed (hnth (snd (lw s1)) i) = true /\ (snap H cm (hnth (snd (lw ls)) i) -> snap H cm (hnth (snd (lw s1)) i))) ->
  JD H cm rs' (mkd s1 b).
Proof.
  intros [_ _ [qs0 Hcm] Hb] J1 I' Hrs Hoth Hw Hcl. simpl in *.
  assert (Hw' : forall j, is_writer (hnth (snd (lw s1)) j) = is_writer (hnth (snd (lw ls)) j)).
  { intros j. destruct (Nat.eq_dec j i) as [->|Hj]; [exact Hw|rewrite Hoth by exact Hj; reflexivity]. }
  constructor; simpl; [exact J1|exists tl'; split; [exact I'|]|..]; destruct b as [b0|].
  - intros _. apply Hrs.
  - contradiction.
  - destruct Hrs as [_ [qs ->]]. exists (qs0 ++ qs). rewrite Hcm, app_assoc. reflexivity.
  - subst rs'. exists qs0. exact Hcm.
  - destruct Hb as [Hb0 [i0 [Hw0 Hoth0]]]. split; [exact Hb0|]. exists i0. split; [rewrite Hw'; exact Hw0|].
    intros j Hj. destruct (Hoth0 j Hj) as [Sj Cj]. destruct (Nat.eq_dec j i) as [->|Hji].
    + destruct (Hcl ltac:(discriminate) Cj) as [C S]. auto.
    + rewrite Hoth by exact Hji. auto.
  - subst rs'. destruct Hb as [Hb1 Hb2]. split; [exact Hb1|]. intros j. rewrite Hw'. apply Hb2.
Qed.

Lemma lopen_closed s p i s' r : lstep s (LOpen p i) = Some (s', r) -> closed (hnth (snd (lw s)) i) = true.
Proof.
  cbn [lstep]. destruct (plock (pnth (procs s) p)), (pcur (pnth (procs s) p)); try discriminate;
  (destruct (_ && _) eqn:E; [|discriminate]); intros _; apply andb_prop in E; apply E.
Qed.

Lemma item_op_closed_same (w w' : world) o r : step w o = (w', r) -> (op_handle o < length (snd w))%nat ->
  match o with Put _ _ _ | Get _ _ | Keys _ => True | _ => False end ->
  closed (hnth (snd w) (op_handle o)) = true -> w' = w.
Proof.
  intros E Hi Ho Hc. destruct w as [f hs]. destruct o as [i m|i|i k v|i k|i|n]; try contradiction; simpl in *; try congruence.
  unfold put in E. fold (hnth hs i) in E. rewrite Hc in E. simpl in E. unfold hnth in E. rewrite upd_nth_id in E by exact Hi. congruence.
Qed.

Lemma item_op_nowriter rs h o r rs' : step_spec rs h o r rs' -> is_writer h = false -> rs' = rs.
Proof.
  unfold is_writer. intros S Nw. destruct o; try contradiction; simpl in S; try apply S.
  destruct (closed h), (md h); try discriminate; apply S.
Qed.

(* One UKV operation allowed by the discipline, with dstep's bookkeeping of the session in progress: an open for append
   begins it, the close of the writer ends it, anything else keeps it. *)
Lemma JD_step H cm rs ls b s1 r1 op :
  JD H cm rs (mkd ls b) -> J s1 -> ok_op (lw ls) op -> step (lw ls) op = (lw s1, r1) ->
  match op with Open i _ => closed (hnth (snd (lw ls)) i) = true | _ => True end ->
  let i := op_handle op in
  let b' := match op with
            | Open _ _ => if is_writer (hnth (snd (lw s1)) i) then Some (len (fst (lw s1))) else b
            | Close _ => if is_writer (hnth (snd (lw ls)) i) then None else b
            | _ => b
            end in
  exists cm' rs', JD H cm' rs' (mkd s1 b') /\ (exists qs, cm' = cm ++ qs) /\
                  step_spec rs (hnth (snd (lw ls)) i) op r1 rs'.
Proof.
  intros D J1 Hok Hst Hcl i b'. pose proof D as [_ [tl [I Htl]] [qs0 Hcm] Hb]. simpl in Htl, Hb.
  assert (Hi : (i < length (snd (lw ls)))%nat) by (destruct op as [? []| | | | |]; try apply Hok; contradiction).
  assert (Hnc : forall n, op <> Crash n) by (intros n ->; exact Hok).
  destruct (step_refinesT H rs tl (lw ls) op I Hok) as [rs' [tl' [I' [S' [_ [Htl' [_ Hext]]]]]]].
  pose proof (step_at (lw ls) op Hi) as Hat. pose proof (fun j Hj => step_other (lw ls) op j Hi Hj Hnc) as Hoth.
  rewrite Hst in I', S', Hat, Hoth. cbn [fst snd] in I', S', Hat, Hoth. fold i in Hat, Hoth, S'.
  (* the session in progress, if any, goes on *)
  assert (Hkeep : is_writer (hnth (snd (lw s1)) i) = is_writer (hnth (snd (lw ls)) i) ->
                  (b <> None -> closed (hnth (snd (lw ls)) i) = true ->
                   closed (hnth (snd (lw s1)) i) = true /\ (snap H cm (hnth (snd (lw ls)) i) -> snap H cm (hnth (snd (lw s1)) i))) ->
                  (b = None -> rs' = rs) ->
                  exists cm' rs', JD H cm' rs' (mkd s1 b) /\ (exists qs, cm' = cm ++ qs) /\
                                  step_spec rs (hnth (snd (lw ls)) i) op r1 rs').
  { intros Hw Hc Hr. exists cm, rs'. split; [|split; [apply ext_refl|exact S']].
    apply (JD_keep H cm rs rs' tl' ls s1 b i D J1 I'); [|exact Hoth|exact Hw|exact Hc].
    destruct b; [split; [destruct Htl' as [->| ->]; auto; apply Htl; discriminate|exact Hext]|auto]. }
  destruct op as [j m|j|j k v|j k|j|n]; try contradiction; cbn in i, b', Hat; subst i b'.
  1: { (* Open *)
    assert (rs' = rs) as -> by apply S'. destruct (Hat Hcl) as [Hm Hc].
    destruct (is_writer (hnth (snd (lw s1)) j)) eqn:Ew.
    + (* a writing session begins: the tail (if any) is cut, the committed records are all the records *)
      apply is_writer_true in Ew. destruct Ew as [Ec Em].
      assert (tl' = []) as ->.
      { destruct tl' as [|x t]; [reflexivity|]. pose proof (it_nowriter _ _ _ _ I' ltac:(discriminate) j Ec). congruence. }
      exists rs, rs. split; [|split; [exists qs0; exact Hcm|exact S']].
      constructor; simpl; [exact J1|exists []; split; [exact I'|reflexivity]|apply ext_refl|].
      split; [rewrite (it_file _ _ _ _ I'), app_nil_r, len_app, end_from_len; reflexivity|].
      exists j. split; [apply is_writer_true; split; assumption|]. intros a Ha.
      split; [apply (it_snap _ _ _ _ I')|apply (it_excl _ _ _ _ I' j a (not_eq_sym Ha) Ec Em)].
    + (* a reading session begins; not while a writer is inside its session: the discipline refuses the open *)
      apply Hkeep; [unfold is_writer; rewrite Hcl; reflexivity| |reflexivity].
      intros Hb'. exfalso. destruct b as [b0|]; [|contradiction]. destruct Hb as [_ [i0 [Hw0 _]]].
      apply is_writer_true in Hw0. destruct Hw0 as [Hc0 Hm0]. assert (Hne : i0 <> j) by congruence.
      destruct m; simpl in Hok; pose proof (proj2 Hok Hcl i0 Hne) as X; [specialize (X Hc0)|]; congruence. }
  1: { (* Close *)
    assert (rs' = rs) as -> by apply S'. destruct (is_writer (hnth (snd (lw ls)) j)) eqn:Ew.
    + (* the writing session ends: everything it wrote is committed *)
      apply is_writer_true in Ew. destruct Ew as [Ec Em].
      exists rs, rs. split; [|split; [exists qs0; exact Hcm|exact S']].
      apply (JD_idle H rs tl' s1 J1 I'). intros a. destruct (Nat.eq_dec a j) as [->|Ha]; [rewrite Hat; reflexivity|].
      rewrite Hoth by exact Ha. apply is_writer_false. left. apply (it_excl _ _ _ _ I j a (not_eq_sym Ha) Ec Em).
    + apply Hkeep; [rewrite Hat; reflexivity|intros _ _; rewrite Hat; auto|reflexivity]. }
  (* Put / Get / Keys keep the flags; through a closed handle they change nothing; without a writer nothing is added *)
  all: apply Hkeep; [unfold is_writer; destruct Hat as [-> ->]; reflexivity
                    |intros _ Hc; rewrite (item_op_closed_same _ _ _ _ Hst Hi Logic.I Hc); auto
                    |intros ->; apply (item_op_nowriter _ _ _ _ _ S'), Hb].
Qed.

(* what the outcome of a step must be, in terms of the abstract record lists only *)
Definition dstep_spec (cm rs : list kv) (s : dworld) (l : dlabel) (r : res) (rs' : list kv) : Prop :=
  match l with
  | DL l0 => match label_op (dl s) l0 with
             | Some op => step_spec rs (hnth (snd (lw (dl s))) (op_handle op)) op r rs'
             | None => rs' = rs
             end
  | DDie _ _ => r = ROk /\ exists qs j, rs = cm ++ qs /\ rs' = cm ++ firstn j qs
  end.

Theorem dstep_sound H cm rs s l s' r :
  JD H cm rs s -> dstep s l = Some (s', r) ->
  exists cm' rs', JD H cm' rs' s' /\ (exists qs, cm' = cm ++ qs) /\ dstep_spec cm rs s l r rs'.
Proof.
  intros D E. pose proof D as [JJ [tl [I Htl]] [qs0 Hcm] Hb]. destruct s as [ls b]. cbn [dl dbase] in *.
  destruct l as [l0|p n]; cbn [dstep dl dbase] in E.
  - (* a step of a living process: lstep_sound turns the label into the UKV operation of JD_step *)
    destruct (lstep ls l0) as [[s1 r1]|] eqn:El; [|discriminate].
    destruct (lstep_sound ls l0 s1 r1 JJ El) as [J1 Hop].
    destruct l0 as [p wr|p i|p o|p|p]; simpl in E; cbn [label_op] in Hop; injection E as <- <-.
    + exists cm, rs. split; [apply (JD_same_world _ _ _ _ _ _ D J1 Hop)|split; [apply ext_refl|reflexivity]].
    + destruct Hop as [Hok Hst]. exact (JD_step H cm rs ls b s1 r1 _ D J1 Hok Hst (lopen_closed ls p i s1 r1 El)).
    + simpl in El. destruct (pcur (pnth (procs ls) p)); [|discriminate]. destruct Hop as [Hok Hst].
      destruct o; try discriminate; exact (JD_step H cm rs ls b s1 r1 _ D J1 Hok Hst Logic.I).
    + simpl in El. unfold dstep_spec, label_op. cbn [dl]. destruct (pcur (pnth (procs ls) p)); [|discriminate]. destruct Hop as [Hok Hst].
      exact (JD_step H cm rs ls b s1 r1 _ D J1 Hok Hst Logic.I).
    + exists cm, rs. split; [apply (JD_same_world _ _ _ _ _ _ D J1 Hop)|split; [apply ext_refl|reflexivity]].
  - (* the death of process p *)
    destruct ls as [[f hs] ps ow]. cbn [lw procs owner fst snd] in *.
    destruct (Nat.ltb p (length ps)) eqn:Lp; [|discriminate]. apply Nat.ltb_lt in Lp.
    assert (Hkeep : exists qs j, rs = cm ++ qs /\ rs = cm ++ firstn j qs).
    { exists qs0, (length qs0). rewrite firstn_all. auto. }
    destruct (pcur (pnth ps p)) as [i|] eqn:Lc.
    + destruct (Nat.ltb i (length hs)) eqn:Li; [|discriminate]. apply Nat.ltb_lt in Li.
      assert (Hoth : forall j, j <> i -> hnth (upd hs i h0) j = hnth hs j) by (intros j Hj; apply nth_upd_other; assumption).
      assert (Hnew : hnth (upd hs i h0) i = h0) by (apply nth_upd_same; exact Li).
      assert (JJ' : forall f', J (mkl (f', upd hs i h0) (upd ps p p0) ow)).
      { intros f'. apply J_detached with (f, hs); [exact JJ|exact Lp|right; reflexivity|]. intros j Hj. simpl in *.
        destruct (Nat.eq_dec j i) as [->|N]; [rewrite Hnew in Hj; discriminate|]. split; [apply Hoth; exact N|congruence]. }
      fold (hnth hs i) in E. destruct (is_writer (hnth hs i)) eqn:Ew.
      * (* inside its writing session *)
        destruct b as [b0|]; [|destruct Hb as [_ Hb2]; rewrite (Hb2 i) in Ew; discriminate].
        injection E as <- <-. destruct Hb as [Hb0 [i0 [Hw0 Hoth0]]].
        assert (i0 = i) as ->.
        { destruct (Nat.eq_dec i0 i) as [e|ne]; [exact e|]. destruct (Hoth0 i (not_eq_sym ne)) as [_ X].
          apply is_writer_true in Ew. destruct Ew. congruence. }
        rewrite (Htl ltac:(discriminate)) in I. apply invT_inv in I.
        assert (Efn : firstn (length cm) rs = cm).
        { rewrite Hcm, firstn_app, Nat.sub_diag, firstn_all. simpl. apply app_nil_r. }
        assert (Esk : skipn (length cm) rs = qs0).
        { rewrite Hcm, skipn_app, Nat.sub_diag, skipn_all. reflexivity. }
        destruct (writer_death H rs (f, hs) i (length cm) (N.to_nat (N.max b0 n)) I Li) as [rs' [tl' [I' [c [Hrs' [j Hc]]]]]].
        -- rewrite Hcm, app_length. apply Nat.le_add_r.
        -- intros j Hj. rewrite Efn. apply Hoth0. exact Hj.
        -- rewrite Efn, <- Hb0, N2Nat.inj_max. apply Nat.le_max_l.
        -- rewrite Efn in Hrs'. rewrite Esk in Hc.
           exists rs', rs'. split; [|split; [exists c; exact Hrs'|split; [reflexivity|exists qs0, j; split; congruence]]].
           apply (JD_idle H rs' tl' _ (JJ' _) I'). simpl. intros a. destruct (Nat.eq_dec a i) as [->|Ha].
           ++ rewrite Hnew. reflexivity.
           ++ rewrite Hoth by exact Ha. apply is_writer_false. left. apply (Hoth0 a Ha).
      * (* inside a reading session, or between sessions with a closed handle: the file is untouched *)
        assert (E' : s' = mkd (mkl (f, upd hs i h0) (upd ps p p0) ow) b /\ r = ROk) by (destruct b; injection E as <- <-; auto).
        destruct E' as [-> ->]. exists cm, rs. split; [|split; [apply ext_refl|split; [reflexivity|exact Hkeep]]].
        apply (JD_keep H cm rs rs tl _ _ b i D (JJ' f)); simpl.
        -- apply (invT_set H rs tl tl f f hs i h0 Li I (it_file _ _ _ _ I) (it_torn _ _ _ _ I) (snap_h0 H rs)); try discriminate.
           intros Hne. split; [discriminate|]. intros j _ Hcj. apply (it_nowriter _ _ _ _ I Hne j Hcj).
        -- destruct b; [split; [apply Htl; discriminate|apply ext_refl]|reflexivity].
        -- exact Hoth.
        -- rewrite Hnew, Ew. reflexivity.
        -- intros _ _. rewrite Hnew. split; [reflexivity|intros _; apply snap_h0].
    + (* not inside a session *)
      injection E as <- <-.
      exists cm, rs. split; [|split; [apply ext_refl|split; [reflexivity|exact Hkeep]]].
      apply (JD_same_world _ _ _ _ _ _ D); [|reflexivity]. apply J_detached with (f, hs); [exact JJ|exact Lp|right; reflexivity|].
      intros j _. split; [reflexivity|congruence].
Qed.

Fixpoint drun_spec (cm rs : list kv) (s : dworld) (ls : list dlabel) (outs : list outcome) : Prop :=
  match ls, outs with
  | [], [] => True
  | l :: ls', o :: outs' =>
      match dstep s l with
      | Some (s', r) => o = Done r /\ exists cm' rs', (exists qs, cm' = cm ++ qs) /\ dstep_spec cm rs s l r rs' /\
                                                     drun_spec cm' rs' s' ls' outs'
      | None => o = Refused /\ drun_spec cm rs s ls' outs'
      end
  | _, _ => False
  end.

Lemma drun_cons s l ls :
  drun s (l :: ls) = match dstep s l with
                     | Some (s', r) => (Done r :: fst (drun s' ls), snd (drun s' ls))
                     | None => (Refused :: fst (drun s ls), snd (drun s ls))
                     end.
Proof. simpl. destruct (dstep s l) as [[s' r]|]; [destruct (drun s' ls)|destruct (drun s ls)]; reflexivity. Qed.
