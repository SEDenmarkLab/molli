(* C10: UNITY_ATOM_ATTR / UNITY_BOND_ATTR (`<id> <n_attr>`, then exactly n_attr `<name> <value>` lines), for ANY reader state inside
   such a section: the header counts are met whatever happens there, so only the alternation "group header, n_attr attribute
   lines" notices a lost line.  What it cannot notice (the next group declares no attribute) is C10_unity_format_limit.
   Also: a text of several records reads as its records one by one (load_xyz_concat, load_mol2_concat). *)
From Coq Require Import List Bool Arith ZArith Lia.
From Molli Require Import Common.ParseStr Model.Parse Proofs.Parse.
Import ListNotations.
Local Open Scope list_scope.

Definition two_tok (l : str) : Prop := List.length (split (strip l)) = 2%nat.
(* what may follow the attribute lines that are there: the end of the text, or a line that is no attribute line *)
Definition closes (tl : list str) : Prop := tl = [] \/ exists x r, tl = x :: r /\ ~ two_tok x.

(* the two sections are read by the same loop; they differ in their modes and in what an attribute line does to the
   variables (set_atom_attr / chk_bond_attr), which none of the facts below looks at *)
Inductive usec : m2mode -> (Z -> N -> m2mode) -> Prop :=
| us_atom : usec MUAtom MUAtomAttr
| us_bond : usec MUBond MUBondAttr.

Section Unity.
Variables (home : m2mode) (attr : Z -> N -> m2mode).
Hypothesis U : usec home attr.

Lemma unity_attr_step_bad idx todo v l : ~ two_tok l -> m2step true (MRun (attr idx todo) v) l = MFail EValue.
Proof.
  unfold two_tok. intros H. destruct U; unfold m2step; destruct (split (strip l)) as [|a [|b [|c r]]]; try reflexivity;
    now destruct H.
Qed.

Lemma unity_attr_step_ok idx todo v l : two_tok l ->
  (exists e, m2step true (MRun (attr idx todo) v) l = MFail e) \/
  (exists v', m2step true (MRun (attr idx todo) v) l =
              if (todo <=? 1)%N then MRun home v' else MRun (attr idx (todo - 1)) v').
Proof.
  unfold two_tok. intros H. destruct U; unfold m2step; destruct (split (strip l)) as [|a [|b [|c r]]]; try discriminate H.
  - destruct (set_atom_attr v idx a b) as [v'|e]; eauto.
  - destruct (chk_bond_attr v idx) as [v'|e]; eauto.
Qed.

Lemma unity_short idx tl : closes tl -> forall als todo v, Forall two_tok als -> (N.of_nat (List.length als) < todo)%N ->
  m2fails (MRun (attr idx todo) v) (als ++ tl).
Proof.
  intros Htl. induction als as [|a als IH]; intros todo v HF Hlen.
  - destruct Htl as [->|(x & r & -> & Hx)]; [exists EEof; now destruct U|].
    apply m2fails_step. rewrite unity_attr_step_bad by exact Hx. apply m2fails_fail.
  - inversion HF as [|? ? Ha HF']; subst. simpl List.length in Hlen. apply m2fails_step.
    destruct (unity_attr_step_ok idx todo v a Ha) as [(e & ->)|(v' & ->)]; [apply m2fails_fail|].
    destruct (N.leb_spec todo 1); [lia|]. apply IH; [exact HF'|lia].
Qed.

Lemma unity_exact idx : forall als todo v, Forall two_tok als -> N.of_nat (List.length als) = todo -> (1 <= todo)%N ->
  (exists e, m2run true (MRun (attr idx todo) v) als = MFail e) \/
  (exists v', m2run true (MRun (attr idx todo) v) als = MRun home v').
Proof.
  induction als as [|a als IH]; intros todo v HF Hlen H1; simpl List.length in Hlen; [lia|].
  pose proof (Forall_inv HF) as Ha. pose proof (Forall_inv_tail HF) as HF'. rewrite m2run_cons.
  destruct (unity_attr_step_ok idx todo v a Ha) as [(e & ->)|(v' & ->)]; [left; exists e; apply m2run_fail|].
  destruct (N.leb_spec todo 1).
  - destruct als; [|simpl List.length in Hlen; lia]. right. now exists v'.
  - apply IH; [exact HF'|lia|lia].
Qed.

Lemma unity_header_step v l idx n : tripos_name (strip l) = None -> two_ints (strip l) = Some (idx, n) -> (1 <= n)%Z ->
  m2step true (MRun home v) l = MRun (attr idx (Z.to_N n)) v.
Proof.
  intros Ht Hi Hn. destruct U; unfold m2step; rewrite Ht, Hi; destruct (Z.leb_spec n 0); (lia || reflexivity).
Qed.

Theorem unity_header_bad v l rest : tripos_name (strip l) = None -> two_ints (strip l) = None ->
  m2fails (MRun home v) (l :: rest).
Proof. intros Ht Hi. apply m2fails_step. destruct U; unfold m2step; rewrite Ht, Hi; apply m2fails_fail. Qed.

Theorem unity_group_short v hd idx n als tl :
  tripos_name (strip hd) = None -> two_ints (strip hd) = Some (idx, n) -> Forall two_tok als ->
  (Z.of_nat (List.length als) < n)%Z -> closes tl ->
  m2fails (MRun home v) (hd :: als ++ tl).
Proof.
  intros Ht Hi HF Hlen Htl. apply m2fails_step. rewrite (unity_header_step v hd idx n Ht Hi) by lia.
  apply unity_short; [exact Htl|exact HF|lia].
Qed.

Theorem unity_attr_deleted v hd idx n als i tl :
  tripos_name (strip hd) = None -> two_ints (strip hd) = Some (idx, n) -> Forall two_tok als ->
  Z.of_nat (List.length als) = n -> (i < List.length als)%nat -> closes tl ->
  m2fails (MRun home v) (hd :: del_nth i als ++ tl).
Proof.
  intros Ht Hi HF Hlen Hi' Htl. apply (unity_group_short v hd idx n); auto using del_nth_Forall.
  pose proof (del_nth_length als i Hi'). lia.
Qed.

(* the header g of the next group is taken for the missing attribute line, and that group's first attribute line y is
   then refused in the place of a header *)
Theorem unity_attr_deleted_before_group v hd idx n als i g y rest :
  tripos_name (strip hd) = None -> two_ints (strip hd) = Some (idx, n) -> Forall two_tok als ->
  Z.of_nat (List.length als) = n -> (i < List.length als)%nat ->
  two_tok g -> tripos_name (strip y) = None -> two_ints (strip y) = None ->
  m2fails (MRun home v) (hd :: del_nth i als ++ g :: y :: rest).
Proof.
  intros Ht Hi HF Hlen Hi' Hg Hy1 Hy2. pose proof (del_nth_length als i Hi') as HL.
  apply m2fails_step. rewrite (unity_header_step v hd idx n Ht Hi) by lia.
  change (g :: y :: rest) with ([g] ++ y :: rest). rewrite app_assoc. apply m2fails_app.
  destruct (unity_exact idx (del_nth i als ++ [g]) (Z.to_N n) v) as [(e & ->)|(v' & ->)].
  - apply Forall_app. split; [auto using del_nth_Forall|now constructor].
  - rewrite app_length. simpl List.length. lia.
  - lia.
  - apply m2fails_fail.
  - apply unity_header_bad; assumption.
Qed.
End Unity.

Lemma all_ok_app {A B} (f : A -> res B) l1 l2 : forall m1 m2,
  all_ok (map f l1) = Ok m1 -> all_ok (map f l2) = Ok m2 -> all_ok (map f (l1 ++ l2)) = Ok (m1 ++ m2).
Proof.
  induction l1 as [|x l1 IH]; intros m1 m2 H1 H2; simpl in *.
  - injection H1 as <-. exact H2.
  - destruct (f x) as [y|e]; [|discriminate]. destruct (all_ok (map f l1)) as [ys|e] eqn:E; [|discriminate].
    injection H1 as <-. rewrite (IH ys m2 eq_refl H2). reflexivity.
Qed.

Lemma xwf_text_app P bs1 ls1 bs2 ls2 : xwf_text P bs1 ls1 -> xwf_text P bs2 ls2 -> xwf_text P (bs1 ++ bs2) (ls1 ++ ls2).
Proof. induction 1 as [|b bs l ls Hb Ht IH]; intros H2; [exact H2|]. rewrite <- app_assoc. simpl. constructor; auto. Qed.

(* the molecules of a text are the molecules of its parts, in order: whatever the sizes of the records are *)
Theorem load_xyz_concat P zero_ok f bs1 ls1 bs2 ls2 ms1 ms2 :
  xwf_text P bs1 ls1 -> xwf_text P bs2 ls2 ->
  load_xyz_lines zero_ok f ls1 = Ok ms1 -> load_xyz_lines zero_ok f ls2 = Ok ms2 ->
  load_xyz_lines zero_ok f (ls1 ++ ls2) = Ok (ms1 ++ ms2).
Proof.
  intros H1 H2. unfold load_xyz_lines.
  rewrite (read_xyz_wf P _ _ H1), (read_xyz_wf P _ _ H2), (read_xyz_wf P _ _ (xwf_text_app P _ _ _ _ H1 H2)).
  cbn [res_bind]. apply all_ok_app.
Qed.

Theorem load_mol2_concat atype btype bs1 ls1 bs2 ls2 ms1 ms2 :
  m2wf_text bs1 ls1 -> m2wf_text bs2 ls2 -> bs1 <> [] -> bs2 <> [] ->
  load_mol2_lines true atype btype ls1 = Ok ms1 -> load_mol2_lines true atype btype ls2 = Ok ms2 ->
  load_mol2_lines true atype btype (ls1 ++ ls2) = Ok (ms1 ++ ms2).
Proof.
  intros H1 H2 N1 N2. unfold load_mol2_lines.
  rewrite (read_mol2_wf _ _ H1 N1), (read_mol2_wf _ _ H2 N2).
  rewrite (read_mol2_wf _ _ (m2wf_text_app _ _ _ _ H1 H2)) by (destruct bs1; [contradiction|discriminate]).
  cbn [res_bind]. apply all_ok_app.
Qed.
