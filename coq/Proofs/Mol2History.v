(* C07 -- lemmas about Model/Mol2History.v: nothing that looks at an ensemble before the write shows in the text, and
   every iterator over an ensemble has a cursor of its own. *)
From Coq Require Import String List NArith Lia.
From Molli Require Import Common.StrSplit Common.Dec6 Model.Mol2Text Proofs.Mol2Text Model.Mol2History.
Import ListNotations.
Local Open Scope N_scope.

Lemma h_step_ens s o : hs_ens (fst (h_step s o)) = hs_ens s.
Proof.
  destruct o as [|i|k| |]; simpl; try reflexivity.
  destruct (nth_error (hs_its s) i) as [c|]; [|reflexivity].
  destruct (c <? lenN (e_confs (hs_ens s))); reflexivity.
Qed.

Lemma h_run_ens ops : forall s, hs_ens (h_run s ops) = hs_ens s.
Proof.
  induction ops as [|o t IH]; intros s; [reflexivity|]. simpl. rewrite IH. apply h_step_ens.
Qed.

Lemma ens_lines_write e : text_of (ens_lines e) = write_ens RV e.
Proof. unfold ens_lines, write_ens, write_all. now rewrite map_map. Qed.

(* the text written after ANY history is the text of the ensemble as it stands *)
Theorem write_after_any_history e ops : write_after e ops = write_ens RV e.
Proof. unfold write_after. rewrite h_run_ens. simpl. apply ens_lines_write. Qed.

Lemma nth_upd_same l : forall i v c, nth_error l i = Some c -> nth_error (upd l i v) i = Some v.
Proof.
  induction l as [|x t IH]; intros [|i] v c H; simpl in *; try discriminate; [reflexivity|]. now apply IH with c.
Qed.

Lemma nth_upd_other l : forall i j v, i <> j -> nth_error (upd l i v) j = nth_error l j.
Proof.
  induction l as [|x t IH]; intros [|i] [|j] v H; simpl; try reflexivity; [congruence|]. apply IH. congruence.
Qed.

(* how often next(it_i) occurs in a history; C07_iterator_cursor and C07_fresh_iterator_yields are stated with it *)
Fixpoint count_next (i : nat) (ops : list hop) : N :=
  match ops with
  | [] => 0
  | HNext j :: t => (if Nat.eqb j i then 1 else 0) + count_next i t
  | _ :: t => count_next i t
  end.

(* one operation: only its own next() moves the cursor of iterator i, by one and not past the end *)
Lemma h_step_cursor s o i c : nth_error (hs_its s) i = Some c -> c <= lenN (e_confs (hs_ens s)) ->
  nth_error (hs_its (fst (h_step s o))) i = Some (N.min (c + count_next i [o]) (lenN (e_confs (hs_ens s)))).
Proof.
  intros Hi Hc. destruct o as [|j|k| |]; cbn [h_step fst count_next hs_its];
    rewrite ?N.add_0_r, ?N.min_l by exact Hc; try exact Hi.
  - rewrite nth_error_app1; [exact Hi|]. apply nth_error_Some. congruence.
  - destruct (PeanoNat.Nat.eqb_spec j i) as [->|E].
    + rewrite Hi. destruct (N.ltb_spec c (lenN (e_confs (hs_ens s)))); cbn [fst hs_its].
      * rewrite (nth_upd_same _ _ _ _ Hi). f_equal. lia.
      * rewrite Hi. f_equal. lia.
    + destruct (nth_error (hs_its s) j) as [cj|]; [destruct (cj <? lenN (e_confs (hs_ens s)))|]; cbn [fst hs_its];
        rewrite ?nth_upd_other by exact E; rewrite Hi; f_equal; lia.
Qed.

(* an iterator that stands at conformer c stands, after any further history, at c + (the number of times ITS next()
   was called), capped at the number of conformers -- whatever was done with other iterators, with the ensemble, and
   however many writes happened in between *)
Theorem iterator_cursor ops : forall s i c,
  nth_error (hs_its s) i = Some c -> c <= lenN (e_confs (hs_ens s)) ->
  nth_error (hs_its (h_run s ops)) i = Some (N.min (c + count_next i ops) (lenN (e_confs (hs_ens s)))).
Proof.
  induction ops as [|o t IH]; intros s i c Hi Hc.
  - cbn [h_run count_next]. now rewrite N.add_0_r, N.min_l.
  - cbn [h_run]. rewrite (IH _ i _ (h_step_cursor s o i c Hi Hc)), h_step_ens by (rewrite h_step_ens; lia). f_equal.
    destruct o; cbn [count_next]; lia.
Qed.

(* the ensemble and the history of C07_history_hypotheses_satisfiable and C07_history_refuted_by_shared_cursor *)
Definition hist_demo : ens RV :=
  rens (u8 "ens") [((6, 5, 0), u8 "C1"); ((1, 1, 0), [])] [rbond 0 1 1]
    [[mk_cpos (mk_fx false 1) (mk_fx false 2) (mk_fx false 3) (mk_fx false 4); mk_cpos (mk_fx true 5) (mk_fx false 6) (mk_fx false 7) (mk_fx true 8)];
     [mk_cpos (mk_fx false 11) (mk_fx false 12) (mk_fx false 13) (mk_fx false 14); mk_cpos (mk_fx true 15) (mk_fx false 16) (mk_fx false 17) (mk_fx true 18)];
     [mk_cpos (mk_fx false 21) (mk_fx false 22) (mk_fx false 23) (mk_fx false 24); mk_cpos (mk_fx true 25) (mk_fx false 26) (mk_fx false 27) (mk_fx true 28)]].

(* a loop left at the second conformer with a second loop nested in it, an iterator that is still suspended, a write *)
Definition hist_demo_ops : list hop := [HNew; HNext 0; HNew; HNext 1; HNext 0; HIndex 2; HNew; HNext 2; HWrite; HLook].

Lemma history_demo :
  wf_real_ens hist_demo = true
  /\ option_map (fun e : ens RV => length (e_confs e)) (read_ens RV (write_after hist_demo hist_demo_ops)) = Some 3%nat
  /\ check_hist (CHist hist_demo
       [(HNew, ONone); (HNext 0, OYield [0]); (HNew, ONone); (HNext 1, OYield [0]); (HNext 0, OYield [1]); (HIndex 2, OYield [2]);
        (HNext 0, OYield [2]); (HNext 0, OStop); (HNext 0, OStop); (HNext 1, OAny)]
       (ens_lines hist_demo)) = true
  /\ check_hist (CHist hist_demo [(HNew, ONone); (HNext 0, OYield [0]); (HNew, ONone); (HNext 1, OYield [1])] (ens_lines hist_demo)) = false.
Proof. vm_compute. repeat split; reflexivity. Qed.

(* the excluded design (one cursor stored on the ensemble, rewound at the end of a loop): a fresh or fully iterated
   ensemble is written completely, but after next(iter(ens)) or a loop left at its first conformer the text starts at
   the second conformer -- 3 conformers in memory, 2 in the file *)
Lemma shared_cursor_refuted :
  option_map (fun e : ens RV => length (e_confs e)) (read_ens RV (shared_write_after hist_demo [])) = Some 3%nat
  /\ option_map (fun e : ens RV => length (e_confs e))
       (read_ens RV (shared_write_after hist_demo [HNew; HNext 0; HNext 0; HNext 0; HNext 0; HWrite])) = Some 3%nat
  /\ option_map (fun e : ens RV => length (e_confs e)) (read_ens RV (shared_write_after hist_demo [HNew; HNext 0])) = Some 2%nat
  /\ option_map (fun e : ens RV => length (e_confs e)) (read_ens RV (write_after hist_demo [HNew; HNext 0])) = Some 3%nat.
Proof. vm_compute. repeat split; reflexivity. Qed.
