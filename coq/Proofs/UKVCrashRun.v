(* C03: the chain of crashing sessions of UKVCrashChain.v IS a run of the operational model (Model/UKV.v `run`, the
   function the correspondence check drives against the real UKVFile): a history
     Open 0 MA; Put ...; Crash (|file at open| + n);  Open 0 MA; Put ...; Crash ...;  ...;  Open 0 MA
   leaves exactly the bytes  chain (H ++ blocks rs) ss.  So the chain theorems speak about the H-tied model,
   not about a second idealisation. *)
From Coq Require Import NArith List.
Import ListNotations.
Open Scope N_scope.
From Molli Require Import Model.UKV Proofs.UKVBase Proofs.UKV Proofs.UKVCrashChain.

Definition put0 (p : kv) : op := Put 0 (fst p) (snd p).

Fixpoint chain_ops (H : bytes) (rs : list kv) (ss : list (list kv * nat)) : list op :=
  match ss with
  | [] => []
  | (ps, n) :: ss' => Open 0 MA :: map put0 ps ++ Crash (len (H ++ blocks rs) + N.of_nat n)
                      :: chain_ops H (rs ++ complete n ps) ss'
  end.

(* the world a run ends in, one operation and one stretch at a time *)
Lemma run_snd_cons w o ops : snd (run w (o :: ops)) = snd (run (fst (step w o)) ops).
Proof. simpl. destruct (step w o) as [w' r]. simpl. destruct (run w' ops). reflexivity. Qed.

Lemma run_snd_app w a b : snd (run w (a ++ b)) = snd (run (snd (run w a)) b).
Proof.
  revert w. induction a as [|o a IH]; intros w; [reflexivity|].
  rewrite <- app_comm_cons, !run_snd_cons. apply IH.
Qed.

(* a session's puts, through the one complete handle open for append *)
Lemma run_puts H : forall ps rs h,
  full H rs h -> closed h = false -> md h = MA -> Forall wfkv ps -> NoDup (map fst (rs ++ ps)) ->
  exists h', snd (run (H ++ blocks rs, [h]) (map put0 ps)) = (H ++ blocks (rs ++ ps), [h']).
Proof.
  induction ps as [|[k v] ps IH]; intros rs h Hf Hc Hm Hwf Hnd.
  - exists h. rewrite app_nil_r. reflexivity.
  - inversion Hwf as [|p' ps' Hp Hps]; subst.
    assert (Ha : assoc rs k = None).
    { apply assoc_none_iff. rewrite map_app in Hnd. apply NoDup_remove_2 in Hnd.
      intros Hin. apply Hnd, in_or_app. left. exact Hin. }
    destruct (put_ok H rs h k v Hf Hc Hm Ha (proj2 (wfb_wfkv k v) Hp)) as [h1 [E [Hf1 [Hm1 Hc1]]]].
    cbn [map]. rewrite run_snd_cons. cbn [put0 step nth fst snd]. rewrite E. cbn [fst upd].
    change (rs ++ (k, v) :: ps) with (rs ++ [(k, v)] ++ ps) in *. rewrite app_assoc in *.
    apply (IH _ h1); assumption.
Qed.

Theorem run_chain H : forall ss rs g,
  hdr_ok H -> Forall wfkv (rs ++ all_puts ss) -> NoDup (map fst (rs ++ all_puts ss)) ->
  (exists h', open_ g h0 MA = (H ++ blocks rs, h') /\ full H rs h' /\ md h' = MA /\ closed h' = false) ->
  fst (snd (run (g, [h0]) (chain_ops H rs ss ++ [Open 0 MA]))) = chain (H ++ blocks rs) ss.
Proof.
  induction ss as [|[ps n] ss IH]; intros rs g Hok Hwf Hnd [h' [Eo [Hf [Hm Hc]]]].
  - simpl. rewrite Eo. reflexivity.
  - destruct (chain_step_hyps rs ps n (all_puts ss) Hwf Hnd) as [[Hwf1 Hnd1] [Hwf' Hnd']].
    (* the session opens, ... *)
    cbn [chain_ops]. rewrite <- app_comm_cons, run_snd_cons. cbn [step nth]. rewrite Eo. cbn [upd fst].
    (* ... puts, ... *)
    apply Forall_app in Hwf1 as Hwp. destruct (run_puts H ps rs h' Hf Hc Hm (proj2 Hwp) Hnd1) as [h1 E1].
    rewrite <- app_assoc, run_snd_app. unfold bytes in *. (* so that E1 matches: step types the file as bytes *)
    rewrite E1.
    (* ... and dies n bytes into what it appended; the next one starts by reopening that *)
    rewrite <- app_comm_cons, run_snd_cons. cbn [step map fst].
    rewrite blocks_app, (app_assoc H), firstn_len_plus, <- app_assoc. fold (crash_image H rs ps n).
    destruct (crash_reopen H rs ps n h0 MA Hok Hwf1 Hnd1 (snap_h0 H rs) eq_refl) as [h2 [E2 R2]].
    rewrite chain_cons, E2. apply IH; try assumption. exists h2. split; [exact E2|exact R2].
Qed.
