(* C03: the world of a writer that has just recovered a file. *)
From Coq Require Import NArith List.
Import ListNotations.
Open Scope N_scope.
From Molli Require Import Model.UKV Proofs.UKVBase Proofs.UKV.

(* a recovered world: the one handle that reopened the file for append, every other handle object new *)
Lemma inv_single_open H rs h' nh i :
  hdr_ok H -> Forall wfkv rs -> NoDup (map fst rs) -> full H rs h' -> (i < nh)%nat ->
  Inv H rs (H ++ blocks rs, upd (repeat h0 nh) i h').
Proof.
  intros Hok Hwf Hnd Hf Hi.
  apply (inv_upd H [] rs H _ i h' (inv_init H nh Hok));
    [rewrite repeat_length; exact Hi|exact Hwf|exact Hnd|apply full_snap; exact Hf|intros _; exact Hf|].
  intros j _. rewrite hnth_repeat. split; [apply snap_h0|discriminate].
Qed.
