(* C18 -- facts about Model/Jobmap.v: work list, run list and finalisation of one run; the run with runners that may
   die, pointwise (run_spec), and what a rerun executes; the run without dying runners as its special case; distinct
   cache file names; the commands of one execution and the run_local model of C17 on them. *)
From Coq Require Import List Bool ZArith String Ascii Lia.
Import ListNotations.
From Molli Require Import Model.Job Proofs.Job Model.Jobmap.
From Molli Require Import Common.ListFacts.
Local Open Scope string_scope.

Lemma mem_spec x l : mem x l = true <-> In x l.
Proof. exact (existsb_eqb_In String.eqb String.eqb_eq x l). Qed.

Lemma mem_false x l : mem x l = false <-> ~ In x l.
Proof. rewrite <- mem_spec. destruct (mem x l); split; congruence. Qed.

Lemma nodup_flat_map_sub {A B} (f f' : A -> list B) (h : A -> bool) l :
  (forall a x, In x (f' a) -> In x (f a)) -> (forall a, NoDup (f a) -> NoDup (f' a)) ->
  NoDup (flat_map f l) -> NoDup (flat_map f' (filter h l)).
Proof.
  intros Hsub Hnd. induction l as [|a l IH]; simpl; intro H; [constructor|].
  apply NoDup_app in H as (Ha & Hl & Hd). destruct (h a); simpl; [|now apply IH].
  apply NoDup_app. split; [now apply Hnd|]. split; [now apply IH|].
  intros x Hx Hin. apply in_flat_map in Hin as [b [Hb Hxb]]. apply filter_In in Hb as [Hb _].
  apply (Hd x); [now apply Hsub|]. apply in_flat_map. exists b. split; [exact Hb|now apply Hsub].
Qed.

Lemma flat_map_unique {A B} (f : A -> list B) l : NoDup (flat_map f l) ->
  forall a b x, In a l -> In b l -> In x (f a) -> In x (f b) -> a = b.
Proof.
  induction l as [|c l IH]; simpl; intros H a b x Ha Hb Hxa Hxb; [destruct Ha|].
  apply NoDup_app in H as (Hc & Hl & Hd).
  destruct Ha as [<-|Ha], Hb as [<-|Hb]; [reflexivity| | |now apply (IH Hl a b x)];
    exfalso; eapply Hd; eauto; apply in_flat_map; eauto.
Qed.

Definition key_is (k : string) (kl : string * nat) : bool := String.eqb k (fst kl).

Lemma find_none_notin k (l : list (string * nat)) : ~ In k (map fst l) -> find (key_is k) l = None.
Proof.
  induction l as [|a l IH]; simpl; intro H; [reflexivity|].
  unfold key_is at 1. destruct (String.eqb_spec k (fst a)); [elim H; now left|]. apply IH. tauto.
Qed.

Lemma find_key_in (l : list (string * nat)) kl : NoDup (map fst l) -> In kl l -> find (key_is (fst kl)) l = Some kl.
Proof.
  induction l as [|a l IH]; simpl; intros Hnd Hin; [destruct Hin|]. apply NoDup_cons_iff in Hnd as [Ha Hnd].
  unfold key_is at 1. destruct Hin as [->|Hin]; [now rewrite String.eqb_refl|].
  destruct (String.eqb_spec (fst kl) (fst a)) as [E|]; [|now apply IH].
  elim Ha. rewrite <- E. now apply in_map.
Qed.

Lemma mem_keys_dhas {V} k (d : list (string * V)) : mem k (map fst d) = dhas k d.
Proof.
  unfold dhas, mem. induction d as [|[k' v] r IH]; simpl; [reflexivity|].
  destruct (String.eqb k k'); simpl; [reflexivity|exact IH].
Qed.

Lemma dget_drm {V} k k' (d : list (string * V)) : dget k (drm k' d) = if String.eqb k k' then None else dget k d.
Proof.
  unfold drm. induction d as [|[k2 v] r IH]; simpl; [now destruct (String.eqb k k')|].
  destruct (String.eqb_spec k' k2) as [<-|Hne]; simpl; [rewrite IH; now destruct (String.eqb k k')|].
  rewrite IH. destruct (String.eqb_spec k k2) as [->|]; [|reflexivity]. destruct (String.eqb_spec k2 k'); congruence.
Qed.

(* the work list computed from the view taken inside `destination.reading()` is the work list of the FILE *)
Lemma todo_seen_refreshed st : todo_seen (map fst (js_dst st)) st = todo st.
Proof. unfold todo_seen, todo. apply filter_ext. intro kl. now rewrite mem_keys_dhas. Qed.

Lemma runlist_seen_refreshed p st : runlist_seen p (map fst (js_dst st)) st = runlist p st.
Proof. unfold runlist_seen, runlist. now rewrite todo_seen_refreshed. Qed.

Lemma find_todo st k :
  find (key_is k) (todo st) = match dget k (js_dst st) with Some _ => None | None => find (key_is k) (js_src st) end.
Proof.
  unfold todo, dhas. induction (js_src st) as [|a l IH]; simpl; [now destruct (dget k (js_dst st))|].
  unfold key_is at 2. destruct (String.eqb_spec k (fst a)) as [->|Hne].
  - destruct (dget (fst a) (js_dst st)) eqn:E; simpl; [now rewrite IH, ?E|]. unfold key_is. now rewrite String.eqb_refl.
  - rewrite <- IH. destruct (dget (fst a) (js_dst st)); simpl; [reflexivity|].
    unfold key_is at 1. now destruct (String.eqb_spec k (fst a)).
Qed.

(* finalisation: a work item enters the destination iff all its outputs are good; other keys keep their entry *)
Lemma finalise_fold p cache td : forall d, NoDup (map fst td) ->
  forall k, dget k (fold_left (finalise p cache) td d) =
    match find (key_is k) td with
    | Some kl => match all_good cache (names p kl) with Some v => Some v | None => dget k d end
    | None => dget k d
    end.
Proof.
  induction td as [|kl0 r IH]; intros d Hnd k; simpl; [reflexivity|]. apply NoDup_cons_iff in Hnd as [Hk Hnd].
  rewrite IH by exact Hnd. unfold key_is at 2, finalise.
  destruct (String.eqb_spec k (fst kl0)) as [->|Hne].
  - rewrite find_none_notin by exact Hk. destruct (all_good cache (names p kl0)); [apply dget_dset_same|reflexivity].
  - destruct (all_good cache (names p kl0)); [now rewrite dget_dset_other|reflexivity].
Qed.

(* executed = to_be_done minus valid cache *)
Lemma in_runlist p st nm : In nm (runlist p st) <->
  exists kl, In kl (js_src st) /\ dget (fst kl) (js_dst st) = None /\ In nm (names p kl)
             /\ valid p (dget nm (js_cache st)) = false.
Proof.
  unfold runlist, todo, dhas. rewrite in_flat_map. split; intros [kl H]; exists kl; rewrite !filter_In in *;
    destruct (dget (fst kl) (js_dst st)), (valid p (dget nm (js_cache st))); simpl in *; intuition congruence.
Qed.

Definition all_names (p : jparams) (st : jstate) : list string := flat_map (names p) (js_src st).

Lemma runlist_nodup p st : NoDup (all_names p st) -> NoDup (runlist p st).
Proof.
  unfold all_names, runlist, todo. apply nodup_flat_map_sub.
  - intros a x H. apply filter_In in H. tauto.
  - intros a. apply NoDup_filter.
Qed.

Lemma not_run_valid p st kl nm : In kl (js_src st) -> dget (fst kl) (js_dst st) = None -> In nm (names p kl) ->
  mem nm (runlist p st) = false -> valid p (dget nm (js_cache st)) = true.
Proof.
  intros Hin Hd Hnm Em. apply mem_false in Em. destruct (valid p (dget nm (js_cache st))) eqn:Ev; [reflexivity|].
  elim Em. apply in_runlist. now exists kl.
Qed.

Lemma all_good_iff cache l : all_good cache l <> None <-> forall nm, In nm l -> good (dget nm cache) <> None.
Proof.
  rewrite <- Forall_forall. induction l as [|a l IH]; simpl; [split; [constructor|discriminate]|].
  rewrite Forall_cons_iff, <- IH. destruct (good (dget a cache)), (all_good cache l); intuition congruence.
Qed.

Lemma all_good_none cache l nm : In nm l -> good (dget nm cache) = None -> all_good cache l = None.
Proof.
  intros Hin Hg. destruct (all_good cache l) eqn:E; [|reflexivity].
  elim (proj1 (all_good_iff cache l) ltac:(congruence) nm Hin Hg).
Qed.

Lemma all_good_of_arg cache l a : forall v, all_good cache l = Some v ->
  (forall nm o, In nm l -> good (dget nm cache) = Some o -> o_arg o = a) -> value_of_arg a v = true.
Proof.
  induction l as [|nm l IH]; simpl; intros v H Ha; [now injection H as <-|].
  destruct (good (dget nm cache)) as [o|] eqn:Eg; [|discriminate]. destruct (all_good cache l) as [w|]; [|discriminate].
  injection H as <-. simpl. rewrite (Ha nm o), String.eqb_refl by auto. apply IH; eauto.
Qed.

Lemma good_inv e o : good e = Some o -> e = Some (COut o).
Proof. unfold good. destruct e as [[|o']|]; try discriminate. destruct (_ && _); [now intros [= <-]|discriminate]. Qed.

(* a sub-item belongs to one work item only *)
Lemma in_runlist_item p st kl nm : NoDup (all_names p st) -> In kl (js_src st) -> In nm (names p kl) ->
  In nm (runlist p st) -> dget (fst kl) (js_dst st) = None /\ valid p (dget nm (js_cache st)) = false.
Proof.
  intros Ha Hin Hnm Hr. apply in_runlist in Hr as (kl' & Hin' & Hd & Hn' & Hv).
  now rewrite <- (flat_map_unique (names p) _ Ha kl' kl nm).
Qed.

(* items in the destination, and items completely and validly cached, are done with *)
Definition failed (k : okind) : Prop := k <> OSucceed.
Definition settled (p : jparams) (st : jstate) (kl : string * nat) : Prop :=
  dget (fst kl) (js_dst st) <> None \/ (forall nm, In nm (names p kl) -> valid p (dget nm (js_cache st)) = true).
(* cached successes carry their return file *)
Definition cache_wf (st : jstate) : Prop :=
  forall nm o, dget nm (js_cache st) = Some (COut o) -> o_code o = 0%Z -> o_file o = true.

(* what one run does, pointwise; `entry nm`: the cache entry an executed item ends up with *)
Definition run_spec (entry : string -> option centry) (p : jparams) (st st' : jstate) : Prop :=
  js_src st' = js_src st
  /\ (forall nm, cnt st' nm = if mem nm (runlist p st) then (cnt st nm + 1)%N else cnt st nm)
  /\ (forall nm, dget nm (js_cache st') = if mem nm (runlist p st) then entry nm else dget nm (js_cache st))
  /\ (forall k, dget k (js_dst st') =
        match dget k (js_dst st) with
        | Some v => Some v
        | None => match find (key_is k) (js_src st) with
                  | Some kl => all_good (js_cache st') (names p kl)
                  | None => None
                  end
        end).

Section JobmapXFacts.
  Variable outcome : string -> N -> okind.
  Variable crashes : string -> N -> bool.
  Notation exec_oneX := (exec_oneX outcome crashes).
  Notation jobmapX := (jobmapX outcome crashes).

  Lemma fresh_valid_iff p st nm : valid p (Some (COut (fresh outcome p st nm))) = true <-> outcome nm (cnt st nm) = OSucceed.
  Proof.
    unfold Jobmap.fresh, valid. destruct (outcome nm (cnt st nm)) as [|[c|c]|[c|c]|]; simpl;
      rewrite ?String.eqb_refl, ?orb_true_r; simpl; split; intro H; try reflexivity; discriminate.
  Qed.

  Lemma fresh_good_iff p st nm : good (Some (COut (fresh outcome p st nm))) <> None <-> outcome nm (cnt st nm) = OSucceed.
  Proof.
    unfold Jobmap.fresh, good. destruct (outcome nm (cnt st nm)) as [|[c|c]|[c|c]|]; simpl; split; intro H;
      try reflexivity; try discriminate; congruence.
  Qed.

  (* the cache entry of an executed item afterwards: the fresh output; nothing when the runner died (before the
     repair: whatever was there) *)
  Definition after_exec (br : bool) (p : jparams) (st : jstate) (nm : string) : option centry :=
    if crashes nm (cnt st nm) then (if br then dget nm (js_cache st) else None)
    else Some (COut (fresh outcome p st nm)).

  Lemma after_exec_rejected p st nm :
    crashes nm (cnt st nm) = true \/ failed (outcome nm (cnt st nm)) <-> valid p (after_exec false p st nm) = false.
  Proof.
    unfold after_exec, failed. destruct (crashes nm (cnt st nm)); [simpl; tauto|]. rewrite <- (fresh_valid_iff p).
    destruct (valid p _); intuition congruence.
  Qed.

  Lemma after_exec_unprocessed p st nm :
    crashes nm (cnt st nm) = true \/ failed (outcome nm (cnt st nm)) <-> good (after_exec false p st nm) = None.
  Proof.
    unfold after_exec, failed. destruct (crashes nm (cnt st nm)); [simpl; tauto|]. rewrite <- (fresh_good_iff p).
    destruct (good _); intuition congruence.
  Qed.

  Lemma cnt_exec_oneX br p st a nm :
    cnt (exec_oneX br p st a) nm = if String.eqb nm a then (cnt st a + 1)%N else cnt st nm.
  Proof.
    unfold Jobmap.exec_oneX, cnt at 1. destruct (crashes a (cnt st a)); simpl; rewrite dget_dset; now destruct (String.eqb nm a).
  Qed.

  Lemma cache_exec_oneX br p st a nm :
    dget nm (js_cache (exec_oneX br p st a)) = if String.eqb nm a then after_exec br p st a else dget nm (js_cache st).
  Proof.
    unfold Jobmap.exec_oneX, after_exec. destruct (String.eqb_spec nm a) as [->|Hne], (crashes a (cnt st a)), br; simpl;
      rewrite ?dget_drm, ?dget_dset, ?String.eqb_refl; try reflexivity; apply String.eqb_neq in Hne; now rewrite Hne.
  Qed.

  Lemma src_dst_exec_oneX br p st a : js_src (exec_oneX br p st a) = js_src st /\ js_dst (exec_oneX br p st a) = js_dst st.
  Proof. unfold Jobmap.exec_oneX. now destruct (crashes a (cnt st a)). Qed.

  (* dispatch: every item of the run list is executed once, nothing else is touched *)
  Lemma exec_foldX br p l : forall st, NoDup l ->
    let st' := fold_left (exec_oneX br p) l st in
    js_src st' = js_src st /\ js_dst st' = js_dst st
    /\ (forall nm, dget nm (js_cache st') = if mem nm l then after_exec br p st nm else dget nm (js_cache st))
    /\ (forall nm, cnt st' nm = if mem nm l then (cnt st nm + 1)%N else cnt st nm).
  Proof.
    induction l as [|a l IH]; intros st Hnd; cbv zeta; simpl fold_left; [now repeat split|].
    apply NoDup_cons_iff in Hnd as [Ha Hnd]. apply mem_false in Ha.
    destruct (IH (exec_oneX br p st a) Hnd) as (Hs & Hd & Hc & Hn). cbv zeta in *.
    destruct (src_dst_exec_oneX br p st a) as [Hs1 Hd1].
    split; [congruence|]. split; [congruence|].
    (* an item further down the list is executed in a state that differs only at a *)
    split; intro nm; rewrite ?Hc, ?Hn; unfold mem; simpl; fold (mem nm l);
      unfold after_exec, Jobmap.fresh; rewrite ?cache_exec_oneX, !cnt_exec_oneX;
      (destruct (String.eqb_spec nm a) as [->|Hne]; simpl; [now rewrite Ha, ?String.eqb_refl|reflexivity]).
  Qed.

  Theorem jobmapX_spec br p st : NoDup (map fst (js_src st)) -> NoDup (runlist p st) ->
    run_spec (after_exec br p st) p st (jobmapX br p st).
  Proof.
    intros Hk Hr. unfold run_spec, Jobmap.jobmapX, jobmapX_seen. cbv zeta.
    rewrite runlist_seen_refreshed, todo_seen_refreshed.
    destruct (exec_foldX br p (runlist p st) st Hr) as (Hs & Hd & Hc & Hn). cbv zeta in *.
    set (st1 := fold_left (exec_oneX br p) (runlist p st) st) in *. simpl.
    split; [exact Hs|]. split; [exact Hn|]. split; [exact Hc|].
    intro k. rewrite finalise_fold by now apply NoDup_map_filter.
    rewrite find_todo, Hd. destruct (dget k (js_dst st)); [reflexivity|].
    destruct (find (key_is k) (js_src st)) as [kl|]; [|reflexivity].
    now destruct (all_good (js_cache st1) (names p kl)).
  Qed.

  Lemma src_jobmapX br p st : js_src (jobmapX br p st) = js_src st.
  Proof.
    unfold Jobmap.jobmapX, jobmapX_seen. cbv zeta. simpl. generalize (runlist_seen p (map fst (js_dst st)) st).
    intro l. revert st. induction l as [|a l IH]; intro st; simpl; [reflexivity|]. rewrite IH. apply src_dst_exec_oneX.
  Qed.

  Lemma dst_newX br p st kl : NoDup (map fst (js_src st)) -> NoDup (runlist p st) ->
    In kl (js_src st) -> dget (fst kl) (js_dst st) = None ->
    dget (fst kl) (js_dst (jobmapX br p st)) = all_good (js_cache (jobmapX br p st)) (names p kl).
  Proof.
    intros Hk Hr Hin H. destruct (jobmapX_spec br p st Hk Hr) as (_ & _ & _ & Hd). now rewrite Hd, H, find_key_in.
  Qed.

  Lemma fold_crash_free br p l : forall st, NoDup l -> (forall nm, In nm l -> crashes nm (cnt st nm) = false) ->
    fold_left (exec_oneX br p) l st = fold_left (exec_one outcome p) l st.
  Proof.
    induction l as [|a l IH]; intros st Hnd Hc; simpl; [reflexivity|]. apply NoDup_cons_iff in Hnd as [Ha Hnd].
    assert (E : exec_oneX br p st a = exec_one outcome p st a).
    { unfold Jobmap.exec_oneX. now rewrite (Hc a (or_introl eq_refl)). }
    rewrite E. apply IH; [exact Hnd|]. rewrite <- E.
    intros nm Hnm. rewrite cnt_exec_oneX. destruct (String.eqb_spec nm a) as [->|]; [contradiction|]. apply Hc. now right.
  Qed.

  (* resume: a rerun executes exactly the items whose execution failed OR whose runner died in the previous run *)
  Theorem resumeX p st nm : NoDup (map fst (js_src st)) -> NoDup (all_names p st) ->
    In nm (runlist p (jobmapX false p st)) <->
    In nm (runlist p st) /\ (crashes nm (cnt st nm) = true \/ failed (outcome nm (cnt st nm))).
  Proof.
    intros Hk Ha. pose proof (runlist_nodup p st Ha) as Hr.
    destruct (jobmapX_spec false p st Hk Hr) as (_ & _ & Hc & Hd). cbv beta in *.
    rewrite (in_runlist p (jobmapX false p st)), src_jobmapX. split.
    - intros (kl & Hin & Hdn & Hn & Hv).
      assert (Hd0 : dget (fst kl) (js_dst st) = None) by (rewrite Hd in Hdn; now destruct (dget (fst kl) (js_dst st))).
      rewrite Hc in Hv. destruct (mem nm (runlist p st)) eqn:Em.
      + split; [now apply mem_spec|now apply (after_exec_rejected p)].
      + rewrite (not_run_valid p st kl nm) in Hv by assumption. discriminate.
    - intros [Hrun Hf]. pose proof Hrun as Em. apply mem_spec in Em.
      apply in_runlist in Hrun as (kl & Hin & Hd0 & Hn & _). exists kl. split; [exact Hin|]. split; [|split; [exact Hn|]].
      + (* its output is not processed, so the work item is not stored *)
        rewrite dst_newX by assumption.
        apply (all_good_none _ _ nm Hn). rewrite Hc, Em. now apply after_exec_unprocessed.
      + rewrite Hc, Em. now apply after_exec_rejected.
  Qed.

End JobmapXFacts.

(* the oracle `crashes` of a run in which no runner dies *)
Notation immortal := (fun (_ : string) (_ : N) => false).

Section JobmapFacts.
  Variable outcome : string -> N -> okind.
  Notation exec_one := (exec_one outcome).
  Notation fresh := (fresh outcome).
  Notation jobmap := (jobmap outcome).

  Lemma jobmap_immortal br p st : jobmapX outcome immortal br p st = jobmap p st.
  Proof. unfold jobmapX, jobmapX_seen, Jobmap.jobmap. cbv zeta. now rewrite runlist_seen_refreshed, todo_seen_refreshed. Qed.

  Lemma src_jobmap p st : js_src (jobmap p st) = js_src st.
  Proof. rewrite <- (jobmap_immortal false). apply src_jobmapX. Qed.

  Theorem jobmap_spec p st : NoDup (map fst (js_src st)) -> NoDup (runlist p st) ->
    run_spec (fun nm => Some (COut (fresh p st nm))) p st (jobmap p st).
  Proof. intros Hk Hr. rewrite <- (jobmap_immortal false). exact (jobmapX_spec outcome immortal false p st Hk Hr). Qed.

  (* a rerun with the same arguments executes exactly the items whose execution failed in the previous run *)
  Theorem resume p st nm : NoDup (map fst (js_src st)) -> NoDup (all_names p st) ->
    In nm (runlist p (jobmap p st)) <-> In nm (runlist p st) /\ failed (outcome nm (cnt st nm)).
  Proof.
    intros Hk Ha. rewrite <- (jobmap_immortal false), (resumeX outcome immortal p st nm Hk Ha). simpl. intuition discriminate.
  Qed.

  Theorem settled_stable p st kl : NoDup (map fst (js_src st)) -> NoDup (all_names p st) -> In kl (js_src st) ->
    settled p st kl ->
    settled p (jobmap p st) kl /\ (forall nm, In nm (names p kl) -> cnt (jobmap p st) nm = cnt st nm).
  Proof.
    intros Hk Ha Hin Hs. destruct (jobmap_spec p st Hk (runlist_nodup p st Ha)) as (_ & Hn & Hc & Hd). cbv beta in *.
    assert (Hnr : forall nm, In nm (names p kl) -> mem nm (runlist p st) = false).
    { intros nm Hnm. apply mem_false. intro Hr. destruct (in_runlist_item p st kl nm Ha Hin Hnm Hr) as [Hd0 Hv].
      destruct Hs as [Hs|Hs]; [contradiction|]. rewrite (Hs nm Hnm) in Hv. discriminate. }
    split.
    - destruct Hs as [Hs|Hs].
      + left. rewrite Hd. now destruct (dget (fst kl) (js_dst st)).
      + right. intros nm Hnm. rewrite Hc, (Hnr nm Hnm). now apply Hs.
    - intros nm Hnm. now rewrite Hn, (Hnr nm Hnm).
  Qed.

  Fixpoint rerun (p : jparams) (n : nat) (st : jstate) : jstate :=
    match n with O => st | S m => rerun p m (jobmap p st) end.

  (* once settled, an item is never executed again, however often jobmap is rerun: "computes each item once" *)
  Theorem computed_once p n : forall st kl, NoDup (map fst (js_src st)) -> NoDup (all_names p st) -> In kl (js_src st) ->
    settled p st kl -> forall nm, In nm (names p kl) -> cnt (rerun p n st) nm = cnt st nm.
  Proof.
    induction n as [|n IH]; intros st kl Hk Ha Hin Hs nm Hnm; simpl; [reflexivity|].
    destruct (settled_stable p st kl Hk Ha Hin Hs) as [Hs' Hc'].
    rewrite (IH (jobmap p st) kl); unfold all_names; rewrite ?src_jobmap; auto.
  Qed.
End JobmapFacts.

Lemma digit_ascii i : i < 10 -> digit i = String (ascii_of_nat (48 + i)) "".
Proof. intro H. do 10 (destruct i as [|i]; [reflexivity|]). lia. Qed.

(* <key>.<i>, i < 10: the suffix has length 2, so key and index can be read off the name *)
Lemma vec_name_inj k k' i j : i < 10 -> j < 10 -> k ++ "." ++ digit i = k' ++ "." ++ digit j -> k = k' /\ i = j.
Proof.
  intros Hi Hj. rewrite !digit_ascii by assumption. intro E. apply str_app_inj_len in E as [-> E]; [|reflexivity].
  injection E as E. apply (f_equal nat_of_ascii) in E. rewrite !nat_ascii_embedding in E by lia. split; [reflexivity|lia].
Qed.

Lemma nodup_map_inj_in {A B} (f : A -> B) l : (forall x y, In x l -> In y l -> f x = f y -> x = y) -> NoDup l -> NoDup (map f l).
Proof.
  induction l as [|a l IH]; simpl; intros Hinj H; [constructor|]. apply NoDup_cons_iff in H as [Ha H]. constructor.
  - intro Hin. apply in_map_iff in Hin as [x [Hx Hin]]. apply Ha. now rewrite <- (Hinj x a) by auto.
  - apply IH; [|exact H]. intros x y Hx Hy. apply Hinj; now right.
Qed.

(* vectorised jobs: <key>.<i> for i < L <= 10 are pairwise distinct when the keys are *)
Lemma names_vec_nodup st arg strict : NoDup (map fst (js_src st)) -> (forall kl, In kl (js_src st) -> snd kl <= 10) ->
  NoDup (all_names (mk_jp arg strict true) st).
Proof.
  unfold all_names, names. simpl. induction (js_src st) as [|a l IH]; simpl; intros H HL; [constructor|].
  apply NoDup_cons_iff in H as [Ha H]. assert (La : snd a <= 10) by (apply HL; now left).
  apply NoDup_app. split; [|split].
  - apply nodup_map_inj_in; [|apply seq_NoDup].
    intros x y Hx Hy E. apply in_seq in Hx. apply in_seq in Hy. apply vec_name_inj in E; [tauto|lia|lia].
  - apply IH; [exact H|]. intros kl Hkl. apply HL. now right.
  - intros x Hx Hin. apply in_map_iff in Hx as [i [<- Hi]]. apply in_seq in Hi.
    apply in_flat_map in Hin as [b [Hb Hxb]]. apply in_map_iff in Hxb as [j [E Hj]]. apply in_seq in Hj.
    assert (Lb : snd b <= 10) by (apply HL; now right).
    apply vec_name_inj in E as [E _]; [|lia|lia]. apply Ha. rewrite <- E. now apply in_map.
Qed.

(* An execution is a success exactly when EVERY command succeeded (named or not, first or last) and the return file
   was produced by one of them (or existed). *)
Lemma run_cmds_succeed_iff l : forall file,
  run_cmds file l = OSucceed <-> (forall c, In c l -> cs_code c = None) /\ (file = true \/ exists c, In c l /\ cs_write c = true).
Proof.
  setoid_rewrite <- Forall_forall. setoid_rewrite <- Exists_exists.
  induction l as [|c r IH]; intro file; simpl.
  - rewrite Exists_nil. destruct file; intuition (congruence || auto).
  - rewrite Forall_cons_iff, Exists_cons. destruct (cs_code c) as [k|].
    + destruct (file || cs_write c); intuition discriminate.
    + rewrite IH, orb_true_iff. tauto.
Qed.

(* a failing command anywhere in the list makes the execution a failure, whatever the commands after it would do *)
Lemma run_cmds_failing_command file l c : In c l -> cs_code c <> None -> run_cmds file l <> OSucceed.
Proof. intros Hin Hc H. apply run_cmds_succeed_iff in H as [H _]. apply Hc. now apply H. Qed.

(* the same command, not named: its stdout/stderr are not recorded *)
Definition unname (c : cstep) : cstep := mk_cs false (cs_write c) (cs_code c) (cs_crash c).
(* run_cmds is what the run_local model of C17 (Model/Job.v) reports for these commands *)
Section CmdsRunLocal.
  Variables rf payload : string.
  Notation exec := (step_exec rf payload).

  Definition summary (c : Z) (file : bool) : okind :=
    match c with
    | Zpos k => if file then OFailFile (Exit k) else OFail (Exit k)
    | Zneg s => if file then OFailFile (Signal s) else OFail (Signal s)      (* the command was killed by signal s *)
    | Z0 => if file then OSucceed else OOmit
    end.

  Definition cmd_names (cs : list (cstep * option string)) : list string :=
    flat_map (fun c => match snd c with Some n => [n] | None => [] end) cs.
  (* the return file is not the capture file of a named command: not_cap rf (snd c) for every command c *)
  Definition rf_free (cs : list (cstep * option string)) : Prop :=
    forall c n, In c cs -> snd c = Some n -> rf <> n ++ ".out" /\ rf <> n ++ ".err".

  Lemma rf_free_not_cap cs : rf_free cs -> forall c, In c cs -> not_cap rf (snd c).
  Proof. intros H c Hc n. exact (H c n Hc). Qed.

  Lemma step_file nm c e f : not_cap rf nm ->
    dhas rf (close_caps nm (exec c e (open_caps nm f))) = dhas rf f || cs_write c.
  Proof.
    intro H. unfold dhas. rewrite (close_caps_other _ _ _ H). simpl.
    destruct (cs_write c); [now rewrite dget_dset_same, orb_true_r|now rewrite (open_caps_other _ _ _ H), orb_false_r].
  Qed.

  Lemma loop_summary e cs : cs <> [] -> rf_free cs -> forall f,
    exists c, last_code (loop cstep exec e cs f) = Some c
              /\ summary c (dhas rf (final_fs f (loop cstep exec e cs f))) = run_cmds (dhas rf f) (map fst cs).
  Proof.
    induction cs as [|[c0 nm] r IH]; intros Hne Hfree f; [congruence|].
    pose proof (step_file nm c0 e f (rf_free_not_cap _ Hfree (c0, nm) (or_introl eq_refl))) as Hfile.
    simpl loop. simpl map. simpl run_cmds. simpl r_code. unfold cs_exit.
    destruct (cs_code c0) as [k|] eqn:Ec.
    - exists (ecode_Z k). split; [unfold last_code; destruct k; simpl; unfold cs_exit; now rewrite Ec|].
      destruct k; simpl; rewrite Hfile; reflexivity.
    - simpl Z.eqb. cbv iota.
      destruct r as [|c1 r].
      + exists 0%Z. split; [unfold last_code; simpl; unfold cs_exit; now rewrite Ec|]. simpl. rewrite Hfile. reflexivity.
      + set (f1 := close_caps nm (exec c0 e (open_caps nm f))) in *.
        destruct (IH ltac:(discriminate) (fun c n Hc => Hfree c n (or_intror Hc)) f1) as [c [Hl Hs]].
        exists c. split.
        * rewrite (last_code_cons cstep); [exact Hl|]. apply loop_nonempty. discriminate.
        * cbn [final_fs st_after]. rewrite Hs, Hfile. reflexivity.
  Qed.

  (* the executed named commands are a prefix of the job's named commands *)
  Lemma loop_names_nodup e cs f : NoDup (cmd_names cs) -> NoDup (names_of (loop cstep exec e cs f)).
  Proof.
    intro H. destruct (loop_prefix cstep exec e cs f) as [rest Hrest]. rewrite <- Hrest in H.
    unfold cmd_names in H. rewrite flat_map_app in H. apply NoDup_app in H as [H _].
    assert (E : forall l : list (step cstep), names_of l = cmd_names (map (cmd_of cstep) l)).
    { induction l as [|s l IHl]; simpl; [reflexivity|]. now rewrite IHl. }
    rewrite E. exact H.
  Qed.

  (* a command of this oracle changes no file but the return file *)
  Lemma step_exec_keeps cs : rf_free cs -> forall c e f x,
    In x (cap_files cstep cs) -> dget x (r_fs (exec c e f)) = dget x f.
  Proof.
    intros Hfree c e f x Hx. simpl. destruct (cs_write c); [|reflexivity]. apply dget_dset_other. intros ->.
    apply in_flat_map in Hx as [c' [Hc' Hx]]. destruct (snd c') as [m|] eqn:Em; [|destruct Hx].
    destruct (rf_free_not_cap _ Hfree c' Hc' m Em) as [H1 H2]. destruct Hx as [E|[E|[]]]; congruence.
  Qed.

  (* hence the captures of the executed commands can be read back (C17_capture) *)
  Lemma captures_read e cs f : NoDup (cmd_names cs) -> rf_free cs ->
    let sts := loop cstep exec e cs f in
    exists so se, read_caps ".out" (final_fs f sts) (names_of sts) [] = Some so
                  /\ read_caps ".err" (final_fs f sts) (names_of sts) [] = Some se.
  Proof.
    intros Hnd Hfree.
    destruct (captures_exact cstep exec (cap_files cstep cs) (step_exec_keeps cs Hfree) e cs f (loop_names_nodup e cs f Hnd)
                (fun x H => H)) as (so & se & Hso & Hse & _).
    now exists so, se.
  Qed.
End CmdsRunLocal.

