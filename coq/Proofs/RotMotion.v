(* C11: translate / transform of coordinate lists and of selected rows are rigid, rotate_dihedral reaches its target,
   centring, ensemble operations and alignment (Model/Rot.v).  Builds on Proofs/Rot.v (rotation matrices). *)
From Coq Require Import Reals Lra List Lia.
From Molli Require Import Common.Field3 Common.Field3R Model.Rot Proofs.Rot.
From Molli Require Import Common.ListFacts.
Import ListNotations.
Local Open Scope R_scope.

(* distances and handedness (signed volume of every ordered quadruple) are kept *)
Definition rigid_map (g : vecR -> vecR) : Prop :=
  (forall x y, dist2 ROps (g x) (g y) = dist2 ROps x y) /\
  (forall p0 p1 p2 p3, signed_volume ROps (g p0) (g p1) (g p2) (g p3) = signed_volume ROps p0 p1 p2 p3).

Lemma rigid_id : rigid_map (fun x => x).
Proof. split; intros; reflexivity. Qed.
Lemma rigid_vm (M : matR) : proper M -> rigid_map (fun x => vm ROps x M).
Proof.
  intros HM. split; intros.
  - apply orth_preserves_dist2, HM.
  - apply proper_preserves_signed_volume, HM.
Qed.
Lemma rigid_vadd (v : vecR) : rigid_map (fun x => vadd ROps x v).
Proof. split; intros; [apply translate_preserves_dist2 | apply translate_preserves_signed_volume]. Qed.
Lemma rigid_compose (f g : vecR -> vecR) : rigid_map f -> rigid_map g -> rigid_map (fun x => g (f x)).
Proof. intros [F1 F2] [G1 G2]. split; intros; [rewrite G1, F1 | rewrite G2, F2]; reflexivity. Qed.

Definition pt (X : list vecR) (i : nat) : vecR := nth i X (vzero ROps).

(* Y has the same shape as X on the rows satisfying P: all pairwise distances and all signed volumes agree *)
Definition same_shape_on (P : nat -> Prop) (X Y : list vecR) : Prop :=
  length Y = length X /\
  (forall i j, P i -> P j -> (i < length X)%nat -> (j < length X)%nat ->
     dist2 ROps (pt Y i) (pt Y j) = dist2 ROps (pt X i) (pt X j)) /\
  (forall i j k l, P i -> P j -> P k -> P l ->
     (i < length X)%nat -> (j < length X)%nat -> (k < length X)%nat -> (l < length X)%nat ->
     signed_volume ROps (pt Y i) (pt Y j) (pt Y k) (pt Y l) = signed_volume ROps (pt X i) (pt X j) (pt X k) (pt X l)).
Definition same_shape := same_shape_on (fun _ => True).

Lemma same_shape_by_map (P : nat -> Prop) (g : vecR -> vecR) (X Y : list vecR) :
  rigid_map g -> length Y = length X ->
  (forall i, P i -> (i < length X)%nat -> pt Y i = g (pt X i)) -> same_shape_on P X Y.
Proof.
  intros [G1 G2] HL H. split; [exact HL|]. split; intros.
  - rewrite !H by assumption. apply G1.
  - rewrite !H by assumption. apply G2.
Qed.
Lemma same_shape_on_refl P X : same_shape_on P X X.
Proof. apply (same_shape_by_map P (fun x => x)); [apply rigid_id | reflexivity | reflexivity]. Qed.
Lemma same_shape_on_trans P X Y Z : same_shape_on P X Y -> same_shape_on P Y Z -> same_shape_on P X Z.
Proof.
  intros [L1 [D1 V1]] [L2 [D2 V2]]. split; [congruence|]. split; intros.
  - rewrite D2, D1 by (try assumption; rewrite L1; assumption). reflexivity.
  - rewrite V2, V1 by (try assumption; rewrite L1; assumption). reflexivity.
Qed.

Lemma same_shape_on_impl (P Q : nat -> Prop) X Y : (forall i, P i -> Q i) -> same_shape_on Q X Y -> same_shape_on P X Y.
Proof. intros H [L [D V]]. split; [exact L|]. split; intros; [apply D | apply V]; auto. Qed.

Lemma pt_translate v X i : (i < length X)%nat -> pt (translate ROps v X) i = vadd ROps (pt X i) v.
Proof. apply (map_nth_lt (fun x => vadd ROps x v)). Qed.
Lemma pt_transform M X i : (i < length X)%nat -> pt (transform ROps M X) i = vm ROps (pt X i) M.
Proof. apply (map_nth_lt (fun x => vm ROps x M)). Qed.

(* whole-structure translate / transform (CartesianGeometry.translate, .transform, ConformerEnsemble.rotate) *)
Lemma map_same_shape (g : vecR -> vecR) X : rigid_map g -> same_shape X (map g X).
Proof. intros Hg. apply (same_shape_by_map _ g); [exact Hg | apply map_length | intros; now apply map_nth_lt]. Qed.
Theorem translate_same_shape v X : same_shape X (translate ROps v X).
Proof. apply map_same_shape, rigid_vadd. Qed.
Theorem transform_same_shape M X : proper M -> same_shape X (transform ROps M X).
Proof. intros HM. apply map_same_shape, rigid_vm, HM. Qed.

Theorem update_rows_frame (sel : nat -> bool) (f : vecR -> vecR) (X : list vecR) :
  length (update_rows sel f X) = length X /\
  forall i, (i < length X)%nat -> pt (update_rows sel f X) i = if sel i then f (pt X i) else pt X i.
Proof. split; [apply update_rows_length | intros; unfold pt; now apply update_rows_nth]. Qed.

(* what an edit of the rows selected by sel leaves: the selected part keeps its shape, the rest does not move at all *)
Definition moved_rigidly (sel : nat -> bool) (X Y : list vecR) : Prop :=
  same_shape_on (fun i => sel i = true) X Y /\ (forall i, sel i = false -> pt Y i = pt X i).

Theorem update_rows_rigid (sel : nat -> bool) (g : vecR -> vecR) (X : list vecR) :
  rigid_map g -> moved_rigidly sel X (update_rows sel g X).
Proof.
  intros Hg. destruct (update_rows_frame sel g X) as [HL HN]. split.
  - apply (same_shape_by_map _ g); [exact Hg | exact HL |]. intros i Hi Hlt. rewrite HN, Hi by exact Hlt. reflexivity.
  - intros i Hi. destruct (Nat.lt_ge_cases i (length X)) as [Hlt|Hge].
    + rewrite HN, Hi by exact Hlt. reflexivity.
    + unfold pt. rewrite !nth_overflow by (try rewrite HL; exact Hge). reflexivity.
Qed.

(* ... and the distance between a moved and an unmoved row is kept as well when the map fixes the unmoved one *)
Lemma update_rows_dist (sel : nat -> bool) (g : vecR -> vecR) (X : list vecR) (x y : nat) :
  rigid_map g -> (x < length X)%nat -> (y < length X)%nat ->
  (sel x = true -> sel y = false -> g (pt X y) = pt X y) -> (sel y = true -> sel x = false -> g (pt X x) = pt X x) ->
  dist2 ROps (pt (update_rows sel g X) x) (pt (update_rows sel g X) y) = dist2 ROps (pt X x) (pt X y).
Proof.
  intros [Dist _] Lx Ly Fy Fx. destruct (update_rows_frame sel g X) as [_ HN]. rewrite (HN x Lx), (HN y Ly).
  destruct (sel x), (sel y); try reflexivity; [apply Dist | rewrite <- Fy at 1 | rewrite <- Fx at 1]; auto.
Qed.

Corollary sub_translate_rigid sel v X : moved_rigidly sel X (sub_translate ROps sel v X).
Proof. apply (update_rows_rigid sel (fun x => vadd ROps x v)), rigid_vadd. Qed.
Corollary sub_transform_rigid sel M X : proper M -> moved_rigidly sel X (sub_transform ROps sel M X).
Proof. intros HM. apply (update_rows_rigid sel (fun x => vm ROps x M)), rigid_vm, HM. Qed.

(* For ANY axis u and coefficients: turning u3 by the row action of I + p W + (1 - c) W^2, W = skew u, mixes the two
   arctan2 arguments of the dihedral linearly (no hypothesis, a polynomial identity) ... *)
Lemma dihedral_law_gen (u1 u u3 : vecR) (p c : R) :
  let u3' := vm ROps u3 (axis_rot ROps u p c) in
  let k := 1 - (1 - c) * dot ROps u u in
  dot ROps u1 (cross ROps u u3')
    = k * dot ROps u1 (cross ROps u u3) - p * dot ROps (cross ROps u1 u) (cross ROps u u3) /\
  dot ROps (cross ROps u1 u) (cross ROps u u3')
    = k * dot ROps (cross ROps u1 u) (cross ROps u u3) + p * dot ROps u u * dot ROps u1 (cross ROps u u3).
Proof. coords. cbv zeta. split; ring. Qed.
(* ... and rotation_matrix_from_axis(ax, .) is of that form with u = ax itself *)
Lemma rot_from_axis_scaled (ax : vecR) (n s c : R) :
  rot_from_axis ROps ax n s c = axis_rot ROps ax (s / n) (1 - (1 - c) / n / n).
Proof. coords. unfold Rdiv. veq; ring. Qed.

(* so turning u3 by the row action of the rotation (s, c) about u2 turns the arctan2 arguments by MINUS that angle *)
Lemma dihedral_law (u1 u2 u3 : vecR) (n s c : R) : n <> 0 -> n * n = norm2 ROps u2 ->
  let u3' := vm ROps u3 (rot_from_axis ROps u2 n s c) in
  n * dot ROps u1 (cross ROps u2 u3')
    = c * (n * dot ROps u1 (cross ROps u2 u3)) - s * dot ROps (cross ROps u1 u2) (cross ROps u2 u3) /\
  dot ROps (cross ROps u1 u2) (cross ROps u2 u3')
    = c * dot ROps (cross ROps u1 u2) (cross ROps u2 u3) + s * (n * dot ROps u1 (cross ROps u2 u3)).
Proof.
  intros Hn E. cbv zeta. rewrite rot_from_axis_scaled.
  destruct (dihedral_law_gen u1 u2 u3 (s / n) (1 - (1 - c) / n / n)) as [D1 D2]. cbv zeta in D1, D2.
  rewrite D1, D2. change (dot ROps u2 u2) with (norm2 ROps u2). rewrite <- E. split; field; exact Hn.
Qed.

(* the per-row map of rotate_dihedral: shift the origin o to 0, turn by M, shift back *)
Definition rd_move (M : matR) (o x : vecR) : vecR := vadd ROps (vm ROps (vadd ROps x (vopp ROps o)) M) o.

Lemma rd_move_rigid M o : proper M -> rigid_map (rd_move M o).
Proof.
  intros HM. unfold rd_move.
  apply (rigid_compose (fun x => vm ROps (vadd ROps x (vopp ROps o)) M) (fun y => vadd ROps y o)); [|apply rigid_vadd].
  apply (rigid_compose (fun x => vadd ROps x (vopp ROps o)) (fun y => vm ROps y M)); [apply rigid_vadd | apply rigid_vm, HM].
Qed.
Lemma rd_move_diff M o x y : vsub ROps (rd_move M o x) (rd_move M o y) = vm ROps (vsub ROps x y) M.
Proof. unfold rd_move. coords. veq; ring. Qed.
Lemma rd_move_origin M o : rd_move M o o = o.
Proof. unfold rd_move. coords. veq; ring. Qed.
Lemma rd_move_axis M o x : vm ROps (vsub ROps x o) M = vsub ROps x o -> rd_move M o x = x.
Proof. unfold rd_move. coords. intros H. injection H; intros. veq; lra. Qed.

(* Structure.rotate_dihedral IS a row-selective edit by one rigid map of space that fixes both atoms of the axis and
   sends atom 4 where the target dihedral wants it.  Everything a call guarantees follows from this. *)
Lemma rotate_dihedral_as_map (X : list vecR) (i1 i2 i3 i4 : nat) (sel : nat -> bool) (st ct n2 rho : R) :
  0 < n2 -> n2 * n2 = norm2 ROps (vsub ROps (pt X i3) (pt X i2)) ->
  let g := dihedral_args ROps (pt X i1) (pt X i2) (pt X i3) (pt X i4) n2 in
  0 < rho -> rho * rho = fst g * fst g + snd g * snd g ->
  st * st + ct * ct = 1 ->
  exists f, rotate_dihedral ROps X i1 i2 i3 i4 sel st ct n2 rho = update_rows sel f X /\
    rigid_map f /\ f (pt X i2) = pt X i2 /\ f (pt X i3) = pt X i3 /\
    dihedral_args ROps (pt X i1) (pt X i2) (pt X i3) (f (pt X i4)) n2 = (rho * st, rho * ct).
Proof.
  intros Hn E g Hr Er Hsc. subst g. unfold rotate_dihedral, dihedral_args, pt in *. cbn [fst snd] in Er.
  generalize dependent (nth i1 X (vzero ROps)). generalize dependent (nth i2 X (vzero ROps)).
  generalize dependent (nth i3 X (vzero ROps)). generalize dependent (nth i4 X (vzero ROps)). intros P4 P3 P2 E P1.
  set (u1 := vsub ROps P2 P1). set (u2 := vsub ROps P3 P2) in *. set (u3 := vsub ROps P4 P3).
  set (g1 := fmul ROps n2 (dot ROps u1 (cross ROps u2 u3))). set (g2 := dot ROps (cross ROps u1 u2) (cross ROps u2 u3)).
  intros Er.
  (* the code's sine and cosine of d - t, d the current dihedral: (sin d, cos d) = (g1, g2) / rho *)
  pose (s := g1 / rho * ct - g2 / rho * st). pose (c := g2 / rho * ct + g1 / rho * st).
  assert (SC : s * s + c * c = 1 /\ c * g1 - s * g2 = rho * st /\ c * g2 + s * g1 = rho * ct).
  { subst s c. assert (Hr' : rho <> 0) by lra. inv_as_var Hr'.
    assert (E1 : g1 * g1 = rho * rho - g2 * g2) by lra. assert (E2 : st * st = 1 - ct * ct) by lra.
    repeat split; ring [Hk E1 E2]. }
  destruct SC as [U [T1 T2]].
  destruct (rot_from_axis_correct u2 n2 s c Hn E U) as [PM [Fix _]].
  destruct (dihedral_law u1 u2 u3 n2 s c ltac:(lra) E) as [D1 D2]. cbv zeta in D1, D2.
  set (M := rot_from_axis ROps u2 n2 s c) in *. exists (rd_move M P2).
  assert (Ax : rd_move M P2 P3 = P3) by apply rd_move_axis, Fix.
  split; [unfold sub_translate, sub_transform; now rewrite !update_rows_compose|].
  split; [now apply rd_move_rigid|]. split; [apply rd_move_origin|]. split; [exact Ax|].
  (* x4' - x3 = (x4 - x3) M, and the dihedral law turns the arctan2 arguments by the angle of M *)
  assert (U3 : vsub ROps (rd_move M P2 P4) P3 = vm ROps u3 M) by (rewrite <- Ax at 1; apply rd_move_diff).
  rewrite U3. change (fmul ROps) with Rmult in *. rewrite D1, D2. fold g1 g2. now rewrite T1, T2.
Qed.

(* Structure.rotate_dihedral reaches the target: after the call the arctan2 arguments of dihedral(a1..a4)
   are (rho sin t, rho cos t) with rho > 0, so the dihedral IS t (for t in (-pi, pi]); the moved side keeps
   its shape, nothing else moves, and |x3 - x2| is unchanged. *)
Theorem rotate_dihedral_correct (X : list vecR) (i1 i2 i3 i4 : nat) (sel : nat -> bool) (st ct n2 rho : R) :
  (i3 < length X)%nat -> (i4 < length X)%nat ->
  sel i1 = false -> sel i2 = false -> sel i3 = true -> sel i4 = true ->
  0 < n2 -> n2 * n2 = norm2 ROps (vsub ROps (pt X i3) (pt X i2)) ->
  let g := dihedral_args ROps (pt X i1) (pt X i2) (pt X i3) (pt X i4) n2 in
  0 < rho -> rho * rho = fst g * fst g + snd g * snd g ->
  st * st + ct * ct = 1 ->
  let X' := rotate_dihedral ROps X i1 i2 i3 i4 sel st ct n2 rho in
  dihedral_args ROps (pt X' i1) (pt X' i2) (pt X' i3) (pt X' i4) n2 = (rho * st, rho * ct) /\
  n2 * n2 = norm2 ROps (vsub ROps (pt X' i3) (pt X' i2)) /\ moved_rigidly sel X X'.
Proof.
  intros L3 L4 S1 S2 S3 S4 Hn E g Hr Er Hsc X'.
  destruct (rotate_dihedral_as_map X i1 i2 i3 i4 sel st ct n2 rho Hn E Hr Er Hsc) as [f [EX [Rf [_ [F3 Tgt]]]]].
  subst X'. rewrite EX. destruct (update_rows_rigid sel f X Rf) as [Shape Frame].
  destruct (update_rows_frame sel f X) as [_ HN].
  rewrite (Frame i1 S1), (Frame i2 S2), (HN i3 L3), (HN i4 L4), S3, S4, F3.
  split; [exact Tgt|]. split; [exact E | split; assumption].
Qed.

Lemma fnat_INR (n : nat) : fnat ROps n = INR n.
Proof. unfold fnat. cbv [fofZ ROps]. symmetry. apply INR_IZR_INZ. Qed.

Lemma vsum_translate v X : vsum ROps (translate ROps v X) = vadd ROps (vsum ROps X) (vscale ROps (INR (length X)) v).
Proof.
  unfold vsum, translate. induction X as [|x X IH]; cbn [map fold_right length].
  - cbn. coords. veq; ring.
  - rewrite IH, S_INR. generalize (fold_right (vadd ROps) (vzero ROps) X) (INR (length X)). intros y k. coords. veq; ring.
Qed.
Lemma vsum_transform M X : vsum ROps (transform ROps M X) = vm ROps (vsum ROps X) M.
Proof.
  unfold vsum, transform. induction X as [|x X IH]; cbn [map fold_right]; [symmetry; apply vm_vzero|].
  rewrite IH. symmetry. apply vm_vadd.
Qed.

Lemma centroid_translate v X : X <> [] -> centroid ROps (translate ROps v X) = vadd ROps (centroid ROps X) v.
Proof.
  intros HX. unfold centroid. rewrite vsum_translate. unfold translate. rewrite map_length, fnat_INR.
  assert (Hn : INR (length X) <> 0) by (apply not_0_INR; destruct X; [contradiction | discriminate]).
  revert Hn. generalize (vsum ROps X) (INR (length X)). intros y k. coords. intros Hk. veq; field; exact Hk.
Qed.
Lemma centroid_transform M X : centroid ROps (transform ROps M X) = vm ROps (centroid ROps X) M.
Proof.
  unfold centroid. rewrite vsum_transform. unfold transform. rewrite map_length.
  generalize (vsum ROps X) (fnat ROps (length X)). intros y k. coords. unfold Rdiv. veq; ring.
Qed.

(* centring at the centroid puts the centroid at the origin (Molecule.align_to_ref_coords step 1, center_at_core) *)
Theorem centred_centroid X : X <> [] -> centroid ROps (translate ROps (vopp ROps (centroid ROps X)) X) = vzero ROps.
Proof. intros HX. rewrite centroid_translate by exact HX. generalize (centroid ROps X). intros c. coords. veq; ring. Qed.

Lemma select_translate idx v X : (forall i, In i idx -> (i < length X)%nat) ->
  select ROps idx (translate ROps v X) = translate ROps v (select ROps idx X).
Proof.
  intros H. unfold select, translate. rewrite map_map. apply map_ext_in. intros i Hi.
  apply (map_nth_lt (fun x => vadd ROps x v)). apply H, Hi.
Qed.
Lemma select_transform idx M X : select ROps idx (transform ROps M X) = transform ROps M (select ROps idx X).
Proof.
  unfold select, transform. rewrite map_map. apply map_ext. intros i.
  rewrite <- (vm_vzero M) at 1. apply (map_nth (fun x => vm ROps x M)).
Qed.

(* conformer-wise operations relate every conformer to its image as the operation does on one conformer *)
Lemma Forall2_map_same {A} (Rel : A -> A -> Prop) (f : A -> A) (l : list A) :
  (forall x, Rel x (f x)) -> Forall2 Rel l (map f l).
Proof. intros H. induction l; simpl; constructor; auto. Qed.
Lemma Forall2_map2 {A B} (Rel : B -> B -> Prop) (f : A -> B -> B) (l : list A) (m : list B) :
  length l = length m -> (forall a, In a l -> forall x, Rel x (f a x)) -> Forall2 Rel m (map2 f l m).
Proof.
  revert l. induction m as [|x m IH]; intros [|a l] HL H; simpl in HL; try discriminate; simpl; constructor.
  - apply H. now left.
  - apply IH; [lia | intros a' Ha'; apply H; now right].
Qed.
Lemma map2_map_l {A B} (g : A -> B -> B) (f : B -> A) (l : list B) : map2 g (map f l) l = map (fun x => g (f x) x) l.
Proof. induction l as [|x l IH]; simpl; [reflexivity | now rewrite IH]. Qed.
Lemma map2_map_r {A B C} (g : A -> B -> C) (h : A -> B) (l : list A) : map2 g l (map h l) = map (fun x => g x (h x)) l.
Proof. induction l as [|x l IH]; simpl; [reflexivity | now rewrite IH]. Qed.
Lemma map2_nth {A B C} (f : A -> B -> C) (l : list A) (m : list B) (k : nat) (da : A) (db : B) (dc : C) :
  length l = length m -> (k < length l)%nat -> nth k (map2 f l m) dc = f (nth k l da) (nth k m db).
Proof.
  revert m k. induction l as [|a l IH]; intros [|b m] k H Hk; simpl in *; try discriminate; try lia.
  destruct k; [reflexivity|]. apply IH; lia.
Qed.

Lemma ens_translate2_shape vs E : length vs = length E -> Forall2 same_shape E (ens_translate2 ROps vs E).
Proof. intros HL. apply Forall2_map2; [exact HL | intros; apply translate_same_shape]. Qed.
Theorem ens_translate1_shape v E : Forall2 same_shape E (ens_translate1 ROps v E).
Proof. apply Forall2_map_same, translate_same_shape. Qed.
Theorem ens_rotate_shape M E : proper M -> Forall2 same_shape E (ens_rotate ROps M E).
Proof. intros HM. apply Forall2_map_same. intros X. now apply transform_same_shape. Qed.
Theorem center_at_atom_shape k E : Forall2 same_shape E (center_at_atom ROps k E).
Proof. apply ens_translate2_shape, map_length. Qed.
Theorem center_at_core_shape idx E : Forall2 same_shape E (center_at_core ROps idx E).
Proof. apply ens_translate2_shape, map_length. Qed.

(* one step of pick_best's fold: a result replaces the running best when its deviation is strictly smaller *)
Definition pb_step (best : R * option matR) (r : matR * R) : R * option matR :=
  if fltb ROps (snd r) (fst best) then (snd r, Some (fst r)) else best.
Lemma pick_best_fold (l : list (matR * R)) : pick_best ROps l = fold_left pb_step l (fofZ ROps 100, None).
Proof. reflexivity. Qed.

(* the running best: at most every deviation seen so far; taken from the list and below 100, or still the initial 100 *)
Lemma pick_best_inv (l : list (matR * R)) :
  (forall M' r', In (M', r') l -> fst (pick_best ROps l) <= r') /\
  match snd (pick_best ROps l) with
  | Some M => In (M, fst (pick_best ROps l)) l /\ fst (pick_best ROps l) < 100
  | None => fst (pick_best ROps l) = 100
  end.
Proof.
  induction l as [|[Mx rx] l [Hmin Hsrc]] using rev_ind; [split; [intros ? ? [] | reflexivity]|].
  unfold pick_best in *. rewrite fold_left_app. cbn [fold_left].
  destruct (fold_left _ l _) as [rb mb]. unfold fltb. cbn [fst snd fleb ROps] in *.
  assert (Hb : rb <= 100) by (destruct mb; lra).
  destruct (Rleb rb rx) eqn:Cmp; [apply Rleb_true in Cmp | apply Rleb_false in Cmp]; cbn [negb fst snd].
  - (* rb <= rx: the best so far stays *) split.
    + intros M' r' [Hin|[[= <- <-]|[]]]%in_app_or; [now apply (Hmin M') | exact Cmp].
    + destruct mb; [split; [apply in_or_app; left|]|]; tauto.
  - (* rx < rb: the last result becomes the best *) split.
    + intros M' r' [Hin|[[= <- <-]|[]]]%in_app_or; [specialize (Hmin M' r' Hin)|]; lra.
    + split; [apply in_or_app; right; now left | lra].
Qed.

Lemma pick_best_spec (results : list (matR * R)) (r : R) (M : matR) :
  pick_best ROps results = (r, Some M) ->
  In (M, r) results /\ r < 100 /\ (forall M' r', In (M', r') results -> r <= r').
Proof. intros H. destruct (pick_best_inv results) as [Hmin Hsrc]. rewrite H in *. cbn [fst snd] in *. tauto. Qed.

(* no pick exactly when the best deviation is still the initial 100 *)
Lemma pick_best_none (l : list (matR * R)) : snd (pick_best ROps l) = None <-> fst (pick_best ROps l) = 100.
Proof.
  destruct (pick_best_inv l) as [_ H]. destruct (snd (pick_best ROps l)); split; intros; try discriminate; try tauto.
  exfalso. lra.
Qed.

(* the best deviation is a function of the deviations alone, not of the matrices that come with them *)
Lemma pick_best_fst_ext (l l' : list (matR * R)) : map snd l = map snd l' ->
  forall b b' : R * option matR, fst b = fst b' -> fst (fold_left pb_step l b) = fst (fold_left pb_step l' b').
Proof.
  revert l'. induction l as [|r l IH]; intros [|r' l'] H b b' Hb; try discriminate; [exact Hb|].
  injection H as Hr H. cbn [fold_left]. apply IH; [exact H|]. unfold pb_step. rewrite Hr, Hb.
  now destruct (fltb ROps (snd r') (fst b')).
Qed.

Section Align.
(* The user-supplied callback (Kabsch via SVD in molli/scripts/align.py) is external.  It is described by
   hypotheses: it returns a proper rotation together with the deviation achieved by that rotation, for SOME
   deviation measure `dev` (the RMSD in practice; nothing below depends on which). *)
Variable dev : list vecR -> list vecR -> R.
Variable func : list vecR -> list vecR -> matR * R.
Hypothesis func_proper : forall P Q, proper (fst (func P Q)).
Hypothesis func_reports : forall P Q, snd (func P Q) = dev (transform ROps (fst (func P Q)) P) Q.

(* Molecule.align_to_ref_coords: the value returned is the deviation of the pose the call leaves (before the
   optional final shift by vec), it is the smallest among the candidate mappings, and the whole molecule
   has been moved rigidly. *)
Theorem align_reports (X : list vecR) (idxs : list (list nat)) (ref : list vecR) (v : option vecR)
        (X' : list vecR) (r : R) :
  align ROps func X idxs ref v = Some (X', r) ->
  exists idx Xr,
    In idx idxs /\
    X' = match v with Some t => translate ROps t Xr | None => Xr end /\
    r = dev (select ROps idx Xr) ref /\
    r < 100 /\
    (forall idx', In idx' idxs ->
       r <= snd (func (select ROps idx' (align_centered ROps X (hd [] idxs))) ref)) /\
    same_shape X X'.
Proof.
  unfold align. destruct idxs as [|idx0 rest]; [discriminate|]. set (idxs := idx0 :: rest).
  unfold align_with, align_inputs. rewrite map_map. cbn [hd]. set (X1 := align_centered ROps X idx0).
  destruct (pick_best ROps _) as [rb [Mb|]] eqn:PB; [|discriminate]. intros [= <- <-].
  apply pick_best_spec in PB. destruct PB as [Hin [Hlt Hmin]].
  apply in_map_iff in Hin. destruct Hin as [idx [HP Hidx]].
  pose proof (func_proper (select ROps idx X1) ref) as PMb. pose proof (func_reports (select ROps idx X1) ref) as Rep.
  rewrite HP in PMb, Rep. cbn [fst snd] in PMb, Rep.
  exists idx, (transform ROps Mb X1). split; [exact Hidx|]. split; [reflexivity|].
  split; [now rewrite select_transform|]. split; [exact Hlt|]. split.
  - intros idx' Hidx'. apply (Hmin (fst (func (select ROps idx' X1) ref))). rewrite <- surjective_pairing.
    apply (in_map (fun ix => func (select ROps ix X1) ref)), Hidx'.
  - assert (S1 : same_shape X (transform ROps Mb X1))
      by (apply (same_shape_on_trans _ X X1); [apply translate_same_shape | now apply transform_same_shape]).
    destruct v as [t|]; [|exact S1]. apply (same_shape_on_trans _ _ _ _ S1), translate_same_shape.
Qed.

End Align.

(* the value returned is a function of the deviations the callback reported, of nothing else *)
Lemma align_with_value_ext (X X' : list vecR) idx0 idx0' (l l' : list (matR * R)) v v' :
  map snd l = map snd l' ->
  option_map snd (align_with ROps X idx0 l v) = option_map snd (align_with ROps X' idx0' l' v').
Proof.
  intros F. pose proof (pick_best_fst_ext l l' F (fofZ ROps 100, None) (fofZ ROps 100, None) eq_refl) as E.
  rewrite <- !pick_best_fold in E.
  pose proof (pick_best_none l) as N. pose proof (pick_best_none l') as N'. unfold align_with.
  destruct (pick_best ROps l) as [r [m|]], (pick_best ROps l') as [r' [m'|]]; cbn [fst snd option_map] in *; subst;
    try reflexivity; exfalso; [assert (Some m = None) by tauto | assert (Some m' = None) by tauto]; discriminate.
Qed.

(* centring undoes the translation and commutes with the rotation: this is what makes the value returned by the
   alignment independent of the pose (C11_align_pose_independent) *)
Lemma align_centered_reposed (X : list vecR) (idx0 : list nat) (M : matR) (w : vecR) :
  idx0 <> [] -> (forall i, In i idx0 -> (i < length X)%nat) ->
  align_centered ROps (translate ROps w (transform ROps M X)) idx0 = transform ROps M (align_centered ROps X idx0).
Proof.
  intros Hne Hr. unfold align_centered.
  rewrite select_translate by (intros i Hi; unfold transform; rewrite map_length; apply Hr, Hi).
  rewrite select_transform.
  assert (Hs : transform ROps M (select ROps idx0 X) <> []).
  { unfold transform, select. destruct idx0; [contradiction | discriminate]. }
  rewrite centroid_translate by exact Hs. rewrite centroid_transform.
  generalize (centroid ROps (select ROps idx0 X)). intros c.
  unfold translate, transform. rewrite !map_map. apply map_ext. intros x. coords. veq; ring.
Qed.

