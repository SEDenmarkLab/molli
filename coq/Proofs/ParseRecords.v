(* C10: one ATOM / BOND record of a well-formed mol2 text replaced by an arbitrary line (a cut mid-record, a dropped token).  The
   count check of the repaired reader cannot see this (the number of records is unchanged); the column count of the record parser
   is the only guard: too few tokens are refused, and the last bond record replaced by l' reads as exactly the tokens of l'. *)
From Coq Require Import List Bool Arith ZArith Lia.
From Molli Require Import Common.ParseStr Model.Parse Proofs.Parse.
Import ListNotations.
Local Open Scope char_scope.
Local Open Scope list_scope.
(* the reader's variables with the skip flag off *)
Local Notation V oh oa ob out := (mk_m2vars oh oa ob false out).

Lemma nth_error_firstn_lt {A} (l : list A) : forall j i, (i < j)%nat -> nth_error (firstn j l) i = nth_error l i.
Proof.
  induction l as [|x l IH]; intros j i H; [now rewrite firstn_nil|].
  destruct j as [|j]; [lia|]. destruct i as [|i]; [reflexivity|]. simpl. apply IH. lia.
Qed.

Section RecordDamage.
Variables (bs0 : list m2block) (pre0 : list str).
Variables (ign : list str) (lm name counts mtype ctype status la lb : str) (als : list str).
Variables (h : m2hdr) (atoms : list m2atom).
Hypothesis Hpre : m2wf_text bs0 pre0.
Hypothesis Hign : Forall ignorable ign.
Hypothesis Hlm : is_sec lm SMolecule.
Hypothesis Hh : m2header (strip name) (strip counts) (strip ctype) = Ok h.
Hypothesis Hst : plain_status status.
Hypothesis Hla : is_sec la SAtom.
Hypothesis Hna : mh_natoms h = Z.of_nat (List.length atoms).
Hypothesis HFa : Forall2 atom_line_of als atoms.

(* the text up to and including the header of the molecule whose records are damaged *)
Definition upto_header (rest : list str) : list str :=
  pre0 ++ ign ++ lm :: name :: counts :: mtype :: ctype :: status :: rest.

Lemma header_state rest :
  m2run true m2init (upto_header rest) = m2run true (MRun MMain (V (Some h) (Some []) (Some []) (rev bs0))) rest.
Proof using Hpre Hign Hlm Hh Hst.
  clear - Hpre Hign Hlm Hh Hst. unfold upto_header.
  destruct (pre_state bs0 pre0 Hpre) as (out & p & Hp & E & Ho).
  rewrite <- m2run_app, E. rewrite <- m2run_app, run_ign by exact Hign.
  rewrite m2run_cons, step_molecule by assumption. now rewrite (run_hdr_lines _ _ _ _ _ _ _ h _ Hh Hst), Ho.
Qed.

Theorem read_mol2_short_atom j l' post : (j < List.length als)%nat -> few_tokens 5 l' ->
  exists e, read_mol2 true (upto_header (la :: firstn j als ++ l' :: post)) = Err e.
Proof using Hpre Hign Hlm Hh Hst Hla Hna HFa.
  intros Hj Hfew. unfold read_mol2. rewrite header_state.
  pose proof (Forall2_length HFa) as Hlen.
  rewrite m2run_cons, (step_atom_sec h _ _ la Hla).
  destruct (Z.leb_spec (mh_natoms h) 0) as [Hle|Hgt]; [lia|].
  rewrite <- m2run_app. rewrite (atoms_short _ _ _ (firstn j als) (firstn j atoms)).
  - now apply fails_atom_few.
  - now apply Forall2_firstn.
  - rewrite firstn_length. lia.
Qed.

Variables (bls0 : list str) (bonds0 : list m2bond).
Hypothesis Hlb : is_sec lb SBond.

(* `bls0` are the bond records in front of the damaged one; the header declares more than these *)
Theorem read_mol2_short_bond nb l' post : mh_nbonds h = Some nb -> (Z.of_nat (List.length bls0) < nb)%Z ->
  Forall2 bond_line_of bls0 bonds0 -> few_tokens 4 l' ->
  exists e, read_mol2 true (upto_header (la :: als ++ lb :: bls0 ++ l' :: post)) = Err e.
Proof using Hpre Hign Hlm Hh Hst Hla Hna HFa Hlb.
  intros Hnb Hlt HFb Hfew. unfold read_mol2. rewrite header_state.
  rewrite (run_atoms_sec h atoms (rev bs0) la als Hna Hla HFa).
  rewrite m2run_cons, (step_bond_sec h _ _ lb nb Hlb Hnb).
  destruct (Z.leb_spec nb 0) as [Hle|Hgt]; [lia|].
  rewrite <- m2run_app. rewrite (bonds_short _ _ _ bls0 bonds0 HFb) by lia.
  now apply fails_bond_few.
Qed.

Hypothesis Hnb : mh_nbonds h = Some (Z.of_nat (S (List.length bonds0))).
Hypothesis HFb : Forall2 bond_line_of bls0 bonds0.

Definition with_last (l' : str) : list str := upto_header (la :: als ++ lb :: bls0 ++ [l']).

Lemma read_mol2_last_bond_ok l' : ~ few_tokens 4 l' ->
  read_mol2 true (with_last l') = Ok (bs0 ++ [mk_m2block h atoms (bonds0 ++ [mk_m2bond (split (strip l'))])]).
Proof using Hpre Hign Hlm Hh Hst Hla Hna HFa Hlb Hnb HFb.
  intros Hl'. unfold with_last, upto_header.
  assert (Hb : bond_line_of l' (mk_m2bond (split (strip l')))) by (split; [reflexivity|unfold few_tokens in Hl'; lia]).
  assert (HF : Forall2 bond_line_of (bls0 ++ [l']) (bonds0 ++ [mk_m2bond (split (strip l'))])).
  { apply Forall2_app; [exact HFb|constructor; [exact Hb|constructor]]. }
  assert (Hnb2 : mh_nbonds h = Some (Z.of_nat (List.length (bonds0 ++ [mk_m2bond (split (strip l'))])))).
  { rewrite app_length. simpl List.length. rewrite Hnb. f_equal. lia. }
  pose proof (m2wf_intro ign lm name counts mtype ctype status la als lb (bls0 ++ [l']) h atoms _
                Hign Hlm Hh Hst Hla Hna HFa Hlb Hnb2 HF) as Hwf.
  pose proof (m2wf_text_app _ _ _ _ Hpre (m2wt_cons _ [] _ [] Hwf m2wt_nil)) as Ht.
  rewrite app_nil_r in Ht. apply read_mol2_wf; [exact Ht|]. destruct bs0; discriminate.
Qed.

Theorem read_mol2_last_bond_line l' :
  (few_tokens 4 l' -> exists e, read_mol2 true (with_last l') = Err e) /\
  (~ few_tokens 4 l' ->
   read_mol2 true (with_last l') = Ok (bs0 ++ [mk_m2block h atoms (bonds0 ++ [mk_m2bond (split (strip l'))])])).
Proof using Hpre Hign Hlm Hh Hst Hla Hna HFa Hlb Hnb HFb.
  split; [|apply read_mol2_last_bond_ok].
  intros Hfew. unfold with_last.
  apply (read_mol2_short_bond (Z.of_nat (S (List.length bonds0))) l' [] Hnb); [|exact HFb|exact Hfew].
  rewrite (Forall2_length HFb). lia.
Qed.

Lemma bond_conv_firstn btype n t j : (4 <= j)%nat ->
  m2_bond_conv btype n (mk_m2bond (firstn j t)) = m2_bond_conv btype n (mk_m2bond t).
Proof. intros Hj. unfold m2_bond_conv, nth_tok. cbn [mb_toks]. now rewrite !nth_error_firstn_lt by lia. Qed.

Lemma build_last_bond atype btype t j : (4 <= j)%nat ->
  mol2_build atype btype (mk_m2block h atoms (bonds0 ++ [mk_m2bond (firstn j t)])) =
  mol2_build atype btype (mk_m2block h atoms (bonds0 ++ [mk_m2bond t])).
Proof.
  intros Hj. unfold mol2_build. cbn [mk_hdr mk_atoms mk_bonds]. rewrite !map_app. cbn [map].
  now rewrite bond_conv_firstn by exact Hj.
Qed.

Theorem load_mol2_cut_token_boundary atype btype last l' j :
  ~ few_tokens 4 last -> split (strip l') = firstn j (split (strip last)) ->
  (exists e, load_mol2_lines true atype btype (with_last l') = Err e) \/
  load_mol2_lines true atype btype (with_last l') = load_mol2_lines true atype btype (with_last last).
Proof using Hpre Hign Hlm Hh Hst Hla Hna HFa Hlb Hnb HFb.
  intros Hlast Hs. unfold load_mol2_lines, res_bind.
  destruct (le_lt_dec 4 j) as [Hge|Hlt].
  - right. rewrite (read_mol2_last_bond_ok last Hlast).
    assert (Hl' : ~ few_tokens 4 l').
    { unfold few_tokens in *. rewrite Hs, firstn_length. lia. }
    rewrite (read_mol2_last_bond_ok l' Hl'). rewrite !map_app. cbn [map]. rewrite Hs.
    now rewrite build_last_bond by exact Hge.
  - left. destruct (proj1 (read_mol2_last_bond_line l')) as [e E].
    + unfold few_tokens. rewrite Hs, firstn_length. lia.
    + rewrite E. now exists e.
Qed.
End RecordDamage.
