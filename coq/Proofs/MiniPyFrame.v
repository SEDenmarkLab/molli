(* A frame theorem for the object's attributes: a MiniPy program leaves alone every attribute it contains no assignment to.
   Decided syntactically on the translated term ([sets_attr]), so that "put / get / flush never touch self.mode" is re-established
   from the source on every run by [reflexivity]. *)
From Coq Require Import List Bool String.
Import ListNotations.
From Molli Require Import Model.UKV Model.MiniPy.

Fixpoint sets_attr (x : string) (c : stmt) : bool :=
  match c with
  | SSetAttr a _ => String.eqb a x
  | STocSet _ _ => String.eqb "_toc" x
  | SSeq a b => sets_attr x a || sets_attr x b
  | SIf _ a b => sets_attr x a || sets_attr x b
  | SWhile a _ b => sets_attr x a || sets_attr x b
  | SCall _ body | SCallRet _ body => sets_attr x body
  | STryElse a b c => sets_attr x a || sets_attr x b || sets_attr x c
  | _ => false
  end.

(* binding the arguments of a call changes only the locals *)
Lemma bind_args_frame s : forall args acc s0, bind_args s acc args = Val s0 -> file s0 = file acc /\ attrs s0 = attrs acc.
Proof.
  induction args as [|[p e] args IH]; intros acc s0 H; cbn [bind_args] in H; [inversion H; split; reflexivity|].
  destruct (eval s e); [|discriminate]. exact (IH _ _ H).
Qed.

Lemma set_env_other e a v x : String.eqb a x = false -> lookup_env (set_env e a v) x = lookup_env e x.
Proof. intros H. unfold lookup_env, set_env. rewrite H. reflexivity. Qed.

Lemma wloop_frame (Q : state -> state -> Prop) ec eb x
  (Qrefl : forall s, Q s s) (Qtrans : forall a b c, Q a b -> Q b c -> Q a c)
  (Hc : forall s, Q s (fst (ec s))) (Hb : forall s, Q s (fst (eb s))) :
  forall n s, Q s (fst (wloop ec eb x n s)).
Proof.
  induction n as [|n IH]; intros s; cbn [wloop]; [apply Qrefl|].
  pose proof (Hc s) as C. destruct (ec s) as [s1 o]. cbn [fst] in C.
  destruct o; try exact C.
  destruct (lookup_env (locals s1) x) as [v|]; [|exact C].
  destruct (truthy v); [|exact C].
  pose proof (Hb s1) as B. destruct (eb s1) as [s2 o2]. cbn [fst] in B.
  destruct o2; try (eapply Qtrans; [exact C|exact B]).
  eapply Qtrans; [exact C|]. eapply Qtrans; [exact B|]. apply IH.
Qed.

Theorem exec_attr_frame x fuel : forall c s,
  sets_attr x c = false -> lookup_env (attrs (fst (exec fuel c s))) x = lookup_env (attrs s) x.
Proof.
  induction c; intros s0 H; cbn [sets_attr] in H; cbn [exec]; try reflexivity.
  (* SCall, SCallRet: binding the arguments and restoring the caller's locals leave the attributes alone *)
  all: try solve [destruct (bind_args s0 s0 args) as [s1|] eqn:B; [|reflexivity]; pose proof (IHc s1 H) as A;
                  destruct (exec fuel c s1) as [s2 o]; cbn [fst restore_locals attrs] in *;
                  rewrite A, (proj2 (bind_args_frame s0 args s0 s1 B)); reflexivity].
  - (* SSeq *) apply orb_false_iff in H. destruct H as [H1 H2].
    pose proof (IHc1 s0 H1) as A. destruct (exec fuel c1 s0) as [s1 o]. cbn [fst] in A.
    destruct o; try exact A. rewrite (IHc2 s1 H2). exact A.
  - (* SAssign *) destruct (eval s0 e); reflexivity.
  - (* SSetAttr *) destruct (eval s0 e); [|reflexivity]. cbn [fst set_attr attrs]. apply set_env_other. exact H.
  - (* STocSet *) destruct (eval s0 k) as [[]|]; try reflexivity. destruct (eval s0 v) as [[]|]; try reflexivity.
    destruct (lookup_env (attrs s0) "_toc") as [[]|]; try reflexivity. cbn [fst set_attr attrs]. apply set_env_other. exact H.
  - (* SIf *) apply orb_false_iff in H. destruct H as [H1 H2]. destruct (eval s0 c1); [|reflexivity].
    destruct (truthy a); auto.
  - (* SWhile *) apply orb_false_iff in H. destruct H as [H1 H2].
    apply (wloop_frame (fun a b => lookup_env (attrs b) x = lookup_env (attrs a) x)).
    + reflexivity.
    + intros a b c E1 E2. rewrite E2. exact E1.
    + intros s. apply IHc1. exact H1.
    + intros s. apply IHc2. exact H2.
  - (* SReturn *) destruct (eval s0 e); reflexivity.
  - (* SSeek *) destruct (s_closed (strm s0)); [reflexivity|]. destruct (eval s0 e) as [[]|]; reflexivity.
  - (* SSeekRel *) destruct (s_closed (strm s0)); [reflexivity|]. destruct (eval s0 e) as [[]|]; reflexivity.
  - (* SSeekEnd *) destruct (s_closed (strm s0)); reflexivity.
  - (* SRead *) destruct (s_closed (strm s0)); [reflexivity|]. destruct (eval s0 n) as [[]|]; reflexivity.
  - (* SWrite *) destruct (s_closed (strm s0)); [reflexivity|]. destruct (eval s0 e) as [[]|]; try reflexivity.
    destruct (s_wr (strm s0)); reflexivity.
  - (* STruncate *) destruct (s_closed (strm s0)); [reflexivity|]. destruct (eval s0 e) as [[]|]; try reflexivity.
    destruct (s_wr (strm s0)); reflexivity.
  - (* SUnpackRead *) destruct (s_closed (strm s0)); [reflexivity|]. cbn [do_read]. destruct (unpack h _); reflexivity.
  - (* STryElse *) apply orb_false_iff in H. destruct H as [H12 H3]. apply orb_false_iff in H12. destruct H12 as [H1 H2].
    pose proof (IHc1 s0 H1) as A. destruct (exec fuel c1 s0) as [s1 o]. cbn [fst] in A.
    destruct o; try exact A.
    + rewrite (IHc3 s1 H3). exact A.
    + pose proof (IHc2 s1 H2) as B. destruct (exec fuel c2 s1) as [s2 o2]. cbn [fst] in B.
      destruct o2; cbn [fst]; rewrite B; exact A.
Qed.
