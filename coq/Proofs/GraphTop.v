(* C15: from the FIFO specification form (Proofs/Graph.v) to the functions of Model/Graph.v:
   deque refinement, label erasure and shift, and the top-level theorems about yield_bfsd, yield_bfs and
   is_bond_in_ring. *)
From Coq Require Import Arith List Bool Lia Sorted.
From Molli Require Import Model.Graph Proofs.Graph.
Import ListNotations.
Open Scope nat_scope.

Lemma scan_d_news ns : forall d1 visited dq,
  scan_d ns d1 visited dq =
  (rev (news ns visited) ++ visited, rev (map (tag d1) (news ns visited)) ++ dq, map (tag d1) (news ns visited)).
Proof.
  induction ns as [|a ns IH]; intros d1 visited dq; cbn [scan_d news]; [reflexivity|].
  destruct (mem a visited); [apply IH|]. rewrite IH. unfold dq_appendleft. cbn [map rev]. now rewrite <- !app_assoc.
Qed.

Lemma loop_d_bfs : forall fuel g visited dq, loop_d fuel g visited dq = bfs fuel g visited (rev dq).
Proof.
  induction fuel as [|fuel IH]; intros g visited dq; cbn [loop_d]; unfold dq_pop;
    destruct (rev dq) as [|[u d] r]; cbn [bfs]; try reflexivity.
  now rewrite scan_d_news, IH, rev_app_distr, !rev_involutive.
Qed.

Lemma scan_n_scan_d ns : forall d1 visited dq,
  scan_n ns visited (map fst dq) =
  let '(v', dq', out) := scan_d ns d1 visited dq in (v', map fst dq', map fst out).
Proof.
  induction ns as [|a ns IH]; intros d1 visited dq; cbn [scan_n scan_d].
  - reflexivity.
  - destruct (mem a visited) eqn:E.
    + apply IH.
    + unfold dq_appendleft. specialize (IH d1 (a :: visited) ((a, d1) :: dq)). cbn [map fst] in IH.
      rewrite IH. destruct (scan_d ns d1 (a :: visited) ((a, d1) :: dq)) as [[v' dq'] out]. reflexivity.
Qed.

Lemma loop_n_loop_d : forall fuel g visited dq,
  loop_n fuel g visited (map fst dq) = option_map (map fst) (loop_d fuel g visited dq).
Proof.
  induction fuel as [|fuel IH]; intros g visited dq; cbn [loop_n loop_d]; unfold dq_pop; rewrite <- map_rev.
  - destruct (rev dq) as [|[u d] r] eqn:E; reflexivity.
  - destruct (rev dq) as [|[u d] r] eqn:E; cbn [map fst]; [reflexivity|].
    rewrite <- map_rev. rewrite (scan_n_scan_d _ (S d)).
    destruct (scan_d (connected_atoms g u) (S d) visited (rev r)) as [[v' dq'] out].
    rewrite IH. destruct (loop_d fuel g v' dq') as [rest|]; cbn [option_map]; [|reflexivity].
    now rewrite map_app.
Qed.

Theorem yield_bfs_erases g s dir :
  yield_bfs g s dir = match yield_bfsd g s dir with
                      | BOk l => BOk (map fst l) | BAssert => BAssert | BFuel => BFuel end.
Proof.
  unfold yield_bfs, yield_bfsd, dq_append. destruct dir as [d|].
  - destruct (mem d (connected_atoms g s)); [|reflexivity].
    change ([] ++ [d]) with (map fst ([] ++ [(d, 1)])). rewrite loop_n_loop_d.
    destruct (loop_d _ g [d; s] _); reflexivity.
  - change ([] ++ [s]) with (map fst ([] ++ [(s, 0)])). rewrite loop_n_loop_d.
    destruct (loop_d _ g [s] _); reflexivity.
Qed.

(* labels do not steer the traversal: shifting the labels in the queue shifts those of the output *)
Definition lift (k : nat) (p : nat * nat) : nat * nat := (fst p, k + snd p).

Lemma lift_fst k l : map fst (map (lift k) l) = map fst l.
Proof. now rewrite map_map. Qed.
Lemma lift_snd l : map snd (map (lift 1) l) = map S (map snd l).
Proof. now rewrite !map_map. Qed.

Lemma bfs_lift k : forall fuel g visited q,
  bfs fuel g visited (map (lift k) q) = option_map (map (lift k)) (bfs fuel g visited q).
Proof.
  induction fuel as [|fuel IH]; intros g visited [|[u d] q]; try reflexivity. cbn [map lift fst snd bfs].
  assert (E : forall l, map (tag (S (k + d))) l = map (lift k) (map (tag (S d)) l)).
  { intros l. rewrite map_map. apply map_ext. intros a. unfold lift, tag. cbn [fst snd]. now rewrite Nat.add_succ_r. }
  rewrite E, <- map_app, IH. destruct (bfs fuel g _ (q ++ _)) as [out|]; cbn [option_map]; [|reflexivity].
  now rewrite map_app.
Qed.

Lemma in_remove_vertex g x u v : In (u, v) (remove_vertex g x) <-> In (u, v) g /\ u <> x /\ v <> x.
Proof.
  unfold remove_vertex. rewrite filter_In, negb_true_iff, <- not_true_iff_false, bond_has_true. cbn [fst snd]. tauto.
Qed.
Lemma adj_remove_vertex g x u v : adj (remove_vertex g x) u v <-> adj g u v /\ u <> x /\ v <> x.
Proof. unfold adj. rewrite !in_remove_vertex. tauto. Qed.

Lemma in_remove_bond g x y u v :
  In (u, v) (remove_bond g x y) <-> In (u, v) g /\ ~ (u = x /\ v = y) /\ ~ (u = y /\ v = x).
Proof.
  unfold remove_bond. rewrite filter_In, negb_true_iff, <- not_true_iff_false, joins_true. cbn [fst snd]. tauto.
Qed.
Lemma adj_remove_bond g x y u v :
  adj (remove_bond g x y) u v <-> adj g u v /\ ~ (u = x /\ v = y) /\ ~ (u = y /\ v = x).
Proof. unfold adj. rewrite !in_remove_bond. tauto. Qed.

(* the directed traversal blocks the start x, and so explores g with x deleted *)
Lemma remove_vertex_blocked g x :
  (forall u v, adj (remove_vertex g x) u v -> adj g u v /\ ~ In v [x]) /\
  (forall u v, adj g u v -> ~ In u [x] -> ~ In v [x] -> adj (remove_vertex g x) u v).
Proof. split; intros u v; rewrite adj_remove_vertex; cbn [In]; intuition congruence. Qed.

(* what yield_bfsd computes, in terms of the FIFO form: the fuel never runs out, and a directed traversal is
   the traversal from (d, 0) past the blocked start, with every label one more *)
Lemma yield_bfsd_fifo g s dir :
  match dir with
  | None => exists o, bfs (bfs_fuel g) g [s] [(s, 0)] = Some o /\ yield_bfsd g s None = BOk o
  | Some d => if mem d (connected_atoms g s)
              then exists o, bfs (bfs_fuel g) g [d; s] [(d, 0)] = Some o /\
                             yield_bfsd g s (Some d) = BOk (map (lift 1) ((d, 0) :: o))
              else yield_bfsd g s (Some d) = BAssert
  end.
Proof.
  unfold yield_bfsd. destruct dir as [d|]; [destruct (mem d (connected_atoms g s)); [|reflexivity]|];
    rewrite loop_d_bfs; cbn [dq_append app rev].
  - change [(d, 1)] with (map (lift 1) [(d, 0)]). rewrite bfs_lift.
    destruct (bfs (bfs_fuel g) g [d; s] [(d, 0)]) as [o|] eqn:E; [eauto|]. now apply bfs_fuel_enough in E.
  - destruct (bfs (bfs_fuel g) g [s] [(s, 0)]) as [o|] eqn:E; [eauto|]. now apply bfs_fuel_enough in E.
Qed.

(* C15, first clause: every other atom of the component exactly once, in non-decreasing distance,
   with the true shortest-path distance. Holds for every bond list (parallel bonds and self loops
   included). *)
Theorem yield_bfsd_correct g s out : yield_bfsd g s None = BOk out ->
  NoDup (map fst out) /\ ~ In s (map fst out) /\
  StronglySorted le (map snd out) /\
  (forall v, In v (map fst out) <-> reach g s v /\ v <> s) /\
  (forall v d, In (v, d) out -> is_dist g s v d).
Proof.
  destruct (yield_bfsd_fifo g s None) as (o & E & ->). intros [= <-].
  destruct (bfs_blk_correct g g s [] (fun u v H => conj H (fun F => F)) (fun u v H _ _ => H) _ _ (fun F => F) E)
    as (HN & _ & HS & HR & HD).
  cbn [map fst snd] in *. inversion HN; subst. inversion HS; subst.
  split; [assumption|]. split; [assumption|]. split; [assumption|]. split; [|intros v d Hin; apply HD; now right].
  intros v. rewrite HR. cbn [In]. split; [intros Hv; split; [now right|now intros ->]|intros [[<-|Hv] Hn]; [now destruct Hn|exact Hv]].
Qed.

(* the directed call succeeds exactly when the direction is bonded to the start; otherwise the assertion fires *)
Theorem yield_bfsd_dir_defined g s d :
  ((exists out, yield_bfsd g s (Some d) = BOk out) <-> adj g s d) /\
  (yield_bfsd g s (Some d) = BAssert <-> ~ adj g s d).
Proof.
  rewrite <- connected_atoms_adj, <- mem_In. pose proof (yield_bfsd_fifo g s (Some d)) as H. cbv beta iota in H.
  destruct (mem d (connected_atoms g s)).
  - destruct H as (o & _ & ->). split; split; try discriminate; eauto. intros Hn. now destruct Hn.
  - rewrite H. split; split; try discriminate; auto. intros [out [=]].
Qed.

Lemma SS_map_S l : StronglySorted le l -> StronglySorted le (map S l).
Proof.
  induction 1 as [|a l _ IH F]; cbn [map]; constructor; [exact IH|].
  rewrite Forall_map. eapply Forall_impl; [|exact F]. intros; lia.
Qed.

(* C15, second clause: with a direction d (a neighbour of s, d <> s) the traversal yields d first and
   then exactly the atoms that d reaches in the graph with s deleted, each once, labelled 1 + their
   distance from d in that graph, labels non-decreasing. *)
Theorem yield_bfsd_dir_correct g s d out : d <> s -> yield_bfsd g s (Some d) = BOk out ->
  exists rest, out = (d, 1) :: rest /\
  NoDup (map fst out) /\ ~ In s (map fst out) /\
  StronglySorted le (map snd out) /\
  (forall v, In v (map fst out) <-> reach (remove_vertex g s) d v) /\
  (forall v k, In (v, k) out -> exists k0, k = S k0 /\ is_dist (remove_vertex g s) d v k0).
Proof.
  intros Hds. pose proof (yield_bfsd_fifo g s (Some d)) as H. cbv beta iota in H.
  destruct (mem d (connected_atoms g s)); [destruct H as (o & E & ->); intros [= <-]|now rewrite H].
  exists (map (lift 1) o). split; [reflexivity|].
  change (lift 1 (d, 0) :: map (lift 1) o) with (map (lift 1) ((d, 0) :: o)).
  assert (Hblk : ~ In d [s]) by (intros [H|[]]; now apply Hds).
  destruct (remove_vertex_blocked g s) as [Hsub Hsup].
  destruct (bfs_blk_correct g _ d [s] Hsub Hsup _ _ Hblk E) as (HN & Hb & HS & HR & HD).
  rewrite lift_fst, lift_snd.
  split; [exact HN|]. split; [intros Hc; apply (Hb s Hc); now left|]. split; [now apply SS_map_S|].
  split; [intros v; symmetry; apply HR|].
  intros v k Hin. apply in_map_iff in Hin. destruct Hin as [[v' k0] [Ev Hin]]. injection Ev as <- <-. eauto.
Qed.

(* a walk from x either stays at x or leaves x for the last time through some neighbour a, after which
   it never meets x again *)
Lemma last_visit g x v k : walk g x v k ->
  v = x \/ exists a, adj g x a /\ a <> x /\ reach (remove_vertex g x) a v.
Proof.
  intros W. induction W as [|b c k W IH Ha]; [now left|].
  destruct (Nat.eq_dec c x) as [->|Hc]; [now left|right].
  destruct (Nat.eq_dec b x) as [->|Hb].
  - exists c. auto using reach_refl.
  - destruct IH as [->|(a & Hxa & Hax & Hr)]; [contradiction|]. exists a. split; [exact Hxa|]. split; [exact Hax|].
    eapply reach_step; [exact Hr|]. apply adj_remove_vertex. tauto.
Qed.

Theorem is_bond_in_ring_total g x y : adj g x y -> exists r, is_bond_in_ring g (x, y) = Some r.
Proof.
  intros Ha. unfold is_bond_in_ring. cbn [fst snd]. rewrite yield_bfs_erases.
  destruct (proj2 (proj1 (yield_bfsd_dir_defined g x y)) Ha) as [out ->]. eauto.
Qed.

(* C15, third clause. `remove_bond g x y` deletes every bond joining x and y (exactly the bond itself
   in a simple graph), so the right-hand side says: (x, y) is not a bridge. *)
Theorem ring_iff_not_bridge g x y : x <> y -> adj g x y ->
  (is_bond_in_ring g (x, y) = Some true <-> reach (remove_bond g x y) x y).
Proof.
  intros Hxy Ha. unfold is_bond_in_ring. cbn [fst snd]. rewrite yield_bfs_erases.
  destruct (proj2 (proj1 (yield_bfsd_dir_defined g x y)) Ha) as [out E]. rewrite E.
  destruct (yield_bfsd_dir_correct g x y out (fun H => Hxy (eq_sym H)) E) as (rest & _ & _ & _ & _ & Hreach & _).
  set (conns := filter (fun a => negb (a =? y)) (connected_atoms g x)).
  assert (Hconn : forall a, mem a conns = true <-> adj g x a /\ a <> y).
  { intros a. rewrite mem_In. unfold conns. rewrite filter_In, connected_atoms_adj, negb_true_iff, Nat.eqb_neq. tauto. }
  split.
  - intros H. injection H as H. apply existsb_exists in H. destruct H as [a [Hin Hm]].
    apply Hconn in Hm. destruct Hm as [Hxa Hay]. apply Hreach in Hin.
    apply reach_sym. eapply reach_step.
    + eapply reach_mono; [|exact Hin]. intros u v Huv. apply adj_remove_vertex in Huv.
      apply adj_remove_bond. split; [tauto|]. split; intros [? ?]; subst; tauto.
    + apply adj_remove_bond. split; [now apply adj_sym|]. split; intros [? ?]; subst; tauto.
  - intros [k W]. destruct (last_visit _ _ _ _ W) as [->|[a [Hxa [Hax Hr]]]]; [contradiction|].
    apply adj_remove_bond in Hxa. destruct Hxa as [Hxa [Hn1 Hn2]].
    assert (Hay : a <> y) by (intros ->; apply Hn1; split; reflexivity).
    f_equal. apply existsb_exists. exists a. split.
    + apply Hreach. apply reach_sym. eapply reach_mono; [|exact Hr].
      intros u v Huv. apply adj_remove_vertex in Huv. destruct Huv as [Huv [Hu Hv]].
      apply adj_remove_bond in Huv. apply adj_remove_vertex. tauto.
    + apply Hconn. split; assumption.
Qed.
