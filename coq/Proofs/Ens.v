(* C14 -- lemmas about Model/Ens.v under the theorems of Props/C14.v: what each operation keeps of an ensemble (Keeps,
   upd_spec), the inversion of one step and Rect over histories, the iterator invariant, range() and slice arithmetic,
   the io round trip of a rectangular ensemble. *)
From Coq Require Import List Bool Arith ZArith Lia Sorted FinFun.
Import ListNotations.
From Molli Require Import Model.Ens.

Definition Rect (e : ens) : Prop :=
  length (charges e) = length (coords e) /\ length (weights e) = length (coords e) /\
  Forall (fun r => length r = na e) (coords e) /\ Forall (fun r => length r = na e) (charges e).

Definition StoreRect (W : store) : Prop := Forall Rect (enss W).

(* the two shapes the partial functions of the model are written in *)
Lemma guard_some {A} (b : bool) (x : option A) y : (if b then x else None) = Some y -> b = true /\ x = Some y.
Proof. destruct b; [auto|discriminate]. Qed.

Lemma option_map_some {A B} (g : A -> B) x y : option_map g x = Some y -> exists a, x = Some a /\ y = g a.
Proof. destruct x; intros [= <-]; eauto. Qed.

Lemma Forall_repeat {A} (P : A -> Prop) x k : P x -> Forall P (repeat x k).
Proof. intros H. induction k; simpl; constructor; auto. Qed.

Lemma set_nth_length {A} k (x : A) l : length (set_nth k x l) = length l.
Proof. revert k; induction l as [|y l IH]; intros [|k]; simpl; auto. Qed.

Lemma nth_error_set_nth_eq {A} k (x : A) l : k < length l -> nth_error (set_nth k x l) k = Some x.
Proof.
  revert k; induction l as [|y l IH]; intros [|k] H; simpl in *; try lia; auto; try (apply IH; lia).
Qed.

Lemma nth_error_set_nth_neq {A} k j (x : A) l : j <> k -> nth_error (set_nth k x l) j = nth_error l j.
Proof.
  revert k j; induction l as [|y l IH]; intros [|k] [|j] H; simpl in *; auto; try lia; try (apply IH; lia).
Qed.

Lemma Forall_set_nth {A} (P : A -> Prop) k x l : Forall P l -> P x -> Forall P (set_nth k x l).
Proof.
  intros Hl Hx. revert k; induction Hl as [|y l Hy Hl IH]; intros [|k]; simpl; constructor; auto.
Qed.

Lemma set_nth_same {A} k (x : A) l : nth_error l k = Some x -> set_nth k x l = l.
Proof.
  revert k; induction l as [|y l IH]; intros [|k] H; simpl in *; try discriminate; auto.
  - congruence.
  - f_equal; auto.
Qed.

Lemma nth_error_Forall {A} (P : A -> Prop) l k x : Forall P l -> nth_error l k = Some x -> P x.
Proof. rewrite Forall_forall. intros H E. eapply H, nth_error_In, E. Qed.

Lemma nth_error_app_l {A} (l l' : list A) i x : nth_error l i = Some x -> nth_error (l ++ l') i = Some x.
Proof. intros H. rewrite nth_error_app1; auto. apply nth_error_Some. congruence. Qed.

Lemma zipw_length {A B C} (f : A -> B -> C) l1 l2 : length l1 = length l2 -> length (zipw f l1 l2) = length l2.
Proof.
  revert l2; induction l1 as [|a l1 IH]; intros [|b l2] H; simpl in *; try discriminate; auto.
Qed.

Lemma Forall_zipw {A B C} (P : C -> Prop) (Q : B -> Prop) (f : A -> B -> C) l1 l2 :
  (forall a b, Q b -> P (f a b)) -> Forall Q l2 -> Forall P (zipw f l1 l2).
Proof.
  intros Hf Hq. revert l1; induction Hq as [|b l2 Hb Hq IH]; intros [|a l1]; simpl; constructor; auto.
Qed.

Lemma py_index_lt len i j : py_index len i = Some j -> j < len.
Proof.
  unfold py_index. intros H.
  destruct (0 <=? i)%Z eqn:E1; [destruct (i <? Z.of_nat len)%Z eqn:E2|destruct (- Z.of_nat len <=? i)%Z eqn:E3];
    inversion H; lia.
Qed.

Lemma py_index_nat len j : j < len -> py_index len (Z.of_nat j) = Some j.
Proof.
  intros H. unfold py_index.
  destruct (0 <=? Z.of_nat j)%Z eqn:E1; [|lia].
  destruct (Z.of_nat j <? Z.of_nat len)%Z eqn:E2; [|lia]. f_equal. lia.
Qed.

Lemma lens_forallb {A} (a : nat) (l : list (list A)) :
  forallb (fun r => length r =? a) l = true <-> Forall (fun r => length r = a) l.
Proof. rewrite forallb_forall, Forall_forall. split; intros H x Hx; apply Nat.eqb_eq; auto. Qed.

Lemma shape2_spec {A} k a (v : list (list A)) :
  shape2 k a v = true <-> length v = k /\ Forall (fun r => length r = a) v.
Proof. unfold shape2. rewrite andb_true_iff, Nat.eqb_eq, lens_forallb. tauto. Qed.

Lemma upd_row_spec {A} k f (l l' : list (list A)) : upd_row k f l = Some l' ->
  exists j r r', py_index (length l) k = Some j /\ nth_error l j = Some r /\ f r = Some r' /\ l' = set_nth j r' l.
Proof.
  unfold upd_row. intros H.
  destruct (py_index (length l) k) as [j|] eqn:E1; [|discriminate].
  destruct (nth_error l j) as [r|] eqn:E2; [|discriminate].
  destruct (f r) as [r'|] eqn:E3; [|discriminate].
  inversion H; subst. eauto 8.
Qed.

Lemma get_row_spec {A} k (l : list (list A)) r :
  get_row k l = Some r <-> exists j, py_index (length l) k = Some j /\ nth_error l j = Some r.
Proof.
  unfold get_row. destruct (py_index (length l) k) as [j|]; split.
  - eauto.
  - intros (j' & [= <-] & H). exact H.
  - discriminate.
  - intros (j' & E & _). discriminate.
Qed.

Lemma get_row_Forall {A} (P : list A -> Prop) k l r : Forall P l -> get_row k l = Some r -> P r.
Proof. intros F H. apply get_row_spec in H as (j & _ & H). exact (nth_error_Forall P l j r F H). Qed.

(* row k of any nested list is a lens: writing it keeps the number of rows, makes row k read back as written,
   and leaves every other row alone *)
Lemma upd_row_lens {A} k f (l l' : list (list A)) : upd_row k f l = Some l' ->
  length l' = length l /\ (exists r, get_row k l = Some r /\ get_row k l' = f r) /\
  forall k', py_index (length l) k' <> py_index (length l) k -> get_row k' l' = get_row k' l.
Proof.
  intros H. apply upd_row_spec in H as (j & r & r' & E1 & E2 & E3 & ->).
  unfold get_row. rewrite set_nth_length, E1. split; [reflexivity|]. split.
  - exists r. split; [exact E2|]. rewrite E3. apply nth_error_set_nth_eq. exact (py_index_lt _ _ _ E1).
  - intros k' Hne. destruct (py_index (length l) k') as [j'|]; [|reflexivity].
    apply nth_error_set_nth_neq. congruence.
Qed.

Lemma upd_row_same {A} k (l : list (list A)) r : get_row k l = Some r -> upd_row k (fun _ => Some r) l = Some l.
Proof.
  intros H. apply get_row_spec in H as (j & E1 & E2). unfold upd_row. rewrite E1, E2, (set_nth_same j r l E2). reflexivity.
Qed.

Lemma upd_row_Forall {A} (a : nat) k f (l l' : list (list A)) :
  (forall r r', f r = Some r' -> length r = a -> length r' = a) ->
  upd_row k f l = Some l' -> Forall (fun r => length r = a) l -> Forall (fun r => length r = a) l'.
Proof.
  intros Hf H Hl. apply upd_row_spec in H as (j & r & r' & _ & E2 & E3 & ->).
  apply Forall_set_nth; [exact Hl|]. exact (Hf r r' E3 (nth_error_Forall _ l j r Hl E2)).
Qed.

Lemma set_elem_length {A} a (x : A) r r' : set_elem a x r = Some r' -> length r' = length r.
Proof. unfold set_elem. destruct (py_index (length r) a); intros [= <-]. apply set_nth_length. Qed.

Lemma Rect_alloc k a : Rect (alloc k a).
Proof.
  unfold Rect, alloc; simpl. rewrite !repeat_length. repeat split; apply Forall_repeat, repeat_length.
Qed.

Lemma StoreRect_nth W i e : StoreRect W -> nth_error (enss W) i = Some e -> Rect e.
Proof. apply nth_error_Forall. Qed.

(* Every operation other than append / extend leaves the number of atoms and of conformers alone and keeps a
   rectangular ensemble rectangular: it replaces ONE of the three arrays by one of the same shape. *)
Definition Keeps (e e' : ens) : Prop := na e' = na e /\ nc e' = nc e /\ (Rect e -> Rect e').

Lemma Keeps_trans e1 e2 e3 : Keeps e1 e2 -> Keeps e2 e3 -> Keeps e1 e3.
Proof. unfold Keeps. intuition congruence. Qed.

(* The two per-atom arrays of an ensemble are handled alike: `get a` / `put a` are coords / with_coords or charges /
   with_charges, and what holds of both is proved once, by cases on a. *)
Inductive arr := Coords | Charges.
Definition cell (a : arr) : Type := match a with Coords => row3 | Charges => num end.
Definition get (a : arr) : ens -> list (list (cell a)) := match a with Coords => coords | Charges => charges end.
Definition put (a : arr) : ens -> list (list (cell a)) -> ens :=
  match a with Coords => with_coords | Charges => with_charges end.

Lemma put_keeps a e l : length l = length (get a e) ->
  (Forall (fun r => length r = na e) (get a e) -> Forall (fun r => length r = na e) l) -> Keeps e (put a e l).
Proof.
  intros L F. split; [destruct a; reflexivity|]. split; [destruct a; [exact L|reflexivity]|]. intros (H1 & H2 & H3 & H4).
  destruct a; unfold Rect; cbn in *; rewrite L; auto.
Qed.

(* set_all_coords / set_all_charges *)
Lemma set_all_keeps a v e e' :
  (if shape2 (length (get a e)) (na e) v then Some (put a e v) else None) = Some e' -> Keeps e e'.
Proof. intros H. apply guard_some in H as [S [= <-]]. apply shape2_spec in S as [L F]. apply put_keeps; auto. Qed.

Lemma set_all_weights_keeps v e e' : set_all_weights v e = Some e' -> Keeps e e'.
Proof.
  unfold set_all_weights. intros H. apply guard_some in H as [L [= <-]]. apply Nat.eqb_eq in L.
  split; [reflexivity|]. split; [reflexivity|]. intros (H1 & H2 & H3 & H4). unfold Rect; simpl. rewrite L. auto.
Qed.

Lemma map_coords_keeps f e : Keeps e (map_coords f e).
Proof.
  apply (put_keeps Coords e (map (map f) (coords e))); [apply map_length|].
  intros H. apply Forall_map. revert H. apply Forall_impl. intros r <-. apply map_length.
Qed.

Lemma e_scale_keeps f inv e e' : e_scale f inv e = Some e' -> Keeps e e'.
Proof. unfold e_scale. intros H. apply guard_some in H as [_ [= <-]]. apply map_coords_keeps. Qed.

Lemma per_conf_keeps {B} (g : B -> row3 -> row3) ps e e' : per_conf g ps e = Some e' -> Keeps e e'.
Proof.
  unfold per_conf. destruct (length ps =? nc e) eqn:E.
  - intros [= <-]. apply Nat.eqb_eq in E. apply (put_keeps Coords e); [exact (zipw_length _ _ _ E)|].
    apply Forall_zipw. intros p r <-. apply map_length.
  - destruct ps as [|p [|]]; intros [= <-]. apply map_coords_keeps.
Qed.

(* EVERY write through a conformer (whole row, one element, scale / translate / transform of the view) touches
   row k of ONE array of ONE ensemble *)
Definition conf_write (o : op) : option (nat * Z) :=
  match o with
  | ConfSetCoords i k _ | ConfSetCoordElem i k _ _ | ConfSetCharges i k _ | ConfSetChargeElem i k _ _
  | ConfScale i k _ | ConfTranslate i k _ | ConfTransform i k _ => Some (i, k)
  | _ => None
  end.

Definition row_frame (k : Z) (e e' : ens) : Prop :=
  na e' = na e /\ nc e' = nc e /\ weights e' = weights e /\
  forall k', py_index (nc e) k' <> py_index (nc e) k ->
    c_get_coords k' e' = c_get_coords k' e /\ c_get_charges k' e' = c_get_charges k' e.

(* such a write is upd_row on row k of the coordinates, or of the charges, by a function that keeps the length of the row *)
Lemma upd_spec a k f e e' : (forall r r', f r = Some r' -> length r = na e -> length r' = na e) ->
  option_map (put a e) (upd_row k f (get a e)) = Some e' -> Keeps e e' /\ (Rect e -> row_frame k e e').
Proof.
  intros Hf H. apply option_map_some in H as (l & U & ->). destruct (upd_row_lens _ _ _ _ U) as (L & _ & O). split.
  - apply put_keeps; [exact L|exact (upd_row_Forall _ _ _ _ _ Hf U)].
  - intros (R1 & _). destruct a; cbn in *; [|rewrite R1 in O]; (split; [reflexivity|]); (split; [exact L || reflexivity|]);
      (split; [reflexivity|]); intros k' Hk; split; exact (O k' Hk) || reflexivity.
Qed.

Lemma c_map_spec k f e e' : c_map k f e = Some e' -> Keeps e e' /\ (Rect e -> row_frame k e e').
Proof. apply (upd_spec Coords). intros r r' [= <-] <-. apply map_length. Qed.

Lemma conf_write_fun W o i k : conf_write o = Some (i, k) ->
  exists f, ens_fun W o = Some (i, f) /\ forall e e', f e = Some e' -> Keeps e e' /\ (Rect e -> row_frame k e e').
Proof.
  destruct o; intros [= <- <-]; eexists; (split; [reflexivity|]); intros e e' H.
  - (* ConfSetCoords *) apply guard_some in H as [L H]. apply Nat.eqb_eq in L. revert H. apply (upd_spec Coords).
    intros r r' [= <-] _. exact L.
  - (* ConfSetCoordElem *) revert H. apply (upd_spec Coords). intros r0 r' Hr <-. exact (set_elem_length _ _ _ _ Hr).
  - (* ConfSetCharges *) apply guard_some in H as [L H]. apply Nat.eqb_eq in L. revert H. apply (upd_spec Charges).
    intros r r' [= <-] _. exact L.
  - (* ConfSetChargeElem *) revert H. apply (upd_spec Charges). intros r0 r' Hr <-. exact (set_elem_length _ _ _ _ Hr).
  - (* ConfScale *) apply guard_some in H as [_ H]. exact (c_map_spec _ _ _ _ H).
  - exact (c_map_spec _ _ _ _ H).
  - exact (c_map_spec _ _ _ _ H).
Qed.

Lemma c_map_all_keeps ks f : forall e e', c_map_all ks f e = Some e' -> Keeps e e'.
Proof.
  induction ks as [|k r IH]; intros e e' H; simpl in H.
  - injection H as <-. unfold Keeps; auto.
  - destruct (c_map k f e) as [e1|] eqn:E; [|discriminate]. exact (Keeps_trans _ _ _ (proj1 (c_map_spec _ _ _ _ E)) (IH _ _ H)).
Qed.

Lemma ens_fun_keeps W o i f e e' : ens_fun W o = Some (i, f) -> resizing o = false -> f e = Some e' -> Keeps e e'.
Proof.
  intros Ho R Hf. destruct (conf_write o) as [[i' k]|] eqn:C.
  { destruct (conf_write_fun W o i' k C) as (f' & Ho' & K). rewrite Ho in Ho'. injection Ho' as <- <-. exact (proj1 (K e e' Hf)). }
  (* stated under the match, so that each operation leaves its function as the model writes it *)
  revert Hf. enough (K : match ens_fun W o with Some (_, f) => f e = Some e' -> Keeps e e' | None => True end).
  { rewrite Ho in K. exact K. }
  destruct o; try discriminate R; try discriminate C; cbn [ens_fun]; auto; intros H;
    eauto using e_scale_keeps, per_conf_keeps, set_all_weights_keeps.
  - (* Translate1 *) injection H as <-. apply map_coords_keeps.
  - (* Rotate1 *) injection H as <-. apply map_coords_keeps.
  - (* SetCoords *) exact (set_all_keeps Coords _ _ _ H).
  - (* SetCharges *) exact (set_all_keeps Charges _ _ _ H).
  - (* SliceTranslate *) unfold slice_map in H. destruct (slice_ids _ a b c); [|discriminate]. exact (c_map_all_keeps _ _ _ _ H).
Qed.

(* append / extend: two rectangular blocks over the same atoms, one after the other *)
Lemma Rect_app e cs qs ws : Rect e -> Rect (mkEns (na e) cs qs ws) ->
  Rect (mkEns (na e) (coords e ++ cs) (charges e ++ qs) (weights e ++ ws)).
Proof.
  unfold Rect; simpl. intros (H1 & H2 & H3 & H4) (G1 & G2 & G3 & G4). rewrite !app_length.
  repeat split; try lia; apply Forall_app; auto.
Qed.

Lemma e_extend_rect gs e e' : e_extend gs e = Some e' -> na e' = na e /\ (Rect e -> Rect e').
Proof.
  unfold e_extend. destruct gs as [|g0 gs0]; [discriminate|]. remember (g0 :: gs0) as gs.
  intros H. apply guard_some in H as [E [= <-]]. split; [reflexivity|]. intros He. apply (Rect_app e); [exact He|].
  rewrite forallb_forall in E. unfold Rect; simpl. rewrite !map_length, repeat_length. repeat split.
  all: apply Forall_map, Forall_forall; intros g Hg; apply E, andb_true_iff in Hg as [G1 G2]; apply Nat.eqb_eq; assumption.
Qed.

Lemma e_extend_ens_rect o e e' : e_extend_ens o e = Some e' -> na e' = na e /\ (Rect o -> Rect e -> Rect e').
Proof.
  unfold e_extend_ens. intros H. apply guard_some in H as [E [= <-]]. apply Nat.eqb_eq in E.
  split; [reflexivity|]. intros Ho He. apply (Rect_app e); [exact He|]. rewrite <- E. destruct o; exact Ho.
Qed.

Lemma ens_fun_spec W o i f e e' : ens_fun W o = Some (i, f) -> f e = Some e' ->
  na e' = na e /\ (resizing o = false -> nc e' = nc e) /\ (StoreRect W -> Rect e -> Rect e').
Proof.
  intros Ho Hf. destruct (resizing o) eqn:R.
  - enough (X : match ens_fun W o with
                | Some (_, f) => f e = Some e' -> na e' = na e /\ (StoreRect W -> Rect e -> Rect e')
                | None => True
                end).
    { rewrite Ho in X. destruct (X Hf). split; [|split; [discriminate|]]; assumption. }
    clear Ho Hf. destruct o; try discriminate R; cbn [ens_fun]; intros Hf.
    + (* Append *) destruct (resolve W g); [|discriminate]. apply e_extend_rect in Hf. tauto.
    + (* Extend *) destruct (all_some _); [|discriminate]. apply e_extend_rect in Hf. tauto.
    + (* ExtendEns *) destruct (nth_error (enss W) j) as [o|] eqn:E; [|discriminate].
      apply e_extend_ens_rect in Hf as [A B]. split; [exact A|]. intros HW. exact (B (StoreRect_nth _ _ _ HW E)).
  - destruct (ens_fun_keeps W o i f e e' Ho R Hf) as (A & B & C). auto.
Qed.

Lemma opt_apply_rect {A} (x : option A) f e e' :
  (forall v e e', f v e = Some e' -> Keeps e e') -> Rect e -> opt_apply x f e = Some e' -> Rect e'.
Proof.
  intros Hf He H. destruct x as [v|]; simpl in H.
  - apply (Hf v e e' H), He.
  - injection H as <-. exact He.
Qed.

Lemma init_base_rect W src k a e : StoreRect W -> init_base W src k a = CSome e -> Rect e.
Proof.
  intros HW H. destruct src as [|a'|gs|j|g]; cbn [init_base] in H; try (injection H as <-; apply Rect_alloc).
  - destruct (all_some (map (resolve W) gs)) as [[|[c0 q0] rest]|] eqn:E; try discriminate.
    + injection H as <-. apply Rect_alloc.
    + destruct (all_some (map snd ((c0, q0) :: rest))) as [qs|] eqn:E2; try discriminate.
      destruct (set_all_charges qs _) as [e1|] eqn:E3; try discriminate.
      destruct (set_all_coords _ e1) as [e2|] eqn:E4; try discriminate.
      injection H as <-.
      apply (set_all_keeps Coords _ _ _ E4), (set_all_keeps Charges _ _ _ E3), Rect_alloc.
  - destruct (nth_error (enss W) j) as [o|] eqn:E; [|discriminate]. injection H as <-.
    apply (StoreRect_nth _ _ _ HW) in E. destruct o; exact E.
  - destruct (resolve W g) as [[c [q|]]|], k as [[|k']|]; try discriminate; injection H as <-; apply Rect_alloc.
Qed.

Lemma init_rect W src k a xc xq xw e : StoreRect W -> init W src k a xc xq xw = CSome e -> Rect e.
Proof.
  intros HW H. unfold init in H.
  destruct (init_base W src k a) as [e0| |] eqn:E0; try discriminate.
  destruct (opt_apply xc set_all_coords e0) as [e1|] eqn:E1; try discriminate.
  destruct (opt_apply xq set_all_charges e1) as [e2|] eqn:E2; try discriminate.
  destruct (opt_apply xw set_all_weights e2) as [e3|] eqn:E3; try discriminate.
  injection H as <-.
  eapply opt_apply_rect; [apply set_all_weights_keeps| |exact E3].
  eapply opt_apply_rect; [exact (set_all_keeps Charges)| |exact E2].
  eapply opt_apply_rect; [exact (set_all_keeps Coords)| |exact E1].
  exact (init_base_rect _ _ _ _ _ HW E0).
Qed.

Lemma chunk_concat {A} a (rows : list (list A)) : Forall (fun r => length r = a) rows ->
  chunk (length rows) a (concat rows) = rows /\ length (concat rows) = length rows * a.
Proof.
  induction 1 as [|r rows Hr _ [IH1 IH2]]; simpl; auto.
  rewrite app_length, IH2, Hr. split; [|lia].
  rewrite <- Hr at 1 3. rewrite firstn_app, firstn_all, Nat.sub_diag. simpl. rewrite app_nil_r.
  rewrite skipn_app, skipn_all, Nat.sub_diag. simpl. rewrite IH1. reflexivity.
Qed.

Lemma reshape_concat {A} k a (rows : list (list A)) : length rows = k -> Forall (fun r => length r = a) rows ->
  reshape k a (concat rows) = Some rows /\ shape2 k a rows = true.
Proof.
  intros <- F. destruct (chunk_concat a rows F) as [C1 C2]. unfold reshape. rewrite C2, Nat.eqb_refl, C1.
  split; [reflexivity|]. apply shape2_spec. auto.
Qed.

(* molli.chem.io: what comes back is the ensemble that went in *)
Theorem ser_roundtrip_id W e : Rect e -> ser_roundtrip W e = CSome e.
Proof.
  intros (H1 & H2 & H3 & H4). unfold ser_roundtrip.
  destruct (reshape_concat (nc e) (na e) (coords e) eq_refl H3) as [-> SC].
  destruct (reshape_concat (nc e) (na e) (charges e) H1 H4) as [-> SQ].
  unfold init. cbn [init_base opt_apply].
  unfold set_all_coords. cbn [alloc na coords]. rewrite repeat_length, SC.
  unfold set_all_charges. cbn [alloc na coords charges]. rewrite repeat_length, SQ.
  unfold set_all_weights. cbn [alloc na coords charges weights]. rewrite repeat_length, H2. unfold nc. rewrite Nat.eqb_refl.
  destruct e; reflexivity.
Qed.

Lemma ser_roundtrip_rect W e0 e : Rect e0 -> ser_roundtrip W e0 = CSome e -> Rect e.
Proof. intros R H. rewrite (ser_roundtrip_id W e0 R) in H. injection H as <-. exact R. Qed.

(* all operations but New, Serialise, IterNew, IterNext mutate or read one ensemble and take the last branch of step *)
Lemma step_generic W o : ens_fun W o <> None \/ read_fun o <> None -> step W o =
  match ens_fun W o with
  | Some (i, f) =>
      match nth_error (enss W) i with
      | None => Err
      | Some e => if (match o with Append _ _ => atomless_empty e | _ => false end) then Unspec
                  else match f e with Some e' => Ok (set_ens W i e') ONone | None => Err end
      end
  | None => match read_fun o with
            | Some (i, f) => match nth_error (enss W) i with
                             | None => Err
                             | Some e => match f e with Some w => Ok W w | None => Err end
                             end
            | None => Err
            end
  end.
Proof. destruct o; try reflexivity; intros [H|H]; elim H; reflexivity. Qed.

Lemma step_ens W o i f W' w : ens_fun W o = Some (i, f) -> step W o = Ok W' w ->
  exists e e', nth_error (enss W) i = Some e /\ f e = Some e' /\ W' = set_ens W i e'.
Proof.
  intros Ho H. rewrite step_generic, Ho in H by (left; congruence).
  destruct (nth_error (enss W) i) as [e|]; [|discriminate].
  destruct (match o with Append _ _ => atomless_empty e | _ => false end); [discriminate|].
  destruct (f e) as [e'|] eqn:Hf; [|discriminate]. injection H as <- _. eauto.
Qed.

(* what a successful step does to the store: it pushes a new ensemble (rectangular, if the store is), or rewrites one
   ensemble by its ens_fun, or leaves the ensembles alone and moves no iterator but the one asked to advance *)
Inductive step_shape (W : store) (o : op) (W' : store) : Prop :=
| SS_new e : (StoreRect W -> Rect e) -> W' = push_ens W e -> step_shape W o W'
| SS_ens i f e e' : ens_fun W o = Some (i, f) -> nth_error (enss W) i = Some e -> f e = Some e' ->
    W' = set_ens W i e' -> step_shape W o W'
| SS_same : enss W' = enss W ->
    (forall t x, is_next t o = false -> nth_error (iters W) t = Some x -> nth_error (iters W') t = Some x) ->
    step_shape W o W'.

Lemma step_ok_inv W o W' w : step W o = Ok W' w -> step_shape W o W'.
Proof.
  intros H. destruct (ens_fun W o) as [[i f]|] eqn:Ho; [|destruct (read_fun o) as [[i f]|] eqn:Hr].
  - destruct (step_ens _ _ _ _ _ _ Ho H) as (e & e' & He & Hf & ->). exact (SS_ens _ _ _ _ _ _ _ Ho He Hf eq_refl).
  - rewrite step_generic, Ho, Hr in H by (right; congruence).
    destruct (nth_error (enss W) i) as [e|]; [|discriminate].
    destruct (f e); [|discriminate]. injection H as <- _. apply SS_same; auto.
  - destruct o; try discriminate; cbn [step] in H.
    + (* New *) destruct (init W src nc_arg na_arg xc xq xw) as [e| |] eqn:E; try discriminate. injection H as <- _.
      exact (SS_new _ _ _ e (fun HW => init_rect _ _ _ _ _ _ _ _ HW E) eq_refl).
    + (* Serialise *) destruct (nth_error (enss W) i) as [e0|] eqn:E0; try discriminate.
      destruct (ser_roundtrip W e0) as [e| |] eqn:E; try discriminate. injection H as <- _.
      exact (SS_new _ _ _ e (fun HW => ser_roundtrip_rect _ _ _ (StoreRect_nth _ _ _ HW E0) E) eq_refl).
    + (* IterNew *) destruct (nth_error (enss W) i); try discriminate. injection H as <- _.
      apply SS_same; [reflexivity|]. intros t x _ Hx. exact (nth_error_app_l _ _ _ _ Hx).
    + (* IterNext *) destruct (nth_error (iters W) t) as [[i c]|]; try discriminate.
      destruct (nth_error (enss W) i) as [e|]; try discriminate.
      destruct (c <? nc e); injection H as <- _; apply SS_same; auto.
      intros t0 x Hn Hx. cbn. rewrite nth_error_set_nth_neq; [exact Hx|].
      intros ->. cbn in Hn. rewrite Nat.eqb_refl in Hn. discriminate.
Qed.

Lemma StoreRect_push W e : StoreRect W -> Rect e -> StoreRect (push_ens W e).
Proof. unfold StoreRect, push_ens; simpl. intros H He. apply Forall_app; split; auto. Qed.

Theorem step_rect W o W' w : StoreRect W -> step W o = Ok W' w -> StoreRect W'.
Proof.
  intros HW H. apply step_ok_inv in H. destruct H as [e He -> | i f e e' Ho He Hf -> | He _].
  - exact (StoreRect_push _ _ HW (He HW)).
  - apply Forall_set_nth; [exact HW|]. apply (ens_fun_spec W o i f e e' Ho Hf); [exact HW|]. exact (StoreRect_nth _ _ _ HW He).
  - unfold StoreRect. rewrite He. exact HW.
Qed.

Theorem run_rect h : forall W W', StoreRect W -> run W h = Some W' -> StoreRect W'.
Proof.
  induction h as [|o r IH]; intros W W' HW H; simpl in H.
  - injection H as <-. exact HW.
  - destruct (step W o) as [W1 w| |] eqn:E; try discriminate.
    + exact (IH _ _ (step_rect _ _ _ _ HW E) H).
    + exact (IH _ _ HW H).
Qed.

Lemma run_check_sound steps : forall W, run_check W steps = true -> StoreRect W ->
  exists W', run W (map fst steps) = Some W' /\ StoreRect W'.
Proof.
  induction steps as [|[o ob] r IH]; intros W H HW; simpl in *.
  - eauto.
  - destruct (step W o) as [W1 w| |] eqn:E; try discriminate; apply andb_true_iff in H as [_ H]; apply IH; auto.
    exact (step_rect _ _ _ _ HW E).
Qed.

(* c_set_coords / c_set_charges: assigning a whole row through ens[k] is upd_row on one array; with upd_row_lens this
   gives the lens laws *)
Definition c_set a k (v : list (cell a)) e : option ens :=
  if length v =? na e then option_map (put a e) (upd_row k (fun _ => Some v) (get a e)) else None.

Lemma c_set_inv a k v e e' : c_set a k v e = Some e' ->
  exists l, upd_row k (fun _ => Some v) (get a e) = Some l /\ e' = put a e l.
Proof. intros H. apply guard_some in H as [_ H]. exact (option_map_some _ _ _ H). Qed.

Theorem lens_set_get a k v e : Rect e -> get_row k (get a e) = Some v -> c_set a k v e = Some e.
Proof.
  intros R H. assert (F : Forall (fun r => length r = na e) (get a e)) by (destruct a; apply R). unfold c_set.
  rewrite (get_row_Forall _ _ _ _ F H), Nat.eqb_refl, (upd_row_same _ _ _ H). destruct a, e; reflexivity.
Qed.

Lemma drain_seq fuel : forall cur len, len - cur <= fuel -> drain fuel cur len = seq cur (len - cur).
Proof.
  induction fuel as [|f IH]; intros cur len H; simpl.
  - replace (len - cur) with 0 by lia. reflexivity.
  - destruct (Nat.ltb_spec cur len) as [E|E].
    + rewrite IH by lia. replace (len - cur) with (S (len - S cur)) by lia. reflexivity.
    + replace (len - cur) with 0 by lia. reflexivity.
Qed.

Theorem for_ids_seq len : for_ids len = seq 0 len.
Proof. unfold for_ids. rewrite drain_seq by lia. f_equal. lia. Qed.

Lemma flat_map_prod {A B} (l : list A) (l' : list B) : flat_map (fun a => map (pair a) l') l = list_prod l l'.
Proof. induction l as [|x l IH]; simpl; auto. rewrite IH. reflexivity. Qed.

Theorem nested_ids_prod len : nested_ids len = list_prod (seq 0 len) (seq 0 len).
Proof. unfold nested_ids. rewrite for_ids_seq. apply flat_map_prod. Qed.

(* shared_inner / shared_outer (one cursor stored on the ensemble): the inner loop runs the shared cursor to the end *)
Lemma shared_inner_spec fuel : forall cur len a acc, len - cur <= fuel ->
  shared_inner fuel cur len a acc = (acc ++ map (pair a) (seq cur (len - cur)), Nat.max cur len).
Proof.
  induction fuel as [|f IH]; intros cur len a acc H; cbn [shared_inner].
  - replace (len - cur) with 0 by lia. rewrite Nat.max_l by lia. cbn [seq map]. rewrite app_nil_r. reflexivity.
  - destruct (Nat.ltb_spec cur len) as [E|E].
    + rewrite IH by lia. rewrite !Nat.max_r by lia.
      replace (len - cur) with (S (len - S cur)) by lia. cbn [seq map]. rewrite <- app_assoc. reflexivity.
    + replace (len - cur) with 0 by lia. rewrite Nat.max_l by lia. cbn [seq map]. rewrite app_nil_r. reflexivity.
Qed.

Theorem nested_ids_shared_spec len : nested_ids_shared len = map (pair 0) (seq 0 len).
Proof.
  unfold nested_ids_shared. destruct len as [|m]; [reflexivity|].
  cbn [shared_outer]. replace (0 <? S m) with true by reflexivity.
  rewrite shared_inner_spec by lia. rewrite Nat.sub_0_r, Nat.max_0_l. simpl app.
  destruct m as [|m']; cbn [shared_outer]; rewrite Nat.ltb_irrefl; reflexivity.
Qed.

Definition IterAt (W : store) (t i c len : nat) : Prop :=
  nth_error (iters W) t = Some (i, c) /\ exists e, nth_error (enss W) i = Some e /\ nc e = len.

Definition count_next (t : nat) (h : list op) : nat := length (filter (is_next t) h).
Definition no_resize (h : list op) : Prop := Forall (fun o => resizing o = false) h.

(* next() on the iterator itself: yields the cursor and advances it, or stops *)
Lemma IterAt_next W t i c len : IterAt W t i c len ->
  step W (IterNext t) = if c <? len then Ok (mkStore (enss W) (set_nth t (i, S c) (iters W))) (OYield (Some c))
                        else Ok W (OYield None).
Proof. intros [Ht (e & He & <-)]. cbn [step]. rewrite Ht, He. reflexivity. Qed.

Lemma IterAt_advance W t i c len : IterAt W t i c len ->
  IterAt (mkStore (enss W) (set_nth t (i, S c) (iters W))) t i (S c) len.
Proof. intros [Ht He]. split; [|exact He]. apply nth_error_set_nth_eq, nth_error_Some. congruence. Qed.

(* append / extend onto ensemble i *)
Definition resizes (i : nat) (o : op) : bool :=
  match o with Append j _ | Extend j _ | ExtendEns j _ => j =? i | _ => false end.

Lemma resizes_own W o i f : ens_fun W o = Some (i, f) -> resizes i o = resizing o.
Proof. destruct o; try reflexivity; cbn; intros [= <- _]; apply Nat.eqb_refl. Qed.

(* no other step that succeeds moves the iterator, and none but append / extend onto its own ensemble changes the
   size of that *)
Lemma IterAt_step W o W' w t i c len : IterAt W t i c len -> resizes i o = false -> is_next t o = false ->
  step W o = Ok W' w -> IterAt W' t i c len.
Proof.
  intros [Ht (e0 & He0 & Hn)] Hr Hnx H. apply step_ok_inv in H. destruct H as [e _ -> | i0 f e e' Ho He Hf -> | He Hi].
  - split; [exact Ht|]. exists e0. split; [exact (nth_error_app_l _ _ _ _ He0)|exact Hn].
  - split; [exact Ht|]. cbn. destruct (Nat.eq_dec i i0) as [->|Hne].
    + exists e'. split; [apply nth_error_set_nth_eq, nth_error_Some; congruence|].
      destruct (ens_fun_spec W o i0 f e e' Ho Hf) as (_ & F & _). rewrite (resizes_own _ _ _ _ Ho) in Hr. rewrite (F Hr). congruence.
    + exists e0. rewrite nth_error_set_nth_neq by exact Hne. auto.
  - split; [exact (Hi t _ Hnx Ht)|]. rewrite He. eauto.
Qed.

Lemma yield_of_other t o w : is_next t o = false ->
  match o, w with
  | IterNext t', OYield (Some k) => if t' =? t then [k] else []
  | _, _ => []
  end = [].
Proof. destruct o; try reflexivity. cbn. intros ->. destruct w as [|[k|]| | | | |]; reflexivity. Qed.

(* an iterator standing at cursor c over an ensemble of `len` conformers: whatever else happens in between
   (other iterators advancing, writes, transforms, new ensembles, dumps, OTHER ensembles growing -- anything that does
   not resize the ensemble it runs over), its k-th next() from now on yields c + k, until len is reached, and then it
   stops *)
Theorem iter_interleaved_own h : forall W Wf t i c len,
  IterAt W t i c len -> Forall (fun o => resizes i o = false) h -> run W h = Some Wf ->
  iter_yields t W h = firstn (count_next t h) (seq c (len - c)).
Proof.
  induction h as [|o r IH]; intros W Wf t i c len HI Hn Hrun; [reflexivity|].
  inversion Hn as [|? ? Ho Hr]; subst. unfold count_next. cbn [iter_yields run filter] in *.
  destruct (is_next t o) eqn:En.
  - destruct o; try discriminate En. cbn in En. rewrite En. apply Nat.eqb_eq in En as ->.
    rewrite (IterAt_next _ _ _ _ _ HI) in *. destruct (c <? len) eqn:Ec.
    + apply Nat.ltb_lt in Ec. rewrite (IH _ Wf t i (S c) len (IterAt_advance _ _ _ _ _ HI) Hr Hrun).
      replace (len - c) with (S (len - S c)) by lia. reflexivity.
    + apply Nat.ltb_ge in Ec. rewrite (IH W Wf t i c len HI Hr Hrun).
      replace (len - c) with 0 by lia. cbn [seq]. rewrite !firstn_nil. reflexivity.
  - destruct (step W o) as [W1 w| |] eqn:E; try discriminate.
    + rewrite (yield_of_other t o w En). exact (IH W1 Wf t i c len (IterAt_step _ _ _ _ _ _ _ _ HI Ho En E) Hr Hrun).
    + exact (IH W Wf t i c len HI Hr Hrun).
Qed.

Lemma zip_rows_rect cs : forall qs, length qs = length cs -> zip_rows cs qs = Some (zipw (@combine row3 num) cs qs).
Proof.
  induction cs as [|c cs IH]; intros [|q qs] H; simpl in *; try discriminate; auto.
  rewrite IH by lia. reflexivity.
Qed.

Theorem conf_view_full e k j : Rect e -> py_index (nc e) k = Some j ->
  exists c q, c_get_coords k e = Some c /\ c_get_charges k e = Some q /\ length c = na e /\ length q = na e.
Proof.
  intros (H1 & _ & H3 & H4) Hk. unfold nc in Hk. pose proof (py_index_lt _ _ _ Hk) as Hj.
  destruct (nth_error (coords e) j) as [c|] eqn:Ec; [|apply nth_error_None in Ec; lia].
  destruct (nth_error (charges e) j) as [q|] eqn:Eq; [|apply nth_error_None in Eq; lia].
  exists c, q. unfold c_get_coords, c_get_charges, get_row. rewrite H1, Hk.
  split; [exact Ec|]. split; [exact Eq|]. split; [exact (nth_error_Forall _ _ _ _ H3 Ec)|exact (nth_error_Forall _ _ _ _ H4 Eq)].
Qed.

Lemma adj_bounds len lower upper x : (0 <= len)%Z ->
  (lower = 0 /\ upper = len)%Z \/ (lower = -1 /\ upper = len - 1)%Z ->
  (lower <= adj len lower upper x <= upper)%Z.
Proof. intros Hl H. unfold adj. destruct (x <? 0)%Z eqn:E; lia. Qed.

(* the arithmetic of range(): index j is in range iff lo + j*st lies before hi in the direction of the step;
   a negative step is the positive one on the negated bounds *)
Lemma range_len_pos lo hi st j : (0 < st)%Z -> (0 <= j)%Z -> (j < range_len lo hi st <-> lo + j * st < hi)%Z.
Proof.
  intros Hs Hj. unfold range_len. destruct (0 <? st)%Z eqn:E; [|lia]. destruct (lo <? hi)%Z eqn:E2; [|nia].
  split; intros H.
  - assert (st * ((hi - lo - 1) / st) <= hi - lo - 1)%Z by (apply Z.mul_div_le; lia). nia.
  - assert (j <= (hi - lo - 1) / st)%Z by (apply Z.div_le_lower_bound; nia). lia.
Qed.

Lemma range_len_neg lo hi st : (st < 0)%Z -> range_len lo hi st = range_len (- lo) (- hi) (- st).
Proof.
  intros Hs. unfold range_len. destruct (0 <? st)%Z eqn:E1; [lia|]. destruct (0 <? - st)%Z eqn:E2; [|lia].
  replace (- lo <? - hi)%Z with (hi <? lo)%Z by lia. replace (- hi - - lo - 1)%Z with (lo - hi - 1)%Z by lia. reflexivity.
Qed.

(* range(lo, hi, st) holds exactly lo, lo+st, lo+2st, ... strictly before hi (in the direction of st) *)
Lemma py_range_In lo hi st x : st <> 0%Z ->
  In x (py_range lo hi st) <->
  exists j : nat, x = (lo + Z.of_nat j * st)%Z /\ ((0 < st /\ x < hi) \/ (st < 0 /\ hi < x))%Z.
Proof.
  intros Hne.
  assert (R : forall j : nat, In j (seq 0 (Z.to_nat (range_len lo hi st))) <->
              ((0 < st /\ lo + Z.of_nat j * st < hi) \/ (st < 0 /\ hi < lo + Z.of_nat j * st))%Z).
  { intros j. rewrite in_seq. pose proof (Nat2Z.is_nonneg j) as Hj. destruct (Z_lt_le_dec 0 st) as [Hs|Hs].
    - pose proof (range_len_pos lo hi st _ Hs Hj). lia.
    - assert (Hs' : (0 < - st)%Z) by lia. rewrite range_len_neg by lia.
      pose proof (range_len_pos (- lo) (- hi) (- st) _ Hs' Hj). lia. }
  unfold py_range. rewrite in_map_iff. split.
  - intros (j & <- & Hj). exists j. split; [reflexivity|]. apply R, Hj.
  - intros (j & -> & Hj). exists j. split; [reflexivity|]. apply R, Hj.
Qed.

Lemma sorted_map_seq {A} (R : A -> A -> Prop) (g : nat -> A) n : forall s,
  (forall i j, i < j -> R (g i) (g j)) -> StronglySorted R (map g (seq s n)).
Proof.
  induction n as [|n IH]; intros s H; simpl; constructor; auto.
  apply Forall_forall. intros y Hy. apply in_map_iff in Hy as (j & <- & Hj). apply in_seq in Hj. apply H. lia.
Qed.

Lemma py_range_sorted lo hi st : st <> 0%Z ->
  StronglySorted (fun x y => if (0 <? st)%Z then (x < y)%Z else (y < x)%Z) (py_range lo hi st).
Proof.
  intros Hne. unfold py_range. apply sorted_map_seq. intros i j Hij. destruct (0 <? st)%Z eqn:E; nia.
Qed.

Lemma py_range_NoDup lo hi st : st <> 0%Z -> NoDup (py_range lo hi st).
Proof.
  intros Hne. unfold py_range. apply Injective_map_NoDup; [|apply seq_NoDup].
  intros i j H. assert (Z.of_nat i * st = Z.of_nat j * st)%Z as H' by lia. apply Z.mul_reg_r in H'; [lia|exact Hne].
Qed.

(* ens[a:b:c] is range() over the bounds slice.indices clips into the direction of the step *)
Lemma slice_ids_inv len a b c ids : slice_ids len a b c = Some ids ->
  exists lo hi st, slice_indices (Z.of_nat len) a b c = Some (lo, hi, st) /\ ids = py_range lo hi st /\
    ((0 < st /\ 0 <= lo /\ hi <= Z.of_nat len) \/ (st < 0 /\ lo < Z.of_nat len /\ -1 <= hi))%Z.
Proof.
  unfold slice_ids. destruct (slice_indices (Z.of_nat len) a b c) as [[[lo hi] st]|] eqn:E; intros [= <-].
  exists lo, hi, st. split; [reflexivity|]. split; [reflexivity|].
  unfold slice_indices in E. set (s := match c with Some s => s | None => 1%Z end) in E.
  destruct (s =? 0)%Z eqn:E0; [discriminate|]. injection E as <- <- <-.
  assert (Hl : (0 <= Z.of_nat len)%Z) by lia. destruct (s <? 0)%Z eqn:En; [right|left]; (split; [lia|]).
  - pose proof (fun x => adj_bounds (Z.of_nat len) (-1) (Z.of_nat len - 1) x Hl (or_intror (conj eq_refl eq_refl))) as B.
    destruct a as [a0|], b as [b0|]; try pose proof (B a0); try pose proof (B b0); lia.
  - pose proof (fun x => adj_bounds (Z.of_nat len) 0 (Z.of_nat len) x Hl (or_introl (conj eq_refl eq_refl))) as B.
    destruct a as [a0|], b as [b0|]; try pose proof (B a0); try pose proof (B b0); lia.
Qed.

Theorem slice_ids_in_range len a b c ids x : slice_ids len a b c = Some ids -> In x ids ->
  (0 <= x < Z.of_nat len)%Z.
Proof.
  intros H Hx. apply slice_ids_inv in H as (lo & hi & st & _ & -> & B).
  apply py_range_In in Hx as (j & -> & Hx); [nia|lia].
Qed.

Lemma map_of_nat_shift n : forall a s,
  map (fun j => (Z.of_nat a + Z.of_nat j)%Z) (seq s n) = map Z.of_nat (seq (a + s) n).
Proof.
  induction n as [|n IH]; intros a s; simpl; [reflexivity|]. f_equal; [lia|]. rewrite IH, Nat.add_succ_r. reflexivity.
Qed.

Lemma range_len_1 lo hi : range_len lo hi 1 = Z.max 0 (hi - lo).
Proof.
  unfold range_len. change (0 <? 1)%Z with true. cbv iota. destruct (lo <? hi)%Z eqn:E; [rewrite Z.div_1_r|]; lia.
Qed.

Lemma py_range_1 lo hi : (0 <= lo)%Z ->
  py_range lo hi 1 = map Z.of_nat (seq (Z.to_nat lo) (Z.to_nat (hi - lo))).
Proof.
  intros Hlo. unfold py_range. rewrite range_len_1. replace (Z.to_nat (Z.max 0 (hi - lo))) with (Z.to_nat (hi - lo)) by lia.
  transitivity (map (fun j => (Z.of_nat (Z.to_nat lo) + Z.of_nat j)%Z) (seq 0 (Z.to_nat (hi - lo)))).
  - apply map_ext. intros j. lia.
  - rewrite map_of_nat_shift, Nat.add_0_r. reflexivity.
Qed.

Lemma down_rev n : map (fun j => (Z.of_nat n - 1 - Z.of_nat j)%Z) (seq 0 n) = rev (map Z.of_nat (seq 0 n)).
Proof.
  induction n as [|n IH]; [reflexivity|].
  rewrite (seq_S n 0) at 2. rewrite map_app, rev_app_distr.
  change (rev (map Z.of_nat [0 + n])) with [Z.of_nat n]. change ([Z.of_nat n] ++ ?x) with (Z.of_nat n :: x).
  rewrite <- IH. change (seq 0 (S n)) with (0 :: seq 1 n). rewrite <- seq_shift, map_cons, map_map.
  f_equal; [lia|]. apply map_ext. intros j. lia.
Qed.

(* ens[::-1] : every conformer, in reverse order *)
Theorem slice_reversed len : slice_ids len None None (Some (-1)%Z) = Some (rev (map Z.of_nat (seq 0 len))).
Proof.
  unfold slice_ids, slice_indices. change (-1 =? 0)%Z with false. change (-1 <? 0)%Z with true. cbv iota.
  assert (N : Z.to_nat (range_len (Z.of_nat len - 1) (-1) (-1)) = len)
    by (rewrite range_len_neg by lia; change (- -1)%Z with 1%Z; rewrite range_len_1; lia).
  unfold py_range. rewrite N, <- down_rev. f_equal. apply map_ext. intros j. lia.
Qed.

(* a slice without a step is the block of conformers between its clipped bounds: ens[:], ens[:k], ens[k:], ens[-k:],
   ens[:-k] are read off with adj_nat / adj_neg *)
Lemma slice_ids_fwd len a b : slice_ids len a b None =
  let L := Z.of_nat len in
  let lo := match a with None => 0%Z | Some x => adj L 0 L x end in
  let hi := match b with None => L | Some x => adj L 0 L x end in
  Some (map Z.of_nat (seq (Z.to_nat lo) (Z.to_nat (hi - lo)))).
Proof.
  cbv zeta. rewrite <- py_range_1; [reflexivity|]. destruct a; [apply adj_bounds|]; lia.
Qed.

Lemma adj_nat len k : adj (Z.of_nat len) 0 (Z.of_nat len) (Z.of_nat k) = Z.of_nat (Nat.min k len).
Proof. unfold adj. destruct (Z.of_nat k <? 0)%Z eqn:E; lia. Qed.

Lemma adj_neg len k : 0 < k -> adj (Z.of_nat len) 0 (Z.of_nat len) (- Z.of_nat k) = Z.of_nat (len - k).
Proof. intros Hk. unfold adj. destruct (- Z.of_nat k <? 0)%Z eqn:E; lia. Qed.

Lemma c_map_row k f e : (0 <= k < Z.of_nat (nc e))%Z ->
  exists cs, c_map k f e = Some (with_coords e cs) /\ length cs = nc e /\
    forall j, nth_error cs j =
              if (Z.of_nat j =? k)%Z then option_map (map f) (nth_error (coords e) j) else nth_error (coords e) j.
Proof.
  intros Bk. unfold nc in Bk. set (j0 := Z.to_nat k).
  assert (P : py_index (length (coords e)) k = Some j0) by (rewrite <- (Z2Nat.id k) by lia; apply py_index_nat; lia).
  destruct (nth_error (coords e) j0) as [r0|] eqn:E0; [|apply nth_error_None in E0; lia].
  exists (set_nth j0 (map f r0) (coords e)). unfold c_map, upd_row. rewrite P, E0.
  split; [reflexivity|]. split; [apply set_nth_length|]. intros j. destruct (Z.of_nat j =? k)%Z eqn:Ej.
  - assert (j = j0) as -> by lia. rewrite E0. apply nth_error_set_nth_eq, nth_error_Some. congruence.
  - apply nth_error_set_nth_neq. lia.
Qed.

(* `for conf in <the views of rows ks>: conf.<transform f>`: only the coordinates change, and row j is transformed as
   often as ks lists it *)
Lemma c_map_all_rows f ks : forall e, (forall k, In k ks -> (0 <= k < Z.of_nat (nc e))%Z) ->
  exists cs, c_map_all ks f e = Some (with_coords e cs) /\ length cs = nc e /\
    forall j, nth_error cs j = option_map (Nat.iter (count_occ Z.eq_dec ks (Z.of_nat j)) (map f)) (nth_error (coords e) j).
Proof.
  induction ks as [|k r IH]; intros e Hb.
  - exists (coords e). split; [destruct e; reflexivity|]. split; [reflexivity|].
    intros j. cbn. destruct (nth_error (coords e) j); reflexivity.
  - destruct (c_map_row k f e (Hb k (or_introl eq_refl))) as (cs1 & C & L1 & A).
    destruct (IH (with_coords e cs1)) as (cs & R & L & B).
    { intros k' Hk'. unfold nc; cbn. rewrite L1. apply Hb. right. exact Hk'. }
    exists cs. cbn [c_map_all]. rewrite C. split; [exact R|]. split; [rewrite L; exact L1|].
    intros j. rewrite B. cbn [coords with_coords]. rewrite A. cbn [count_occ].
    destruct (Z.eq_dec k (Z.of_nat j)) as [->|Hne].
    + rewrite Z.eqb_refl. destruct (nth_error (coords e) j); cbn [option_map]; [unfold Nat.iter; rewrite nat_rect_succ_r|]; reflexivity.
    + destruct (Z.eqb_spec (Z.of_nat j) k); [congruence|reflexivity].
Qed.

(* The two recorded findings (the regions where `step` is Unspec), as molli/chem/ensemble.py computes them. *)
(* append onto ConformerEnsemble() (shape (0, 0, 3)): the geometry's coordinate block is adopted as it is *)
Definition append_atomless_as_coded (c : list row3) (q : list num) (e : ens) : ens := mkEns (na e) [c] [q] [n 1].

(* ConformerEnsemble(molecule, n_conformers=0): `n_conformers or 1` *)
Definition ctor_mol_zero_as_coded (a : nat) : ens := alloc (if 0 =? 0 then 1 else 0) a.

