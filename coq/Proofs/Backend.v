(* C02, collection level, for every buffer size: inside a writing session a flush of valid buffered puts writes them all, a
   failing flush writes exactly the puts before the doomed one, every listed key is readable, items() is the abstract map. *)
From Coq Require Import ZArith NArith List Bool Lia.
Import ListNotations.
From Molli Require Import Model.UKV Proofs.UKVBase Proofs.UKV Model.Backend.
From Molli Require Import Common.ListFacts.
Open Scope N_scope.

(* the state of a backend inside a writing session whose buffered puts are all going to succeed:
   fresh distinct keys, sizes within the block-header limits *)
Record BInv (H : bytes) (rs : list kv) (f : bytes) (b : backend) : Prop := {
  bi_file : f = H ++ blocks rs;
  bi_hdr : hdr_ok H;
  bi_wf : Forall wfkv rs;
  bi_full : full H rs (uk b);
  bi_open : closed (uk b) = false;
  bi_mode : md (uk b) = MA;
  bi_has : has_uk b = true;
  bi_qwf : Forall wfkv (queue b);
  bi_nodup : NoDup (map fst (rs ++ queue b));
  bi_listed : forall k, In k (bkeys b) -> In k (map fst (rs ++ queue b));
  bi_writing : st b = SWriting
}.

Lemma existsb_beq s k : existsb (beq k) s = true <-> In k s.
Proof. apply existsb_eqb_In. intros a b. split; [apply beq_eq|intros <-; apply beq_refl]. Qed.

Lemma set_add_in s k x : In x (set_add s k) <-> In x s \/ x = k.
Proof.
  unfold set_add. destruct (existsb (beq k) s) eqn:E.
  - apply existsb_beq in E. split; [auto|intros [Hx| ->]; assumption].
  - rewrite in_app_iff. simpl. intuition.
Qed.

Lemma assoc_existsb q k : existsb (fun p => beq k (fst p)) q = match assoc q k with Some _ => true | None => false end.
Proof. induction q as [|p q IH]; simpl; [|destruct (beq k (fst p))]; auto. Qed.

Lemma assoc_in_keys rs k : In k (map fst rs) -> exists v, assoc rs k = Some v.
Proof.
  intros Hin. destruct (assoc rs k) as [v|] eqn:E; [exists v; reflexivity|].
  apply assoc_none_iff in E. contradiction.
Qed.

(* the loop of flush on a queue that begins with valid puts [good] (fresh distinct keys, legal sizes): every one of
   them is written, in order, and the loop goes on with the rest of the queue *)
Lemma flush_loop_good H ks u bs r s q : forall (good : list (bytes * bytes)) fuel rs h,
  full H rs h -> closed h = false -> md h = MA -> Forall wfkv good -> NoDup (map fst (rs ++ good)) ->
  exists h', flush_loop (length good + fuel) (H ++ blocks rs) (mkb h true (good ++ q) ks u bs r s) =
             flush_loop fuel (H ++ blocks (rs ++ good)) (mkb h' true q ks u bs r s)
             /\ full H (rs ++ good) h' /\ closed h' = false /\ md h' = MA.
Proof.
  induction good as [|[k v] good IH]; intros fuel rs h Hfull Hc Hm Hq Hnd.
  - exists h. rewrite app_nil_r. auto.
  - inversion Hq as [|x l Hkv Hq']; subst x l.
    assert (Ha : assoc rs k = None).
    { apply assoc_none_iff. rewrite map_app in Hnd. apply NoDup_remove_2 in Hnd. rewrite in_app_iff in Hnd. tauto. }
    destruct (put_ok H rs h k v Hfull Hc Hm Ha (proj2 (wfb_wfkv k v) Hkv)) as [h1 [Ep [Hf1 [Hm1 Hc1]]]].
    destruct (IH fuel _ h1 Hf1 Hc1 Hm1 Hq') as [h' [E R]]; [rewrite <- app_assoc; exact Hnd|].
    rewrite <- app_assoc in E, R. exists h'. split; [|exact R].
    cbn [length Nat.add app flush_loop queue has_uk negb uk]. rewrite Ep. exact E.
Qed.

Lemma flush_valid H rs f b : BInv H rs f b ->
  exists b', flush f b = (H ++ blocks (rs ++ queue b), b', None) /\ queue b' = [] /\ bkeys b' = bkeys b /\
             BInv H (rs ++ queue b) (H ++ blocks (rs ++ queue b)) b'.
Proof.
  intros I. destruct b as [h hu q ks u bs r s]. destruct I as [-> Hh Hwf Hfull Hc Hm Hhas Hq Hnd Hl Hw]. simpl in *. subst hu.
  destruct (flush_loop_good H ks u bs r s [] q 1%nat rs h Hfull Hc Hm Hq Hnd) as [h' [E [A [B C]]]].
  rewrite app_nil_r, Nat.add_1_r in E. unfold flush. cbn [queue]. rewrite E. eexists. do 3 (split; [reflexivity|]).
  constructor; simpl; try assumption; try reflexivity.
  - apply Forall_app. split; assumption.
  - constructor.
  - rewrite app_nil_r. exact Hnd.
  - rewrite app_nil_r. exact Hl.
Qed.

(* a get of a listed key inside a writing session serves the value that was put -- whatever the buffer size, i.e. whether
   or not the put has reached the file yet; it keeps the session state valid, moves buffered puts to the file in order
   at most (stored ++ buffered is unchanged as a list), and leaves the listing alone *)
Lemma b_get_inv H rs f b k :
  BInv H rs f b -> In k (bkeys b) ->
  exists v rs' f' b', b_get f b k = (f', b', BVal v) /\ assoc (rs ++ queue b) k = Some v /\
                      BInv H rs' f' b' /\ rs' ++ queue b' = rs ++ queue b /\ bkeys b' = bkeys b.
Proof.
  intros I Hk. destruct (assoc_in_keys _ _ (bi_listed _ _ _ _ I k Hk)) as [v Hv]. exists v.
  unfold b_get, writing. rewrite (bi_writing _ _ _ _ I), assoc_existsb. cbn [andb].
  destruct (assoc (queue b) k) eqn:Eq.
  - (* buffered: the queue is flushed first *)
    destruct (flush_valid H rs f b I) as [b2 [E [Eq2 [Ek2 I2]]]]. rewrite E, (bi_has _ _ _ _ I2). simpl.
    pose proof (get_spec H (rs ++ queue b) [] (uk b2) k (bi_full _ _ _ _ I2) (bi_open _ _ _ _ I2)) as G.
    rewrite app_nil_r in G. rewrite G, Hv. exists (rs ++ queue b), (H ++ blocks (rs ++ queue b)), b2.
    rewrite Eq2, app_nil_r. auto 8.
  - rewrite (bi_has _ _ _ _ I). simpl. rewrite assoc_app, Eq in *.
    pose proof (get_spec H rs [] (uk b) k (bi_full _ _ _ _ I) (bi_open _ _ _ _ I)) as G.
    rewrite app_nil_r, <- (bi_file _ _ _ _ I) in G. rewrite G.
    destruct (assoc rs k); [injection Hv as ->|discriminate]. exists rs, f, b. auto 8.
Qed.

(* Inside a writing session every key the collection lists is readable, and the value is the one that was put. *)
Theorem listed_readable H rs f b k :
  BInv H rs f b -> In k (bkeys b) ->
  exists v f' b', b_get f b k = (f', b', BVal v) /\ assoc (rs ++ queue b) k = Some v.
Proof. intros I Hk. destruct (b_get_inv H rs f b k I Hk) as [v [_ [f' [b' [E [Hv _]]]]]]. eauto. Qed.

(* a put of a fresh, well-sized key keeps the session state valid and lists the key, for EVERY buffer size *)
Theorem put_keeps_valid H rs f b k v :
  BInv H rs f b -> ro b = false -> ~ In k (map fst (rs ++ queue b)) -> wfkv (k, v) ->
  exists rs' f' b', b_put f b k v = (f', b', BOk) /\ BInv H rs' f' b' /\ In k (bkeys b') /\
                    assoc (rs' ++ queue b') k = Some v.
Proof.
  intros I Hro Hfresh Hkv. unfold b_put. rewrite Hro.
  set (b1 := mkb (uk b) (has_uk b) (queue b ++ [(k, v)]) (set_add (bkeys b) k)
                 (used b + Z.of_N (len k) + Z.of_N (len v))%Z (bufsize b) false (st b)).
  assert (I1 : BInv H rs f b1).
  { destruct I as [Ef Hh Hwf Hfull Hc Hm Hhas Hq Hnd Hl Hw]. constructor; simpl; try assumption.
    - apply Forall_app. split; [exact Hq|constructor; [exact Hkv|constructor]].
    - rewrite app_assoc, map_app. apply NoDup_snoc. split; assumption.
    - intros k0 Hk0. rewrite app_assoc, map_app, in_app_iff. apply set_add_in in Hk0.
      destruct Hk0 as [Hk0| ->]; [left; apply Hl; exact Hk0|right; left; reflexivity]. }
  assert (Hk1 : In k (bkeys b1)) by (apply set_add_in; right; reflexivity).
  assert (Hv1 : assoc (rs ++ queue b1) k = Some v).
  { apply assoc_in; [exact (bi_nodup _ _ _ _ I1)|]. simpl. rewrite !in_app_iff. simpl. auto. }
  fold b1. destruct (bufsize b1 <? used b1)%Z.
  - destruct (flush_valid H rs f b1 I1) as [b2 [E [Eq [Ek I2]]]]. rewrite E.
    exists (rs ++ queue b1), (H ++ blocks (rs ++ queue b1)), b2. rewrite Ek, Eq, app_nil_r. auto 6.
  - exists rs, f, b1. auto 6.
Qed.

(* queue = good ++ (k,v) :: rest with every put of [good] valid and (k,v) doomed (its key is already stored or
   buffered before it, or a size is out of range): flush writes exactly [good], drops (k,v), keeps [rest]
   buffered, reports the error, and the listing becomes stored keys + still-buffered keys. *)
Theorem flush_fails_atomically H : forall good fuel rs f h ks u bs r s k v rest,
  (length good + S (length rest) < fuel)%nat ->
  f = H ++ blocks rs -> full H rs h -> closed h = false -> md h = MA ->
  Forall wfkv good -> NoDup (map fst (rs ++ good)) ->
  (assoc (rs ++ good) k <> None \/ wfb k v = false) ->
  exists h' e,
    flush_loop fuel f (mkb h true (good ++ (k, v) :: rest) ks u bs r s) =
      (H ++ blocks (rs ++ good),
       mkb h' true rest (set_union (keys h') (map fst rest)) u bs r s, Some e)
    /\ full H (rs ++ good) h' /\ closed h' = false /\ md h' = MA.
Proof.
  intros good fuel rs f h ks u bs r s k v rest Hf -> Hfull Hc Hm Hq Hnd Hd.
  assert (exists n, fuel = (length good + S n)%nat) as [n ->] by (exists (fuel - S (length good))%nat; lia).
  destruct (flush_loop_good H ks u bs r s ((k, v) :: rest) good (S n) rs h Hfull Hc Hm Hq Hnd) as [h' [E [A [B C]]]].
  assert (exists e, put (H ++ blocks (rs ++ good)) h' k v = (H ++ blocks (rs ++ good), h', RErr e)) as [e Ep].
  { pose proof (put_spec H _ h' k v A B C) as P. destruct (assoc (rs ++ good) k); [eauto|].
    destruct Hd as [Hd|Hd]; [congruence|]. rewrite Hd in P. eauto. }
  exists h', (berr_of e). split; [|auto]. etransitivity; [exact E|].
  cbn [flush_loop queue has_uk negb uk]. rewrite Ep. reflexivity.
Qed.

Lemma b_items_loop_spec H : forall ks rs f b acc,
  BInv H rs f b -> (forall k, In k ks -> In k (bkeys b)) ->
  exists l rs' f' b', b_items_loop ks f b acc = (f', b', BItems (rev acc ++ l)) /\
                      map fst l = ks /\ (forall k v, In (k, v) l -> assoc (rs ++ queue b) k = Some v) /\
                      BInv H rs' f' b' /\ rs' ++ queue b' = rs ++ queue b /\ bkeys b' = bkeys b.
Proof.
  induction ks as [|k ks IH]; intros rs f b acc I Hin.
  - exists [], rs, f, b. simpl. rewrite app_nil_r. do 2 (split; [reflexivity|]). split; [intros k v []|auto].
  - destruct (b_get_inv H rs f b k I (Hin k (or_introl eq_refl))) as [v [rs1 [f1 [b1 [E [Hv [I1 [Eq Ek]]]]]]]].
    cbn [b_items_loop]. rewrite E.
    destruct (IH rs1 f1 b1 ((k, v) :: acc) I1) as [l [rs2 [f2 [b2 [E2 [Hl [Hv2 [I2 [Eq2 Ek2]]]]]]]]].
    { intros k0 Hk0. rewrite Ek. apply Hin. right. exact Hk0. }
    exists ((k, v) :: l), rs2, f2, b2. rewrite E2. simpl. rewrite <- app_assoc, Hl, <- Eq.
    do 2 (split; [reflexivity|]). split; [|split; [exact I2|split; congruence]].
    intros k0 v0 [Hx|Hx]; [congruence|auto].
Qed.

(* items() inside a writing session, for every buffer size: one pair per listed key, each with the bytes that were put
   (stored or still buffered), no failure, the session state stays valid and the listing is unchanged *)
Theorem items_exact H rs f b :
  BInv H rs f b ->
  exists l rs' f' b', b_items f b = (f', b', BItems l) /\ map fst l = bkeys b /\
                      (forall k v, In (k, v) l -> assoc (rs ++ queue b) k = Some v) /\
                      BInv H rs' f' b' /\ rs' ++ queue b' = rs ++ queue b /\ bkeys b' = bkeys b.
Proof. intros I. exact (b_items_loop_spec H (bkeys b) rs f b [] I (fun k Hk => Hk)). Qed.

Theorem values_exact H rs f b :
  BInv H rs f b ->
  exists l f' b', b_items f b = (f', b', BItems l) /\ b_values f b = (f', b', BVals (map snd l)).
Proof.
  intros I. destruct (items_exact H rs f b I) as [l [rs' [f' [b' [E _]]]]]. exists l, f', b'.
  split; [exact E|]. unfold b_values. rewrite E. reflexivity.
Qed.

(* when the listing is the whole key set (as after update_keys and any number of accepted puts), items() is the whole
   abstract map: every stored or buffered binding appears *)
Theorem items_complete H rs f b :
  BInv H rs f b -> (forall k, In k (map fst (rs ++ queue b)) -> In k (bkeys b)) ->
  exists l f' b', b_items f b = (f', b', BItems l) /\
                  forall k v, assoc (rs ++ queue b) k = Some v -> In (k, v) l.
Proof.
  intros I Hall. destruct (items_exact H rs f b I) as [l [rs' [f' [b' [E [Hk [Hv _]]]]]]].
  exists l, f', b'. split; [exact E|]. intros k v Ha.
  assert (Hin : In k (map fst l)) by (rewrite Hk; apply Hall, (in_map fst _ _ (assoc_some_in _ _ _ Ha))).
  apply in_map_iff in Hin. destruct Hin as [[k0 v0] [Ek Hp]]. simpl in Ek. subst k0.
  rewrite (Hv _ _ Hp) in Ha. congruence.
Qed.

Theorem contains_listed (bs : list backend) f i k :
  snd (bstep (f, bs) (CContains i k)) = BBool true <-> In k (bkeys (nth i bs b0)).
Proof.
  simpl. rewrite <- existsb_beq. split; [intros E; injection E; auto|intros ->; reflexivity].
Qed.
