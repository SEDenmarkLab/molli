(* C09, the one-shot matrix (Model/Dispatch.v): the boolean equalities on cells, methods, results and actions imply
   equality; every valid cell occurs in the enumeration `all_cells`; and `table_ok`, the decidable check that an
   observed table is the enumeration with the specified action in every row, is sound for the two clauses of C09_matrix. *)
From Coq Require Import List Bool Arith.
Import ListNotations.
From Molli Require Import Model.Dispatch.

Lemma cell_eqb_eq a b : cell_eqb a b = true -> a = b.
Proof.
  destruct a, b; unfold cell_eqb; simpl; intros H.
  repeat (apply andb_prop in H; destruct H as [H ?]).
  f_equal; try (apply internal_verb_dec_bl || apply internal_fmtc_dec_bl || apply internal_fsrc_dec_bl
    || apply internal_otyp_dec_bl || apply internal_tgt_dec_bl || apply internal_prs_dec_bl); try assumption.
  all: apply Bool.eqb_prop; assumption.
Qed.

Lemma meth_eqb_eq a b : meth_eqb a b = true -> a = b.
Proof.
  destruct a, b; unfold meth_eqb; simpl; intros H. apply andb_prop in H; destruct H.
  f_equal; [apply internal_verb_dec_bl | apply internal_fmtc_dec_bl]; assumption.
Qed.

Lemma res_eqb_eq : forall a b, res_eqb a b = true -> a = b.
Proof.
  fix IH 1. intros a b; destruct a, b; simpl; try discriminate; intros H.
  - apply andb_prop in H; destruct H as [H Hn]. apply andb_prop in H; destruct H as [H Hs].
    apply andb_prop in H; destruct H as [Hk Hm].
    f_equal; auto using internal_kls_dec_bl, meth_eqb_eq, internal_src_dec_bl, internal_nm_dec_bl.
  - repeat (apply andb_prop in H; destruct H as [H ?]).
    f_equal; [apply internal_kls_dec_bl | apply Nat.eqb_eq | apply internal_nm_dec_bl]; assumption.
  - f_equal. revert l0 H. induction l as [|p l IHl]; intros [|q l0] H; try discriminate; [reflexivity|].
    apply andb_prop in H; destruct H as [H1 H2]. f_equal; [apply IH; exact H1 | apply IHl; exact H2].
  - f_equal; apply meth_eqb_eq; assumption.
  - f_equal; apply Nat.eqb_eq; assumption.
Qed.

Lemma action_eqb_eq a b : action_eqb a b = true -> a = b.
Proof.
  destruct a, b; simpl; try discriminate; intros H.
  - f_equal; apply internal_exn_dec_bl; assumption.
  - f_equal; apply res_eqb_eq; assumption.
  - apply andb_prop in H; destruct H as [H Ho]. apply andb_prop in H; destruct H as [Hm Hs].
    f_equal; auto using meth_eqb_eq, internal_src_dec_bl, Bool.eqb_prop.
  - reflexivity.
  - f_equal; apply Nat.eqb_eq; assumption.
Qed.

(* every cell of the product is enumerated: any valid cell is in all_cells *)
Lemma all_cells_complete : forall c, valid c = true -> In c all_cells.
Proof.
  intros c Hv. unfold all_cells. apply filter_In. split; [|exact Hv].
  destruct c as [v f s o n t p d]. unfold product.
  apply in_flat_map; exists v; split; [destruct v; simpl; tauto|].
  apply in_flat_map; exists f; split; [destruct f; simpl; tauto|].
  apply in_flat_map; exists s; split; [destruct s; simpl; tauto|].
  apply in_flat_map; exists o; split; [destruct o; simpl; tauto|].
  apply in_flat_map; exists n; split; [destruct n; simpl; tauto|].
  apply in_flat_map; exists t; split; [destruct t; simpl; tauto|].
  apply in_flat_map; exists p; split; [destruct p; simpl; tauto|].
  apply in_map. destruct d; simpl; tauto.
Qed.

Lemma cell_eqb_refl c : cell_eqb c c = true.
Proof.
  unfold cell_eqb.
  rewrite internal_verb_dec_lb, internal_fmtc_dec_lb, internal_fsrc_dec_lb, internal_otyp_dec_lb,
    internal_tgt_dec_lb, internal_prs_dec_lb, !Bool.eqb_reflx by reflexivity.
  reflexivity.
Qed.

Fixpoint same_cells (l m : list cell) : bool :=
  match l, m with
  | [], [] => true
  | a :: l', b :: m' => cell_eqb a b && same_cells l' m'
  | _, _ => false
  end.

Lemma same_cells_eq l : forall m, same_cells l m = true -> l = m.
Proof.
  induction l as [|a l IH]; intros [|b m] H; try discriminate; [reflexivity|].
  apply andb_prop in H. destruct H as [Hab H]. f_equal; [now apply cell_eqb_eq | now apply IH].
Qed.

Section Table.
  Variable table : list (cell * action).
  (* The cells of the table are the enumeration itself, in its order (the generator walks the same product), and
     every row carries the specified action.  Comparing the key column with all_cells once, instead of looking
     every cell up, keeps the decision linear in the size of the table. *)
  Definition table_ok : bool :=
    same_cells (map fst table) all_cells && forallb (fun p => action_eqb (snd p) (spec (fst p))) table.

  Lemma table_ok_sound : table_ok = true ->
    (forall c, valid c = true -> exists a, lookup table c = Some a /\ a = spec c) /\
    (forall c a, In (c, a) table -> a = spec c).
  Proof.
    unfold table_ok; intros H; apply andb_prop in H; destruct H as [H1 H2]. apply same_cells_eq in H1.
    assert (Hrow : forall c a, In (c, a) table -> a = spec c).
    { intros c a Hin. rewrite forallb_forall in H2. apply action_eqb_eq. exact (H2 _ Hin). }
    split; [|exact Hrow]. intros c Hv.
    (* c is a key of the table, so `find` stops at some row; that row has key c and hence the specified action *)
    pose proof (all_cells_complete c Hv) as Hin. rewrite <- H1 in Hin. apply in_map_iff in Hin.
    destruct Hin as [[c0 a0] [E Hin]]. cbn in E. subst c0. unfold lookup.
    destruct (find _ table) as [[c' a']|] eqn:F.
    - apply find_some in F. destruct F as [Hin' E]. apply cell_eqb_eq in E. cbn in E. subst c'.
      exists a'. split; [reflexivity|]. now apply Hrow.
    - apply find_none with (x := (c, a0)) in F; [|exact Hin]. cbn in F. now rewrite cell_eqb_refl in F.
  Qed.
End Table.
