(* C06 -- proofs about the heap model of Model/Alias.v.  Regions, reach and frames for an arbitrary pointer notion
   `P : cell -> list loc` (section Pointers: `ptrs` here, `vptrs` in Proofs/AliasVal.v); locality of `obs`; soundness of
   `copy_row` for every heap and every row that meets the specification (independence at both pointer levels,
   faithfulness); keyword overrides; the regenerated table; the edits of the menu. *)
From Coq Require Import List ZArith Bool Lia.
Import ListNotations.
From Molli Require Import Model.Alias.
From Molli Require Import Common.ListFacts.

Lemma get_app_old : forall h x l, l < length h -> get (h ++ x) l = get h l.
Proof. intros h x l Hl. unfold get. now rewrite app_nth1. Qed.

Lemma get_app_new : forall h x k, get (h ++ x) (length h + k) = nth k x CFree.
Proof. intros h x k. unfold get. now rewrite app_nth2_plus. Qed.

Lemma get_app_last : forall h c, get (h ++ [c]) (length h) = c.
Proof. intros h c. unfold get. rewrite app_nth2 by lia. now rewrite Nat.sub_diag. Qed.

Lemma get_oob : forall h l, length h <= l -> get h l = CFree.
Proof. intros h l Hl. unfold get. now rewrite nth_overflow. Qed.

Lemma length_upd : forall h l c, length (upd l c h) = length h.
Proof. induction h as [|x r IH]; intros [|l] c; simpl; auto. Qed.

Lemma get_upd_other : forall h l l' c, l <> l' -> get (upd l c h) l' = get h l'.
Proof.
  unfold get. induction h as [|x r IH]; intros [|l] [|l'] c Hne; simpl; auto; try congruence.
Qed.

Lemma get_upd_same : forall h l c, l < length h -> get (upd l c h) l = c.
Proof.
  unfold get. induction h as [|x r IH]; intros [|l] c Hl; simpl in *; try lia; auto.
  apply IH. lia.
Qed.

Lemma mem_In : forall l s, mem l s = true <-> In l s.
Proof. exact (existsb_eqb_In Nat.eqb Nat.eqb_eq). Qed.

Lemma length_mapi : forall A B (f : nat -> A -> B) l i, length (mapi_from f i l) = length l.
Proof. induction l as [|x r IH]; intros i; simpl; auto. Qed.

Lemma nth_mapi : forall A B (f : nat -> A -> B) l i j x d,
  nth_error l j = Some x -> nth j (mapi_from f i l) d = f (i + j) x.
Proof.
  induction l as [|y r IH]; intros i [|j] x d Hj; simpl in *; try discriminate.
  - inversion Hj. now rewrite Nat.add_0_r.
  - rewrite (IH _ _ _ _ Hj). f_equal. lia.
Qed.

Lemma In_mapi : forall A B (f : nat -> A -> B) l i y,
  In y (mapi_from f i l) -> exists j x, j < length l /\ nth_error l j = Some x /\ y = f (i + j) x.
Proof.
  induction l as [|x r IH]; intros i y H; simpl in *; [destruct H|].
  destruct H as [<-|H].
  - exists 0, x. repeat split; [lia| now rewrite Nat.add_0_r].
  - destruct (IH _ _ H) as [j [x' [Hj [Hn Hy]]]]. exists (S j), x'. repeat split; [lia|exact Hn|].
    rewrite Hy. f_equal. lia.
Qed.

Lemma map_mapi : forall A B C (g : B -> C) (g' : A -> C) (f : nat -> A -> B) l i,
  (forall j x, nth_error l j = Some x -> g (f (i + j) x) = g' x) ->
  map g (mapi_from f i l) = map g' l.
Proof.
  induction l as [|x r IH]; intros i H; simpl; auto. f_equal.
  - specialize (H 0 x eq_refl). now rewrite Nat.add_0_r in H.
  - apply IH. intros j y Hy. specialize (H (S j) y Hy). now replace (S i + j) with (i + S j) by lia.
Qed.

Lemma index_of_nth : forall a l i, index_of a l = Some i -> nth_error l i = Some a.
Proof.
  induction l as [|x r IH]; intros i H; simpl in *; [discriminate|].
  destruct (Nat.eqb x a) eqn:E; [apply Nat.eqb_eq in E; inversion H; now subst|].
  destruct (index_of a r) as [k|]; inversion H. simpl. now apply IH.
Qed.

Lemma index_of_lt : forall a l i, index_of a l = Some i -> i < length l.
Proof. intros a l i H. apply nth_error_Some. rewrite (index_of_nth _ _ _ H). discriminate. Qed.

Lemma index_of_offset : forall A (l : list A) b s i,
  i < length l -> index_of (b + (s + i)) (mapi_from (fun j _ => b + j) s l) = Some i.
Proof.
  induction l as [|x r IH]; intros b s i Hi; simpl in *; [lia|].
  destruct i as [|i].
  - rewrite Nat.add_0_r, Nat.eqb_refl. reflexivity.
  - destruct (Nat.eqb (b + s) (b + (s + S i))) eqn:E; [apply Nat.eqb_eq in E; lia|].
    replace (s + S i) with (S s + i) by lia. rewrite IH by lia. reflexivity.
Qed.

Lemma in_olist : forall A (x : A) o, o = Some x -> In x (olist o).
Proof. intros A x o ->. simpl. auto. Qed.

Definition agree (S : loc -> Prop) (h1 h2 : heap) : Prop := forall l, S l -> get h2 l = get h1 l.

Lemma agree_trans : forall S h1 h2 h3, agree S h1 h2 -> agree S h2 h3 -> agree S h1 h3.
Proof. intros S h1 h2 h3 H12 H23 l Hl. rewrite H23, H12; auto. Qed.

(* interleaved histories: each step is a mutation through one of the two objects *)
Inductive side := SideA | SideB.
Definition pick {A} (s : side) (a b : A) : A := match s with SideA => a | SideB => b end.
Definition other_side (s : side) : side := match s with SideA => SideB | SideB => SideA end.

Fixpoint run_hist (h : heap) (hist : list (side * list prim)) : heap :=
  match hist with [] => h | (_, ps) :: r => run_hist (apply_prims h ps) r end.

Section Pointers.
Variable P : cell -> list loc.

(* `closed_under P`, `ranked_by P rk` and `sep P` of this section are the generic form of the notions the statements of
   Props/C06.v name level by level: `closed` / `ranked` / `separated` below (P = ptrs), `gclosed P` / `granked P rk` /
   `vseparated` in Proofs/AliasVal.v (which needs this file, so its generic definitions cannot serve here).  Each of those is
   the same formula written out: a fact about one is a fact about the other by conversion. *)
Definition closed_under (h : heap) (S : loc -> Prop) : Prop :=
  forall l, S l -> l < length h /\ forall p, In p (P (get h l)) -> S p.

Lemma greachN_head : forall n h l, In l (greachN P n h l).
Proof. intros [|n] h l; simpl; auto. Qed.

Lemma greachN_S : forall n h l x,
  In x (greachN P (S n) h l) <-> x = l \/ exists p, In p (P (get h l)) /\ In x (greachN P n h p).
Proof.
  intros n h l x. simpl. rewrite in_flat_map.
  split; (intros [E|E]; [left; symmetry; exact E|right; exact E]).
Qed.

Lemma greachN_child : forall n h l p, In p (P (get h l)) -> In p (greachN P (S n) h l).
Proof. intros n h l p Hp. apply greachN_S. right. exists p. split; [exact Hp|apply greachN_head]. Qed.

Lemma greachN_sub_closed : forall h S, closed_under h S -> forall n l, S l -> forall x, In x (greachN P n h l) -> S x.
Proof.
  intros h S Hc. induction n as [|n IH]; intros l Hl x Hx.
  - simpl in Hx. destruct Hx as [<-|[]]. exact Hl.
  - apply greachN_S in Hx. destruct Hx as [->|[p [Hp Hx]]]; [exact Hl|].
    apply (IH p); [|exact Hx]. apply (Hc l Hl). exact Hp.
Qed.

Lemma greachN_mono : forall n h l x, In x (greachN P n h l) -> In x (greachN P (S n) h l).
Proof.
  induction n as [|n IH]; intros h l x H.
  - simpl in H. destruct H as [<-|[]]. apply greachN_head.
  - apply greachN_S. apply greachN_S in H. destruct H as [->|[p [Hp Hx]]]; [left; reflexivity|].
    right. exists p. split; [exact Hp|]. apply IH. exact Hx.
Qed.

Lemma greachN_le : forall n m h l x, n <= m -> In x (greachN P n h l) -> In x (greachN P m h l).
Proof. intros n m h l x Hle H. induction Hle; [exact H|]. apply greachN_mono. assumption. Qed.

Lemma greachN_step : forall n h l x p, In x (greachN P n h l) -> In p (P (get h x)) -> In p (greachN P (S n) h l).
Proof.
  induction n as [|n IH]; intros h l x p Hx Hp.
  - simpl in Hx. destruct Hx as [<-|[]]. apply greachN_child. exact Hp.
  - apply greachN_S in Hx. destruct Hx as [->|[q [Hq Hx]]]; [apply greachN_child; exact Hp|].
    apply greachN_S. right. exists q. split; [exact Hq|]. eapply IH; eauto.
Qed.

(* typing by a rank: every pointer is in bounds and goes to a cell of smaller rank; then what a cell of rank <= n
   reaches in n steps is closed *)
Section Rank.
Variable rk : cell -> nat.
Definition ranked_by (h : heap) : Prop :=
  forall l, l < length h -> forall p, In p (P (get h l)) -> p < length h /\ rk (get h p) < rk (get h l).

Lemma ranked_by_sound : forall h,
  forallb (fun c => forallb (fun p => (p <? length h) && (rk (get h p) <? rk c)) (P c)) h = true -> ranked_by h.
Proof.
  intros h H l Hl p Hp. rewrite forallb_forall in H.
  specialize (H _ (nth_In h CFree Hl)). rewrite forallb_forall in H. specialize (H _ Hp).
  apply andb_true_iff in H. destruct H as [H1 H2].
  apply Nat.ltb_lt in H1. apply Nat.ltb_lt in H2. auto.
Qed.

Lemma greachN_closed : forall h, ranked_by h -> forall n l, l < length h -> rk (get h l) <= n ->
  closed_under h (fun x => In x (greachN P n h l)).
Proof.
  intros h Hr. induction n as [|n IH]; intros l Hl Hk x Hx.
  - simpl in Hx. destruct Hx as [<-|[]]. split; [exact Hl|]. intros p Hp. destruct (Hr l Hl p Hp). lia.
  - apply greachN_S in Hx. destruct Hx as [->|[q [Hq Hx]]].
    + split; [exact Hl|]. intros p Hp. apply greachN_child. exact Hp.
    + destruct (Hr l Hl q Hq) as [Hql Hqr]. destruct (IH q Hql ltac:(lia) x Hx) as [Hxl Hxp].
      split; [exact Hxl|]. intros p Hp. apply greachN_S. right. exists q. split; [exact Hq|]. apply Hxp. exact Hp.
Qed.
End Rank.

Lemma wfb_sound : forall h, forallb (fun c => forallb (fun p => p <? length h) (P c)) h = true ->
  forall l, l < length h -> forall p, In p (P (get h l)) -> p < length h.
Proof.
  intros h H l Hl p Hp. rewrite forallb_forall in H.
  specialize (H _ (nth_In h CFree Hl)). rewrite forallb_forall in H. apply Nat.ltb_lt. apply H. exact Hp.
Qed.

(* One mutation (any list of primitive writes / allocations confined to a region of the mutator's side A)
   preserves: both sides closed, disjoint, and every cell of side B. *)
Lemma gstep_inv : forall ps region h (SA SB : loc -> Prop),
  closed_under h SA -> closed_under h SB -> (forall l, SA l -> ~ SB l) -> (forall l, In l region -> SA l) ->
  gprims_okb P region h ps = true ->
  exists SA' : loc -> Prop,
    closed_under (apply_prims h ps) SA' /\ closed_under (apply_prims h ps) SB /\ (forall l, SA' l -> ~ SB l)
    /\ (forall l, SA l -> SA' l) /\ agree SB h (apply_prims h ps).
Proof.
  induction ps as [|[l c|c] ps IH]; intros region h SA SB HA HB Hd Hreg Hok; simpl in Hok.
  - exists SA. repeat (split; [assumption|]). split; [auto|]. intros l _. reflexivity.
  - (* a write inside SA: SB does not see it *)
    rewrite !andb_true_iff in Hok. destruct Hok as [[Hl Hc] Hrest].
    apply mem_In in Hl. rewrite forallb_forall in Hc.
    assert (Hag : agree SB h (upd l c h)).
    { intros x Hx. apply get_upd_other. intros ->. exact (Hd _ (Hreg _ Hl) Hx). }
    destruct (IH region (upd l c h) SA SB) as [SA' [H1 [H2 [H3 [H4 H5]]]]]; auto.
    + intros x Hx. rewrite length_upd. destruct (HA x Hx) as [Hxl Hxp]. split; auto.
      destruct (Nat.eq_dec l x) as [->|Hne].
      * rewrite get_upd_same by auto. intros q Hq. apply Hreg. apply mem_In. apply Hc. exact Hq.
      * rewrite get_upd_other by auto. exact Hxp.
    + intros x Hx. rewrite length_upd, (Hag x Hx). apply HB. exact Hx.
    + exists SA'. repeat (split; [assumption|]). eapply agree_trans; eauto.
  - (* an allocation joins SA *)
    apply andb_true_iff in Hok. destruct Hok as [Hc Hrest]. rewrite forallb_forall in Hc.
    assert (Hag : agree SB h (h ++ [c])).
    { intros x Hx. apply get_app_old. apply HB. exact Hx. }
    destruct (IH (length h :: region) (h ++ [c]) (fun x => SA x \/ x = length h) SB)
      as [SA' [H1 [H2 [H3 [H4 H5]]]]]; auto.
    + intros x [Hx| ->]; rewrite app_length; simpl.
      * destruct (HA x Hx) as [Hxl Hxp]. split; [lia|]. rewrite get_app_old by auto. intros q Hq. left. auto.
      * split; [lia|]. rewrite get_app_last.
        intros q Hq. specialize (Hc q Hq). apply orb_true_iff in Hc. destruct Hc as [Hc|Hc].
        -- left. apply Hreg. apply mem_In. exact Hc.
        -- right. apply Nat.eqb_eq in Hc. exact Hc.
    + intros x Hx. rewrite app_length, (Hag x Hx). destruct (HB x Hx) as [Hxl Hxp]. split; [simpl; lia|auto].
    + intros x [Hx| ->]; auto. intros Hb. destruct (HB _ Hb). lia.
    + intros x [<-|Hx]; [right; auto|left; auto].
    + exists SA'. repeat (split; [assumption|]). split; [intros x Hx; apply H4; left; exact Hx|]. eapply agree_trans; eauto.
Qed.

Lemma write_same_ptrs : forall n h o l c,
  In l (greachN P n h o) -> P c = P (get h l) -> gprims_okb P (greachN P (S n) h o) h [PWrite l c] = true.
Proof.
  intros n h o l c Hl Hc. cbn [gprims_okb]. rewrite andb_true_r. apply andb_true_iff. split.
  - apply mem_In. apply greachN_mono. exact Hl.
  - apply forallb_forall. intros p Hp. apply mem_In. rewrite Hc in Hp. eapply greachN_step; eauto.
Qed.

Definition sep (h : heap) (a b : loc) : Prop :=
  exists SA SB : loc -> Prop, closed_under h SA /\ closed_under h SB /\ (forall l, SA l -> ~ SB l) /\ SA a /\ SB b.

Lemma sep_sym : forall h a b, sep h a b -> sep h b a.
Proof.
  intros h a b [SA [SB [HA [HB [Hd [Ha Hb]]]]]]. exists SB, SA.
  split; [exact HB|]. split; [exact HA|]. split; [|split; assumption]. intros l H1 H2. exact (Hd l H2 H1).
Qed.

Lemma sep_reach_disjoint : forall n m h a b, sep h a b ->
  forall l, In l (greachN P n h a) -> ~ In l (greachN P m h b).
Proof.
  intros n m h a b [SA [SB [HA [HB [Hd [Ha Hb]]]]]] l H1 H2. apply (Hd l); eapply greachN_sub_closed; eauto.
Qed.

Lemma sep_step : forall n h a b ps, sep h a b -> gprims_okb P (greachN P n h a) h ps = true ->
  sep (apply_prims h ps) a b
  /\ exists S, closed_under h S /\ S b /\ agree S h (apply_prims h ps).
Proof.
  intros n h a b ps [SA [SB [HA [HB [Hd [Ha Hb]]]]]] Hok.
  destruct (gstep_inv ps _ h SA SB HA HB Hd (greachN_sub_closed h SA HA n a Ha) Hok) as [SA' [H1 [H2 [H3 [H4 H5]]]]].
  split; [exists SA', SB; auto 8|exists SB; auto].
Qed.

Lemma sep_side_step : forall n h a b s ps,
  sep h a b -> gprims_okb P (greachN P n h (pick s a b)) h ps = true ->
  sep (apply_prims h ps) a b
  /\ exists S, closed_under h S /\ S (pick (other_side s) a b) /\ agree S h (apply_prims h ps).
Proof.
  intros n h a b [|] ps Hs Hok; simpl in *; [exact (sep_step n h a b ps Hs Hok)|].
  destruct (sep_step n h b a ps (sep_sym _ _ _ Hs) Hok) as [Hs' Hu]. split; [apply sep_sym; exact Hs'|exact Hu].
Qed.

(* Every step of an interleaved history leaves a closed region around the other object untouched.  `okb` stands for the
   two history checks (`hist_okb` below, `vhist_okb` in Proofs/AliasVal.v): all that is used of it is that it demands each step to be confined to
   what the object it goes through reaches. *)
Lemma history_untouched : forall n a b (okb : heap -> list (side * list prim) -> bool),
  (forall h s ps r, okb h ((s, ps) :: r) = true ->
     gprims_okb P (greachN P n h (pick s a b)) h ps = true /\ okb (apply_prims h ps) r = true) ->
  forall hist h, sep h a b -> okb h hist = true ->
  forall pre s ps post, hist = pre ++ (s, ps) :: post ->
  exists S, closed_under (run_hist h pre) S /\ S (pick (other_side s) a b)
            /\ agree S (run_hist h pre) (apply_prims (run_hist h pre) ps).
Proof.
  intros n a b okb Hstep. induction hist as [|[s0 ps0] r IH]; intros h Hsep Hok pre s ps post Heq.
  - destruct pre; discriminate.
  - destruct (Hstep _ _ _ _ Hok) as [Hok0 Hokr].
    destruct (sep_side_step n h a b s0 ps0 Hsep Hok0) as [Hsep' Hu].
    destruct pre as [|[s1 ps1] pre]; simpl in Heq; inversion Heq; subst.
    + exact Hu.
    + simpl. eapply IH; eauto.
Qed.

Lemma app_old_closed : forall h x,
  (forall l, l < length h -> forall p, In p (P (get h l)) -> p < length h) ->
  closed_under (h ++ x) (fun l => l < length h).
Proof.
  intros h x Hwf l Hl. split; [rewrite app_length; lia|]. rewrite get_app_old by exact Hl. apply (Hwf l Hl).
Qed.

Lemma app_new_closed : forall h x,
  (forall c, In c x -> forall p, In p (P c) -> length h <= p < length (h ++ x)) ->
  closed_under (h ++ x) (fun l => length h <= l < length (h ++ x)).
Proof.
  intros h x Hx l [Hl1 Hl2]. split; [exact Hl2|]. intros p Hp.
  replace l with (length h + (l - length h)) in Hp by lia. rewrite get_app_new in Hp.
  apply (Hx (nth (l - length h) x CFree)); [|exact Hp]. apply nth_In. rewrite app_length in Hl2. lia.
Qed.

End Pointers.

Definition closed (h : heap) (S : loc -> Prop) : Prop :=
  forall l, S l -> l < length h /\ forall p, In p (ptrs (get h l)) -> S p.

(* the model's own `reachN` / `prims_okb` are the generic ones at `ptrs` *)
Lemma reachN_greachN : forall n h l, reachN n h l = greachN ptrs n h l.
Proof. induction n as [|n IH]; intros h l; simpl; [reflexivity|]. f_equal. apply flat_map_ext. apply IH. Qed.

Lemma reach_g : forall h o, reach h o = greachN ptrs 4 h o.
Proof. intros. apply reachN_greachN. Qed.

Lemma prims_okb_g : forall ps region h, prims_okb region h ps = gprims_okb ptrs region h ps.
Proof. induction ps as [|[l c|c] ps IH]; intros region h; simpl; [reflexivity| |]; now rewrite IH. Qed.

Lemma in_items_ptrs : forall h l a, In a (items_of h l) -> In a (ptrs (get h l)).
Proof. intros h l a H. unfold items_of in H. destruct (get h l); simpl in *; try contradiction. exact H. Qed.

Lemma items_local : forall h1 h2 S l, closed h1 S -> agree S h1 h2 -> S l ->
  items_of h2 l = items_of h1 l /\ forall a, In a (items_of h1 l) -> S a.
Proof.
  intros h1 h2 S l Hc Ha Sl. unfold items_of at 1. rewrite (Ha l Sl). split; [reflexivity|].
  intros a Hin. apply (Hc l Sl). apply in_items_ptrs. exact Hin.
Qed.

Lemma atom_obs_local : forall h1 h2 S o a, closed h1 S -> S a -> agree S h1 h2 -> atom_obs h2 o a = atom_obs h1 o a.
Proof.
  intros h1 h2 S o a Hc Sa Ha. unfold atom_obs, dict_of. rewrite (Ha a Sa).
  destruct (get h1 a) eqn:E; auto. rewrite Ha; [reflexivity|]. apply (Hc a Sa). rewrite E. simpl. auto.
Qed.

Lemma bond_obs_local : forall h1 h2 S o atoms b,
  closed h1 S -> S b -> agree S h1 h2 -> bond_obs h2 o atoms b = bond_obs h1 o atoms b.
Proof.
  intros h1 h2 S o atoms b Hc Sb Ha. unfold bond_obs, dict_of. rewrite (Ha b Sb).
  destruct (get h1 b) eqn:E; auto. rewrite Ha; [reflexivity|]. apply (Hc b Sb). rewrite E. simpl. auto.
Qed.

Theorem obs_local : forall h1 h2 S o, closed h1 S -> S o -> agree S h1 h2 -> obs h2 o = obs h1 o.
Proof.
  intros h1 h2 S o Hc Ho Ha. unfold obs. rewrite (Ha o Ho).
  destruct (get h1 o) as [| | | | | |cls sc al bl co ch we at_|] eqn:Eo; auto.
  assert (Hp : forall p, In p (al :: at_ :: olist bl ++ olist co ++ olist ch ++ olist we) -> S p).
  { intros p Hin. apply (Hc o Ho). rewrite Eo. exact Hin. }
  assert (Hoarr : forall ol, In ol [co; ch; we] -> oarr h2 ol = oarr h1 ol).
  { intros [l|] Hs; simpl; auto. unfold arr_of. rewrite Ha; [reflexivity|]. apply Hp. simpl. rewrite !in_app_iff.
    destruct Hs as [->|[->|[->|[]]]]; simpl; auto 10. }
  destruct (items_local _ _ _ al Hc Ha) as [-> Hatoms]; [apply Hp; simpl; auto|].
  f_equal. f_equal.
  - apply map_ext_in. intros a Hin. eapply atom_obs_local; eauto.
  - destruct bl as [l|]; simpl; auto. destruct (items_local _ _ _ l Hc Ha) as [-> Hbonds]; [apply Hp; simpl; auto|].
    f_equal. apply map_ext_in. intros b Hin. eapply bond_obs_local; eauto.
  - apply Hoarr. simpl. auto.
  - apply Hoarr. simpl. auto.
  - apply Hoarr. simpl. auto.
  - unfold dict_of. rewrite Ha; [reflexivity|]. apply Hp. simpl. auto.
Qed.

Definition ranked (h : heap) : Prop :=
  forall l, l < length h -> forall p, In p (ptrs (get h l)) -> p < length h /\ rank (get h p) < rank (get h l).

Lemma rankedb_sound : forall h, rankedb h = true -> ranked h.
Proof. exact (ranked_by_sound ptrs rank). Qed.

Lemma reach_closed : forall h o, ranked h -> o < length h -> closed h (fun x => In x (reach h o)).
Proof.
  intros h o Hr Ho x Hx. rewrite reach_g in Hx. revert x Hx. apply (greachN_closed ptrs rank h Hr 4 o Ho).
  destruct (get h o); simpl; lia.
Qed.

Definition separated (h : heap) (a b : loc) : Prop :=
  exists SA SB : loc -> Prop, closed h SA /\ closed h SB /\ (forall l, SA l -> ~ SB l) /\ SA a /\ SB b.

Theorem frame_rule : forall h a b ps,
  separated h a b -> prims_okb (reach h a) h ps = true -> obs (apply_prims h ps) b = obs h b.
Proof.
  intros h a b ps Hs Hok. rewrite prims_okb_g, reach_g in Hok.
  destruct (sep_step ptrs 4 h a b ps Hs Hok) as [_ [S [HS [Sb Hag]]]]. exact (obs_local _ _ S b HS Sb Hag).
Qed.

Fixpoint hist_okb (h : heap) (a b : loc) (hist : list (side * list prim)) : bool :=
  match hist with
  | [] => true
  | (s, ps) :: r => prims_okb (reach h (pick s a b)) h ps && hist_okb (apply_prims h ps) a b r
  end.

Theorem history_frame : forall hist h a b,
  separated h a b -> hist_okb h a b hist = true ->
  forall pre s ps post, hist = pre ++ (s, ps) :: post ->
    obs (apply_prims (run_hist h pre) ps) (pick (other_side s) a b) = obs (run_hist h pre) (pick (other_side s) a b).
Proof.
  intros hist h a b Hsep Hok pre s ps post Heq.
  destruct (history_untouched ptrs 4 a b (fun h => hist_okb h a b)) with (2 := Hsep) (3 := Hok) (4 := Heq)
    as [S [HS [Sb Hag]]]; [|exact (obs_local _ _ S _ HS Sb Hag)].
  intros h0 s0 ps0 r H. simpl in H. rewrite prims_okb_g, reach_g in H. apply andb_true_iff. exact H.
Qed.

Definition heap_wf (h : heap) : Prop :=
  forall l, l < length h -> forall p, In p (ptrs (get h l)) -> p < length h.

Lemma heap_wfb_sound : forall h, heap_wfb h = true -> heap_wf h.
Proof. exact (wfb_sound ptrs). Qed.

Lemma ranked_wf : forall h, ranked h -> heap_wf h.
Proof. intros h Hr l Hl p Hp. apply (Hr l Hl p Hp). Qed.

Lemma old_closed : forall h x, heap_wf h -> closed (h ++ x) (fun l => l < length h).
Proof. intros h x Hwf. exact (app_old_closed ptrs h x Hwf). Qed.

Lemma app_obs_old : forall h x o, heap_wf h -> o < length h -> obs (h ++ x) o = obs h o.
Proof.
  intros h x o Hwf Ho. symmetry. apply (obs_local (h ++ x) h _ o (old_closed h x Hwf) Ho).
  intros l Hl. symmetry. apply get_app_old. exact Hl.
Qed.

(* The fields of the source object, and the cells `copy_row` appends written in terms of them, segment by segment in the
   order of the layout comment of Model/Alias.v: `p_hd` the seven fixed slots (root, atom list, bond list, coords, charges,
   weights, attrib), `p_A` / `p_AD` the atoms and their dictionaries, `p_B` / `p_BD` the bonds and theirs, `p_V` (starting at
   `p_vb`) the stores of attribute values of the object, the atoms and the bonds. *)
Record parts := mk_parts { p_cls : Z; p_sc : list Z; p_al : loc; p_bl : option loc; p_co : option loc;
                           p_ch : option loc; p_we : option loc; p_at : loc }.
Definition p_atoms (h : heap) (F : parts) : list loc := items_of h (p_al F).
Definition p_bonds (h : heap) (F : parts) : list loc := match p_bl F with Some l => items_of h l | None => [] end.
Definition p_n h F := length (p_atoms h F).
Definition p_m h F := length (p_bonds h F).
Definition p_root (r : row) (g : given) (d : Z) (h : heap) (F : parts) : cell :=
  let base := length h in
  CMol d (if r_scal r then p_sc F else g_scal g) (alist_loc_of r (p_al F) base) (blist_loc_of r (p_bl F) base)
       (arr_loc (r_coords r) (p_co F) (base + 3)) (arr_loc (r_charges r) (p_ch F) (base + 4))
       (arr_loc (r_weights r) (p_we F) (base + 5)) (dict_loc (r_attrib r) (p_at F) (base + 6)).
Definition p_hd (r : row) (g : given) (d : Z) (h : heap) (F : parts) : list cell :=
  let base := length h in
  [p_root r g d h F;
   alist_cell_of r (new_atoms_of r (base + 7) (p_atoms h F));
   blist_cell_of r (p_bl F) (new_bonds_of (brow_of r) (base + 7 + p_n h F + p_n h F) (p_bonds h F));
   arr_cell h (r_coords r) (p_co F) (g_coords g); arr_cell h (r_charges r) (p_ch F) (g_charges g);
   arr_cell h (r_weights r) (p_we F) (g_weights g);
   dict_cell h (r_attrib r) (r_vals r) (p_at F) (base + 7 + p_n h F + p_n h F + p_m h F + p_m h F)].
Definition p_A r h F := atom_cells r h (length h) (length h + 7 + p_n h F) (p_atoms h F).
Definition p_vb h F := length h + 7 + p_n h F + p_n h F + p_m h F + p_m h F.
Definition p_AD r h F := adict_cells r h (p_vb h F + 1) (p_atoms h F).
Definition p_B r h F :=
  bond_cells (brow_of r) h (length h) (length h + 7 + p_n h F + p_n h F + p_m h F) (p_atoms h F)
             (new_atoms_of r (length h + 7) (p_atoms h F)) (p_bonds h F).
Definition p_BD r h F := bdict_cells (brow_of r) h (p_vb h F + 1 + p_n h F) (p_bonds h F).
Definition p_V r h F := store_cell h (r_attrib r) (r_vals r) (p_at F) :: astore_cells r h (p_atoms h F)
                        ++ bstore_cells (brow_of r) h (p_bonds h F).
Definition p_news r g d h F := p_hd r g d h F ++ p_A r h F ++ p_AD r h F ++ p_B r h F ++ p_BD r h F ++ p_V r h F.
Definition p_total h F := 7 + p_n h F + p_n h F + p_m h F + p_m h F + (1 + p_n h F + p_m h F).

Lemma copy_row_inv : forall r g d h o h' o',
  copy_row r g d h o = Some (h', o') ->
  exists F, get h o = CMol (p_cls F) (p_sc F) (p_al F) (p_bl F) (p_co F) (p_ch F) (p_we F) (p_at F)
    /\ o' = length h
    /\ (b_ends (brow_of r) = ERemap -> ends_found h (p_atoms h F) (p_bonds h F) = true)
    /\ h' = h ++ p_news r g d h F.
Proof.
  intros r g d h o h' o' H. unfold copy_row in H.
  destruct (get h o) as [| | | | | |cls sc al bl co ch we at_|] eqn:Eo; try discriminate.
  exists (mk_parts cls sc al bl co ch we at_). cbv zeta in H.
  destruct (b_ends (brow_of r)) eqn:Ee.
  - destruct (ends_found h (items_of h al) match bl with Some l => items_of h l | None => [] end) eqn:Ef;
      simpl in H; [|discriminate].
    inversion H; subst. repeat split; auto.
  - inversion H; subst. repeat split; auto. discriminate.
  - inversion H; subst. repeat split; auto. discriminate.
Qed.

Lemma copy_row_lt : forall r g d h o x, copy_row r g d h o = Some x -> o < length h.
Proof.
  intros r g d h o x H. destruct (Nat.lt_ge_cases o (length h)) as [Hlt|Hge]; [exact Hlt|].
  unfold copy_row in H. rewrite (get_oob h o Hge) in H. discriminate.
Qed.

Lemma p_lengths : forall r g d h F,
  length (p_hd r g d h F) = 7 /\ length (p_A r h F) = p_n h F /\ length (p_AD r h F) = p_n h F
  /\ length (p_B r h F) = p_m h F /\ length (p_BD r h F) = p_m h F /\ length (p_V r h F) = 1 + p_n h F + p_m h F.
Proof.
  intros. unfold p_A, p_AD, p_B, p_BD, p_V, atom_cells, adict_cells, bond_cells, bdict_cells, astore_cells, bstore_cells.
  simpl. rewrite app_length, !length_mapi. auto 7.
Qed.

Lemma p_news_length : forall r g d h F, length (p_news r g d h F) = p_total h F.
Proof.
  intros. destruct (p_lengths r g d h F) as [L1 [L2 [L3 [L4 [L5 L6]]]]].
  unfold p_news, p_total. rewrite !app_length, L1, L2, L3, L4, L5, L6. lia.
Qed.

Lemma nth_app_at : forall A (l1 l2 : list A) k j d, length l1 = k -> nth (k + j) (l1 ++ l2) d = nth j l2 d.
Proof. intros A l1 l2 k j d <-. apply app_nth2_plus. Qed.

(* what stands at every location the copy allocates *)
Lemma news_cells : forall r g d h F h', h' = h ++ p_news r g d h F ->
  get h' (length h) = p_root r g d h F
  /\ (forall k, k < 7 -> get h' (length h + k) = nth k (p_hd r g d h F) CFree)
  /\ get h' (p_vb h F) = store_cell h (r_attrib r) (r_vals r) (p_at F)
  /\ (forall j, j < p_n h F ->
        get h' (length h + 7 + j) = nth j (p_A r h F) CFree
        /\ get h' (length h + 7 + p_n h F + j) = nth j (p_AD r h F) CFree
        /\ get h' (p_vb h F + 1 + j) = nth j (astore_cells r h (p_atoms h F)) CFree)
  /\ (forall j, j < p_m h F ->
        get h' (length h + 7 + p_n h F + p_n h F + j) = nth j (p_B r h F) CFree
        /\ get h' (length h + 7 + p_n h F + p_n h F + p_m h F + j) = nth j (p_BD r h F) CFree
        /\ get h' (p_vb h F + 1 + p_n h F + j) = nth j (bstore_cells (brow_of r) h (p_bonds h F)) CFree).
Proof.
  intros r g d h F h' ->.
  destruct (p_lengths r g d h F) as [L1 [L2 [L3 [L4 [L5 L6]]]]].
  assert (La : length (astore_cells r h (p_atoms h F)) = p_n h F) by apply length_mapi.
  (* every address is (length h) + the lengths of the segments before + an index into the segment *)
  assert (G : forall k a, k = a -> get (h ++ p_news r g d h F) (length h + k) = nth a (p_news r g d h F) CFree).
  { intros k a ->. apply get_app_new. }
  unfold p_news, p_vb in *.
  split; [rewrite <- (Nat.add_0_r (length h)) at 1; apply (G 0 0); reflexivity|].
  split; [intros k Hk; rewrite (G k k) by reflexivity; apply app_nth1; lia|].
  split.
  { rewrite <- !Nat.add_assoc. rewrite (G _ (7 + (p_n h F + (p_n h F + (p_m h F + (p_m h F + 0)))))) by lia.
    now rewrite !nth_app_at by assumption. }
  split; intros j Hj; (split; [|split]); rewrite <- !Nat.add_assoc.
  - rewrite (G _ (7 + j)) by lia. rewrite !nth_app_at by assumption. apply app_nth1. lia.
  - rewrite (G _ (7 + (p_n h F + j))) by lia. rewrite !nth_app_at by assumption. apply app_nth1. lia.
  - rewrite (G _ (7 + (p_n h F + (p_n h F + (p_m h F + (p_m h F + S j)))))) by lia.
    rewrite !nth_app_at by assumption. apply app_nth1. lia.
  - rewrite (G _ (7 + (p_n h F + (p_n h F + j)))) by lia. rewrite !nth_app_at by assumption. apply app_nth1. lia.
  - rewrite (G _ (7 + (p_n h F + (p_n h F + (p_m h F + j))))) by lia. rewrite !nth_app_at by assumption. apply app_nth1. lia.
  - rewrite (G _ (7 + (p_n h F + (p_n h F + (p_m h F + (p_m h F + S (p_n h F + j))))))) by lia.
    rewrite !nth_app_at by assumption. simpl. now rewrite nth_app_at by assumption.
Qed.

Lemma st_copied_eq : forall s, st_copied s = true -> s = Copied.
Proof. destruct s; simpl; congruence. Qed.
Lemma ast_copied_eq : forall s, ast_copied s = true -> s = ACopied.
Proof. destruct s; simpl; congruence. Qed.
Lemma dict_loc_fresh : forall s a f, st_fresh s = true -> dict_loc s a f = f.
Proof. destruct s; simpl; congruence. Qed.
Lemma arr_loc_fresh : forall s src f p, ast_fresh s = true -> In p (olist (arr_loc s src f)) -> p = f.
Proof. destruct s; simpl; try congruence; intros [x|] f p _ H; simpl in H; intuition. Qed.
(* the two pointer notions as one family: the containers (deep = false), the attribute values as well (deep = true) *)
Definition lptrs (deep : bool) : cell -> list loc := if deep then vptrs else ptrs.

Lemma ptrs_sub_vptrs : forall c p, In p (ptrs c) -> In p (vptrs c).
Proof. intros c p H. destruct c; simpl in *; auto; contradiction. Qed.
Lemma lptrs_vptrs : forall deep c p, In p (lptrs deep c) -> In p (vptrs c).
Proof. intros [|] c p H; [exact H|apply ptrs_sub_vptrs; exact H]. Qed.

Lemma arr_cell_leaf : forall h s src g, vptrs (arr_cell h s src g) = [].
Proof. intros h s src g. unfold arr_cell. destruct s; auto. destruct (oarr h src); auto. Qed.
Lemma store_cell_leaf : forall h s vs src, vptrs (store_cell h s vs src) = [].
Proof.
  intros h s vs src. unfold store_cell, val_cell. destruct s; auto. destruct vs; auto.
  destruct (vals_of h src); auto. destruct (get h l); auto.
Qed.
(* a copied dictionary points nowhere but, at the deep level, to the store of its values: its own if they are fresh *)
Lemma dict_cell_lptrs : forall deep h s vs src f p,
  (deep = true -> vs = VFresh) -> In p (lptrs deep (dict_cell h s vs src f)) -> p = f.
Proof.
  intros deep h s vs src f p Hvs H. unfold dict_cell in H.
  destruct s; try (destruct deep; contradiction).
  destruct (get h src) as [|kv [l|]| | | | | |]; try (destruct deep; contradiction).
  destruct deep; [|contradiction]. rewrite (Hvs eq_refl) in H. destruct H as [<-|[]]. reflexivity.
Qed.
Lemma p_V_leaf : forall r h F c, In c (p_V r h F) -> vptrs c = [].
Proof.
  intros r h F c Hc. unfold p_V in Hc. destruct Hc as [<-|Hc]; [apply store_cell_leaf|].
  apply in_app_iff in Hc. destruct Hc as [Hc|Hc]; apply In_mapi in Hc; destruct Hc as [j [a [_ [_ ->]]]].
  - destruct (r_atom r); auto. destruct (get h a); auto. apply store_cell_leaf.
  - destruct (b_obj (brow_of r)); auto. destruct (get h a); auto. apply store_cell_leaf.
Qed.

Lemma row_indep_inv : forall r, row_indep r = true ->
  r_alist r = Copied /\ r_atom r = Copied /\ st_fresh (r_aattrib r) = true
  /\ match r_bonds r with
     | None => True
     | Some b => b_list b = Copied /\ b_obj b = Copied /\ st_fresh (b_attrib b) = true /\ b_ends b = ERemap
     end
  /\ ast_fresh (r_coords r) = true /\ ast_fresh (r_charges r) = true /\ ast_fresh (r_weights r) = true
  /\ st_fresh (r_attrib r) = true.
Proof.
  intros r H. unfold row_indep in H. rewrite !andb_true_iff in H.
  destruct H as [[[[[[[[Hal Hat] Haa] _] Hb] Hco] Hch] Hwe] Hatt].
  repeat split; auto using st_copied_eq.
  destruct (r_bonds r) as [b|]; auto. rewrite !andb_true_iff in Hb. destruct Hb as [[[[Hbl Hbo] Hba] _] Hbe].
  repeat split; auto using st_copied_eq. destruct (b_ends b); auto; discriminate.
Qed.

Lemma vst_ok_deep : forall s, vst_ok true s = true -> s = VFresh.
Proof. destruct s; simpl; congruence. Qed.

Lemma vals_ok_deep : forall r, vals_ok true r = true ->
  r_vals r = VFresh /\ r_avals r = VFresh /\ forall b, r_bonds r = Some b -> b_vals b = VFresh.
Proof.
  intros r H. unfold vals_ok in H. rewrite !andb_true_iff in H. destruct H as [[H1 H2] H3].
  split; [apply vst_ok_deep; exact H1|]. split; [apply vst_ok_deep; exact H2|].
  intros b Hb. rewrite Hb in H3. apply vst_ok_deep; exact H3.
Qed.

Lemma in_new_atoms : forall A (l : list A) b p, In p (mapi_from (fun j _ => b + j) 0 l) -> b <= p < b + length l.
Proof.
  intros A l b p H. apply In_mapi in H. destruct H as [j [x [Hj [_ ->]]]]. lia.
Qed.

Lemma ends_found_In : forall h atoms bonds b a1 a2 p d par,
  ends_found h atoms bonds = true -> In b bonds -> get h b = CBond a1 a2 p d par ->
  exists i1 i2, index_of a1 atoms = Some i1 /\ index_of a2 atoms = Some i2.
Proof.
  intros h atoms bonds b a1 a2 p d par H Hin Hb. unfold ends_found in H. rewrite forallb_forall in H.
  specialize (H b Hin). rewrite Hb in H.
  destruct (index_of a1 atoms) as [i1|]; [|discriminate].
  destruct (index_of a2 atoms) as [i2|]; [|discriminate]. eauto.
Qed.

Lemma remap_copied : forall atoms b a i,
  index_of a atoms = Some i ->
  remap ERemap atoms (mapi_from (fun j _ => b + j) 0 atoms) a = b + i.
Proof.
  intros atoms b a i H. unfold remap. rewrite H. now rewrite (nth_mapi _ _ _ _ _ _ _ _ (index_of_nth _ _ _ H)).
Qed.

(* under `row_indep` every container pointer of a new cell goes to a new cell; with fresh values (`vals_ok true`)
   so does the pointer from a new dictionary to the store of its values *)
Lemma news_fresh : forall deep r g d h F, row_indep r = true -> (deep = true -> vals_ok true r = true) ->
  (b_ends (brow_of r) = ERemap -> ends_found h (p_atoms h F) (p_bonds h F) = true) ->
  forall c, In c (p_news r g d h F) -> forall p, In p (lptrs deep c) -> length h <= p < length h + p_total h F.
Proof.
  intros deep r g d h F Hind Hvals Hends c Hc p Hp. unfold p_total.
  pose proof (lptrs_vptrs _ _ _ Hp) as Hv.
  destruct (row_indep_inv r Hind) as [Hal [Hat [Haa [Hb [Hco [Hch [Hwe Hatt]]]]]]].
  assert (Hfresh : deep = true -> r_vals r = VFresh /\ r_avals r = VFresh /\ forall b, r_bonds r = Some b -> b_vals b = VFresh).
  { intros E. apply vals_ok_deep. auto. }
  unfold p_news in Hc. rewrite !in_app_iff in Hc. destruct Hc as [Hc|[Hc|[Hc|[Hc|[Hc|Hc]]]]].
  - unfold p_hd in Hc. simpl in Hc.
    destruct Hc as [<-|[<-|[<-|[<-|[<-|[<-|[<-|[]]]]]]]].
    + unfold p_root in Hv. simpl in Hv. unfold alist_loc_of in Hv. rewrite Hal in Hv.
      rewrite dict_loc_fresh in Hv by auto.
      destruct Hv as [<-|[<-|Hv]]; try lia.
      rewrite !in_app_iff in Hv. destruct Hv as [Hv|[Hv|[Hv|Hv]]].
      * unfold blist_loc_of in Hv. destruct (r_bonds r) as [b|]; [|destruct Hv].
        destruct Hb as [Hbl _]. rewrite Hbl in Hv. simpl in Hv. destruct Hv as [<-|[]]. lia.
      * apply arr_loc_fresh in Hv; auto. lia.
      * apply arr_loc_fresh in Hv; auto. lia.
      * apply arr_loc_fresh in Hv; auto. lia.
    + unfold alist_cell_of in Hv. rewrite Hal in Hv. simpl in Hv. unfold new_atoms_of in Hv. rewrite Hat in Hv.
      apply in_new_atoms in Hv. unfold p_n. lia.
    + unfold blist_cell_of in Hv. destruct (r_bonds r) as [b|] eqn:Eb; [|destruct Hv].
      destruct Hb as [Hbl [Hbo _]]. rewrite Hbl in Hv. simpl in Hv.
      unfold new_bonds_of, brow_of in Hv. rewrite Eb, Hbo in Hv.
      apply in_new_atoms in Hv. unfold p_m. lia.
    + rewrite arr_cell_leaf in Hv. destruct Hv.
    + rewrite arr_cell_leaf in Hv. destruct Hv.
    + rewrite arr_cell_leaf in Hv. destruct Hv.
    + apply dict_cell_lptrs in Hp; [subst p; lia|intros E; apply (Hfresh E)].
  - unfold p_A, atom_cells in Hc. apply In_mapi in Hc. destruct Hc as [j [a [Hj [_ ->]]]].
    rewrite Hat in Hv. destruct (get h a); simpl in Hv; try contradiction.
    rewrite dict_loc_fresh in Hv by auto. destruct Hv as [<-|[]]. fold (p_n h F) in Hj. lia.
  - unfold p_AD, adict_cells in Hc. apply In_mapi in Hc. destruct Hc as [j [a [Hj [_ ->]]]].
    rewrite Hat in Hp, Hv. destruct (get h a); try contradiction.
    apply dict_cell_lptrs in Hp; [|intros E; apply (Hfresh E)]. unfold p_vb in Hp. fold (p_n h F) in Hj. lia.
  - unfold p_B, bond_cells in Hc. apply In_mapi in Hc. destruct Hc as [j [b [Hj [Hnb ->]]]].
    unfold brow_of in *. destruct (r_bonds r) as [br|] eqn:Eb; [|simpl in Hv; contradiction].
    destruct Hb as [_ [Hbo [Hba Hbe]]]. rewrite Hbo in Hv.
    destruct (get h b) as [| | | |a1 a2 pay dd par| | |] eqn:Eg; simpl in Hv; try contradiction.
    destruct (ends_found_In h _ _ b a1 a2 pay dd par (Hends Hbe) (nth_error_In _ _ Hnb) Eg) as [i1 [i2 [H1 H2]]].
    rewrite Hbe in Hv. unfold new_atoms_of in Hv. rewrite Hat in Hv.
    rewrite (remap_copied _ _ _ _ H1), (remap_copied _ _ _ _ H2) in Hv.
    rewrite dict_loc_fresh in Hv by auto.
    apply index_of_lt in H1. apply index_of_lt in H2. fold (p_n h F) in H1, H2. fold (p_m h F) in Hj.
    destruct Hv as [<-|[<-|[<-|[]]]]; lia.
  - unfold p_BD, bdict_cells in Hc. apply In_mapi in Hc. destruct Hc as [j [b [Hj [_ ->]]]].
    unfold brow_of in *. destruct (r_bonds r) as [br|] eqn:Eb; [|simpl in Hv; contradiction].
    destruct (b_obj br); try contradiction. destruct (get h b); try contradiction.
    apply dict_cell_lptrs in Hp; [|intros E; apply (Hfresh E); reflexivity]. unfold p_vb in Hp. fold (p_m h F) in Hj. lia.
  - rewrite (p_V_leaf r h F c Hc) in Hv. destruct Hv.
Qed.

(* Independence, at either level: the copy lives in the fresh region, the source's cells are untouched and closed *)
Theorem copy_regions : forall deep r g d h o h' o',
  (forall l, l < length h -> forall p, In p (lptrs deep (get h l)) -> p < length h) ->
  row_indep r = true -> (deep = true -> vals_ok true r = true) -> copy_row r g d h o = Some (h', o') ->
  o' = length h /\ length h < length h'
  /\ (forall l, l < length h -> get h' l = get h l)
  /\ closed_under (lptrs deep) h' (fun l => length h <= l < length h')
  /\ closed_under (lptrs deep) h' (fun l => l < length h).
Proof.
  intros deep r g d h o h' o' Hwf Hind Hvals Hc.
  destruct (copy_row_inv _ _ _ _ _ _ _ Hc) as [F [_ [-> [Hends ->]]]].
  split; [reflexivity|]. split; [rewrite app_length, p_news_length; unfold p_total; lia|].
  split; [intros l Hl; apply get_app_old; exact Hl|].
  split; [|exact (app_old_closed _ h _ Hwf)]. apply app_new_closed. intros c Hc' p Hp.
  rewrite app_length, p_news_length. exact (news_fresh deep r g d h F Hind Hvals Hends c Hc' p Hp).
Qed.

(* ... so the result is separated from every object of the old heap *)
Lemma copy_sep : forall deep r g d h o h' o',
  (forall l, l < length h -> forall p, In p (lptrs deep (get h l)) -> p < length h) ->
  row_indep r = true -> (deep = true -> vals_ok true r = true) -> copy_row r g d h o = Some (h', o') ->
  forall x, x < length h -> sep (lptrs deep) h' o' x.
Proof.
  intros deep r g d h o h' o' Hwf Hind Hvals Hc x Hx.
  destruct (copy_regions deep _ _ _ _ _ _ _ Hwf Hind Hvals Hc) as [-> [Hlt [_ [HA HB]]]].
  exists (fun l => length h <= l < length h'), (fun l => l < length h).
  split; [exact HA|]. split; [exact HB|]. split; [intros l H1 H2; lia|]. split; [lia|exact Hx].
Qed.

Corollary copy_separated : forall r g d h o h' o',
  heap_wf h -> row_indep r = true -> copy_row r g d h o = Some (h', o') -> separated h' o' o.
Proof.
  intros r g d h o h' o' Hwf Hind Hc.
  apply (copy_sep false _ _ _ _ _ _ _ Hwf Hind ltac:(discriminate) Hc). exact (copy_row_lt _ _ _ _ _ _ Hc).
Qed.

(* `self_a` / `self_b` of the model as propositions; a missing atom or bond (None) is let through, the strip_* equations exclude it *)
Definition selfP_a (a : aobs) : Prop := match a with Some (_, _, q) => q = QSelf | None => True end.
Definition selfP_b (b : bobs) : Prop := match b with Some (_, _, _, _, q) => q = QSelf | None => True end.

Lemma arr_copied : forall h h' src f g,
  get h' f = arr_cell h ACopied src g -> oarr h' (arr_loc ACopied src f) = oarr h src.
Proof.
  intros h h' [l|] f g H; simpl in *; auto.
  unfold arr_of. rewrite H. unfold arr_of. destruct (get h l); auto.
Qed.

Lemma dict_copied : forall h h' vs src f fr,
  get h' f = dict_cell h Copied vs src fr -> dict_of h' f = dict_of h src.
Proof.
  intros h h' vs src f fr H. unfold dict_of. rewrite H. simpl. destruct (get h src); auto.
Qed.

Lemma atoms_ok_inv : forall r, atoms_ok r = true ->
  r_alist r = Copied /\ r_atom r = Copied /\ r_aattrib r = Copied /\ r_aparent r = RSelf.
Proof.
  intros r H. unfold atoms_ok in H. rewrite !andb_true_iff in H. destruct H as [[[H1 H2] H3] H4].
  repeat split; auto using st_copied_eq. destruct (r_aparent r); simpl in *; congruence.
Qed.

Lemma bonds_ok_inv : forall r, bonds_ok r = true ->
  exists b, r_bonds r = Some b /\ brow_of r = b /\ b_list b = Copied /\ b_obj b = Copied /\ b_attrib b = Copied
            /\ b_parent b = RSelf /\ b_ends b = ERemap.
Proof.
  intros r H. unfold bonds_ok, brow_of in *. destruct (r_bonds r) as [b|]; [|discriminate]. exists b.
  unfold brow_ok in H. rewrite !andb_true_iff in H. destruct H as [[[[H1 H2] H3] H4] H5].
  repeat split; auto using st_copied_eq.
  - destruct (b_parent b); simpl in *; congruence.
  - destruct (b_ends b); congruence.
Qed.

(* the cell a copy puts at the place of the j-th atom / bond (or of its dictionary, or of its store) *)
Lemma get_new_mapi : forall (f : nat -> loc -> cell) l j x h' k,
  get h' k = nth j (mapi_from f 0 l) CFree -> nth_error l j = Some x -> get h' k = f j x.
Proof. intros f l j x h' k -> Hn. apply (nth_mapi _ _ f l 0 j x CFree Hn). Qed.

Lemma new_alist : forall r g d h F h', h' = h ++ p_news r g d h F -> r_alist r = Copied -> r_atom r = Copied ->
  items_of h' (length h + 1) = mapi_from (fun j _ => length h + 7 + j) 0 (p_atoms h F).
Proof.
  intros r g d h F h' Hh Hal Hat. destruct (news_cells _ _ _ _ _ _ Hh) as [_ [G0 _]].
  unfold items_of. rewrite (G0 1) by lia. simpl. unfold alist_cell_of, new_atoms_of. now rewrite Hal, Hat.
Qed.

Lemma new_blist : forall r g d h F h' br, h' = h ++ p_news r g d h F ->
  r_bonds r = Some br -> b_list br = Copied -> b_obj br = Copied ->
  items_of h' (length h + 2) = mapi_from (fun j _ => length h + 7 + p_n h F + p_n h F + j) 0 (p_bonds h F).
Proof.
  intros r g d h F h' br Hh Hbr Hbl Hbo. destruct (news_cells _ _ _ _ _ _ Hh) as [_ [G0 _]].
  unfold items_of. rewrite (G0 2) by lia. simpl. unfold blist_cell_of, new_bonds_of, brow_of.
  rewrite Hbr, Hbl, Hbo. destruct (p_bl F); reflexivity.
Qed.

Theorem copy_faithful : forall r g d h o h' o',
  copy_row r g d h o = Some (h', o') ->
  exists ob ob', obs h o = Some ob /\ obs h' o' = Some ob' /\ o_cls ob' = d
  /\ o_scal ob' = (if r_scal r then o_scal ob else g_scal g)
  /\ (atoms_ok r = true ->
        map strip_a (o_atoms ob') = map strip_a (o_atoms ob) /\ Forall selfP_a (o_atoms ob'))
  /\ (atoms_ok r = true -> bonds_ok r = true -> o_bonds ob <> None ->
        option_map (map strip_b) (o_bonds ob') = option_map (map strip_b) (o_bonds ob)
        /\ forall bs, o_bonds ob' = Some bs -> Forall selfP_b bs)
  /\ (r_coords r = ACopied -> o_coords ob' = o_coords ob)
  /\ (r_charges r = ACopied -> o_charges ob' = o_charges ob)
  /\ (r_weights r = ACopied -> o_weights ob' = o_weights ob)
  /\ (r_attrib r = Copied -> o_attrib ob' = o_attrib ob).
Proof.
  intros r g d h o h' o' Hc.
  destruct (copy_row_inv _ _ _ _ _ _ _ Hc) as [F [Hget [-> [Hends Hh']]]].
  destruct (news_cells _ _ _ _ _ _ Hh') as [Groot [G0 [_ [GA GB]]]].
  unfold obs. rewrite Hget, Groot. unfold p_root.
  eexists. eexists. split; [reflexivity|]. split; [reflexivity|]. simpl.
  split; [reflexivity|]. split; [reflexivity|].
  (* what the copy shows of its atoms, as a function of the source's atoms *)
  assert (Hatoms : atoms_ok r = true ->
            map (atom_obs h' (length h)) (mapi_from (fun j _ => length h + 7 + j) 0 (p_atoms h F)) =
            map (fun a => match get h a with CAtom p dd par => Some (p, dict_of h dd, QSelf) | _ => None end) (p_atoms h F)).
  { intros Hok. destruct (atoms_ok_inv r Hok) as [_ [Hat [Haa Hap]]]. apply map_mapi. intros j a Hn. simpl.
    destruct (GA j) as [E1 [E2 _]]; [apply nth_error_Some; unfold p_atoms in *; congruence|].
    apply get_new_mapi with (2 := Hn) in E1, E2. rewrite Hat in E1, E2.
    unfold atom_obs. rewrite E1. destruct (get h a) as [| | |p dd par| | | |]; auto.
    rewrite Haa, Hap. simpl. rewrite Nat.eqb_refl. rewrite Haa in E2. now rewrite (dict_copied _ _ _ _ _ _ E2). }
  split.
  { intros Hok. destruct (atoms_ok_inv r Hok) as [Hal [Hat _]].
    unfold alist_loc_of. rewrite Hal, (new_alist _ _ _ _ _ _ Hh' Hal Hat), (Hatoms Hok). split.
    - rewrite !map_map. apply map_ext. intros a. unfold atom_obs. destruct (get h a); auto.
    - apply Forall_forall. intros x Hx. apply in_map_iff in Hx. destruct Hx as [a [<- _]].
      destruct (get h a); simpl; auto. }
  split.
  { intros Hok Hbok Hsome. destruct (atoms_ok_inv r Hok) as [Hal [Hat _]].
    destruct (bonds_ok_inv r Hbok) as [br [Hbr [Hbrow [Hbl [Hbo [Hba [Hbp Hbe]]]]]]].
    destruct (p_bl F) as [l|] eqn:Ebl; [|exfalso; apply Hsome; reflexivity]. clear Hsome.
    unfold alist_loc_of, blist_loc_of. rewrite Hal, Hbr, Hbl. simpl.
    rewrite (new_alist _ _ _ _ _ _ Hh' Hal Hat), (new_blist _ _ _ _ _ _ _ Hh' Hbr Hbl Hbo).
    assert (Hpb : items_of h l = p_bonds h F) by (unfold p_bonds; rewrite Ebl; reflexivity).
    rewrite Hpb.
    (* ... and of its bonds: the ends are found in the new atom list at the index they have in the source's *)
    rewrite (map_mapi _ _ _ (bond_obs h' (length h) (mapi_from (fun j _ => length h + 7 + j) 0 (p_atoms h F)))
               (fun b => match get h b with
                         | CBond a1 a2 p dd par =>
                             Some (index_of a1 (p_atoms h F), index_of a2 (p_atoms h F), p, dict_of h dd, QSelf)
                         | _ => None end)).
    2:{ intros j b Hn. simpl. destruct (GB j) as [E1 [E2 _]]; [apply nth_error_Some; unfold p_m; congruence|].
      apply get_new_mapi with (2 := Hn) in E1, E2. rewrite Hbrow, Hbo in E1, E2.
      unfold bond_obs. rewrite E1. destruct (get h b) as [| | | |a1 a2 p dd par| | |] eqn:Eb; auto.
      rewrite Hbrow in Hends.
      destruct (ends_found_In h _ _ b a1 a2 p dd par (Hends Hbe) (nth_error_In _ _ Hn) Eb) as [i1 [i2 [H1 H2]]].
      rewrite Hbe, Hba, Hbp. unfold new_atoms_of. rewrite Hat.
      rewrite (remap_copied _ _ _ _ H1), (remap_copied _ _ _ _ H2). simpl.
      rewrite Nat.eqb_refl.
      replace (length h + 7 + i1) with (length h + 7 + (0 + i1)) by lia.
      replace (length h + 7 + i2) with (length h + 7 + (0 + i2)) by lia.
      rewrite !index_of_offset by (eapply index_of_lt; eauto).
      rewrite H1, H2. rewrite Hba in E2. now rewrite (dict_copied _ _ _ _ _ _ E2). }
    split.
    - f_equal. rewrite !map_map. apply map_ext. intros b. unfold bond_obs. destruct (get h b); auto.
    - intros bs Hbs. inversion Hbs; subst bs. apply Forall_forall. intros x Hx.
      apply in_map_iff in Hx. destruct Hx as [b [<- _]]. destruct (get h b); simpl; auto. }
  split.
  { intros Hr. rewrite Hr. apply arr_copied with (g := g_coords g). rewrite (G0 3 ltac:(lia)). simpl. rewrite Hr. reflexivity. }
  split.
  { intros Hr. rewrite Hr. apply arr_copied with (g := g_charges g). rewrite (G0 4 ltac:(lia)). simpl. rewrite Hr. reflexivity. }
  split.
  { intros Hr. rewrite Hr. apply arr_copied with (g := g_weights g). rewrite (G0 5 ltac:(lia)). simpl. rewrite Hr. reflexivity. }
  intros Hr. rewrite Hr. simpl. eapply dict_copied. rewrite (G0 6 ltac:(lia)). simpl. rewrite Hr. reflexivity.
Qed.

Definition faithful_on (nd : need) (ob ob' : obsr) : Prop :=
  map strip_a (o_atoms ob') = map strip_a (o_atoms ob) /\ Forall selfP_a (o_atoms ob')
  /\ (n_bonds nd = true -> o_bonds ob <> None ->
        option_map (map strip_b) (o_bonds ob') = option_map (map strip_b) (o_bonds ob)
        /\ forall bs, o_bonds ob' = Some bs -> Forall selfP_b bs)
  /\ (n_coords nd = true -> o_coords ob' = o_coords ob)
  /\ (n_charges nd = true -> o_charges ob' = o_charges ob)
  /\ (n_weights nd = true -> o_weights ob' = o_weights ob)
  /\ (n_scal nd = true -> o_scal ob' = o_scal ob)
  /\ (n_attrib nd = true -> o_attrib ob' = o_attrib ob).

Lemma row_faithful_inv : forall nd r, row_faithful nd r = true ->
  atoms_ok r = true /\ (n_bonds nd = true -> bonds_ok r = true)
  /\ (n_coords nd = true -> r_coords r = ACopied) /\ (n_charges nd = true -> r_charges r = ACopied)
  /\ (n_weights nd = true -> r_weights r = ACopied) /\ (n_scal nd = true -> r_scal r = true)
  /\ (n_attrib nd = true -> r_attrib r = Copied).
Proof.
  intros nd r H. unfold row_faithful in H. rewrite !andb_true_iff in H.
  destruct H as [[[[[[[H0 H1] H2] H3] H4] H5] H6] _]. split; [exact H0|].
  repeat split; intros Hn; rewrite Hn in *; simpl in *; auto using ast_copied_eq, st_copied_eq.
Qed.

Lemma row_ok_inv : forall nd r, row_ok nd r = true -> row_indep r = true /\ row_faithful nd r = true.
Proof. intros nd r H. apply andb_true_iff. exact H. Qed.

Theorem copy_row_sound : forall nd r g d h o h' o',
  heap_wf h -> row_ok nd r = true -> copy_row r g d h o = Some (h', o') ->
  separated h' o' o
  /\ (forall l, In l (reach h' o') -> ~ In l (reach h' o))
  /\ exists ob ob', obs h o = Some ob /\ obs h' o = Some ob /\ obs h' o' = Some ob'
                    /\ o_cls ob' = d /\ faithful_on nd ob ob'.
Proof.
  intros nd r g d h o h' o' Hwf Hok Hc. destruct (row_ok_inv _ _ Hok) as [Hind Hf].
  pose proof (copy_separated _ _ _ _ _ _ _ Hwf Hind Hc) as Hsep. split; [exact Hsep|].
  split; [intros l; rewrite !reach_g; exact (sep_reach_disjoint ptrs 4 4 h' o' o Hsep l)|].
  destruct (copy_faithful _ _ _ _ _ _ _ Hc) as [ob [ob' [Ho [Ho' [Hcls [Hsc [Hat [Hbo [Hco [Hch [Hwe Hatt]]]]]]]]]]].
  exists ob, ob'. split; [exact Ho|]. split.
  { rewrite <- Ho. destruct (copy_row_inv _ _ _ _ _ _ _ Hc) as [F [_ [_ [_ ->]]]].
    apply app_obs_old; [exact Hwf|exact (copy_row_lt _ _ _ _ _ _ Hc)]. }
  split; [exact Ho'|]. split; [exact Hcls|].
  destruct (row_faithful_inv _ _ Hf) as [F0 [F1 [F2 [F3 [F4 [F5 F6]]]]]].
  destruct (Hat F0) as [Ha1 Ha2]. unfold faithful_on. split; [exact Ha1|]. split; [exact Ha2|].
  split; [intros Hn; apply Hbo; auto|]. split; [auto|]. split; [auto|]. split; [auto|].
  split; [intros Hn; rewrite Hsc, (F5 Hn); reflexivity|auto].
Qed.

(* a copy along a route with overrides IS a copy_row with the call's values as `given`: every theorem about
   copy_row (for all `given`) applies to it *)
Lemma copy_route_row : forall rt r g d h o x,
  copy_route rt r g d h o = Some x -> exists g', copy_row r g' d h o = Some x.
Proof.
  intros rt r g d h o x H. unfold copy_route in H.
  destruct (get h o) as [| | | | | |cls sc al bl co ch we at_|]; try discriminate.
  eexists. exact H.
Qed.

Lemma pick_scal_length : forall mask sc gs, length (pick_scal mask sc gs) = length sc.
Proof.
  intros mask sc. revert mask. induction sc as [|s sr IH]; intros mask gs; simpl; [reflexivity|].
  destruct mask as [|b mr]; simpl; [reflexivity|]. rewrite IH. reflexivity.
Qed.

(* a scalar that is not named by the call is the source's *)
Lemma pick_scal_keeps : forall mask sc gs i,
  nth i mask false = false -> nth_error (pick_scal mask sc gs) i = nth_error sc i.
Proof.
  intros mask sc. revert mask. induction sc as [|s sr IH]; intros mask gs i Hm; simpl; [reflexivity|].
  destruct mask as [|b mr]; [reflexivity|].
  destruct i as [|i]; simpl in *.
  - subst b. reflexivity.
  - apply IH. exact Hm.
Qed.

(* a scalar that is named takes the value of the call *)
Lemma pick_scal_takes : forall mask sc gs i,
  nth i mask false = true -> i < length sc -> i < length gs ->
  nth_error (pick_scal mask sc gs) i = nth_error gs i.
Proof.
  intros mask sc. revert mask. induction sc as [|s sr IH]; intros mask gs i Hm Hi Hg; simpl in *; [lia|].
  destruct mask as [|b mr]; [destruct i; discriminate Hm|].
  destruct i as [|i]; simpl in *.
  - subst b. destruct gs as [|g gr]; simpl in *; [lia|reflexivity].
  - destruct gs as [|g gr]; simpl in *; [lia|]. apply IH; auto; lia.
Qed.

(* dst(source, <keywords v>): the source is left as it was, the result is separated from it, every field the
   call does not name is the source's (arrays / bonds / attributes by faithful_on under the masked need, the
   scalars position by position), and the named scalars are the call's *)
Theorem override_copy_sound : forall nd dd v r g d h o h' o',
  heap_wf h -> row_ok nd r = true -> copy_route (RCtorWith dd v) r g d h o = Some (h', o') ->
  separated h' o' o
  /\ (forall l, In l (reach h' o') -> ~ In l (reach h' o))
  /\ exists ob ob', obs h o = Some ob /\ obs h' o = Some ob /\ obs h' o' = Some ob'
        /\ o_cls ob' = d /\ faithful_on nd ob ob'
        /\ length (o_scal ob') = length (o_scal ob)
        /\ (forall i, nth i (ovr_mask v) false = false -> nth_error (o_scal ob') i = nth_error (o_scal ob) i)
        /\ (r_scal r = false -> forall i, nth i (ovr_mask v) false = true -> i < length (o_scal ob) -> i < length (g_scal g) ->
               nth_error (o_scal ob') i = nth_error (g_scal g) i).
Proof.
  intros nd dd v r g d h o h' o' Hwf Hok Hc.
  destruct (copy_route_row _ _ _ _ _ _ _ Hc) as [g' Hc'].
  destruct (copy_row_sound nd r g' d h o h' o' Hwf Hok Hc') as [Hsep [Hdis [ob [ob' [Ho [Hos [Ho' [Hcls Hf]]]]]]]].
  clear g' Hc'.
  split; [exact Hsep|]. split; [exact Hdis|]. exists ob, ob'.
  do 5 (split; [assumption|]).
  unfold copy_route in Hc.
  destruct (get h o) as [| | | | | |cls sc al bl co ch we at_|] eqn:Eo; try discriminate.
  destruct (copy_faithful _ _ _ _ _ _ _ Hc) as [ob1 [ob1' [Ho1 [Ho1' [_ [Hsc _]]]]]].
  rewrite Ho in Ho1. inversion Ho1; subst ob1. rewrite Ho' in Ho1'. inversion Ho1'; subst ob1'.
  assert (Esc : o_scal ob = sc).
  { unfold obs in Ho. rewrite Eo in Ho. inversion Ho. reflexivity. }
  simpl in Hsc. rewrite <- Esc in Hsc. rewrite Hsc.
  destruct (r_scal r).
  - split; [reflexivity|]. split; [reflexivity|]. discriminate.
  - split; [apply pick_scal_length|]. split.
    + intros i Hi. apply pick_scal_keeps. exact Hi.
    + intros _ i Hi Hl Hg. apply pick_scal_takes; auto.
Qed.

Lemma kls_eqb_eq : forall a b, kls_eqb a b = true -> a = b.
Proof. intros a b H. destruct a, b; try reflexivity; discriminate H. Qed.

Lemma ovr_eqb_eq : forall a b, ovr_eqb a b = true -> a = b.
Proof.
  intros [a1 a2 a3 a4 a5 a6] [b1 b2 b3 b4 b5 b6] H. unfold ovr_eqb in H. simpl in H.
  rewrite !andb_true_iff in H. destruct H as [[[[[H1 H2] H3] H4] H5] H6].
  apply Bool.eqb_prop in H1, H2, H3, H4, H5, H6. subst. reflexivity.
Qed.

Lemma route_eqb_eq : forall a b, route_eqb a b = true -> a = b.
Proof.
  intros a b H. destruct a, b; simpl in H; try discriminate; try reflexivity.
  - apply kls_eqb_eq in H. now subst.
  - apply andb_true_iff in H. destruct H as [H1 H2]. apply kls_eqb_eq in H1. apply ovr_eqb_eq in H2. now subst.
  - apply andb_true_iff in H. destruct H as [H1 H2]. apply kls_eqb_eq in H1. apply Nat.eqb_eq in H2. now subst.
  - apply kls_eqb_eq in H. now subst.
Qed.

Lemma lookup_row_In : forall t k r x, lookup_row t k r = Some x -> In (k, r, x) t.
Proof.
  intros t k r x H. unfold lookup_row in H.
  match type of H with match ?F with _ => _ end = _ => destruct F as [[[k' r'] x']|] eqn:E end; [|discriminate].
  inversion H; subst x'.
  apply find_some in E. destruct E as [Hin He]. apply andb_true_iff in He. destruct He as [H1 H2].
  apply kls_eqb_eq in H1. apply route_eqb_eq in H2. now subst.
Qed.

Lemma table_row_ok : forall known t, table_ok known t = true ->
  forall k r x, lookup_row t k r = Some x ->
  (lone k = false -> row_ok (need_known known k r) x = true) /\ vals_ok (deep_route r) x = true.
Proof.
  intros known t Ht k r x Hl. unfold table_ok in Ht. apply andb_true_iff in Ht. destruct Ht as [_ Ht].
  rewrite forallb_forall in Ht. pose proof (Ht _ (lookup_row_In _ _ _ _ Hl)) as H. unfold entry_ok in H. apply andb_true_iff in H. destruct H as [H1 H2].
  split; [intros Hlone; rewrite Hlone in H1; exact H1|exact H2].
Qed.

Theorem table_routes_present : forall known t, table_ok known t = true ->
  forall k r, In (k, r) required -> exists x, lookup_row t k r = Some x.
Proof.
  intros known t Ht k r Hin. unfold table_ok in Ht. apply andb_true_iff in Ht. destruct Ht as [Ht _].
  unfold table_complete in Ht. rewrite forallb_forall in Ht. specialize (Ht _ Hin). simpl in Ht.
  destruct (lookup_row t k r) as [x|]; [eauto|discriminate].
Qed.

Lemma reach_item : forall h o l j a,
  In l (ptrs (get h o)) -> nth_error (items_of h l) j = Some a -> In a (greachN ptrs 2 h o).
Proof.
  intros h o l j a Hl Ha. apply (greachN_step ptrs 1 h o l); [apply greachN_child; exact Hl|].
  apply in_items_ptrs. eapply nth_error_In; eauto.
Qed.

Lemma dict_at_reach : forall h o w d, dict_at h o w = Some d -> In d (greachN ptrs 3 h o).
Proof.
  intros h o w d H. unfold dict_at in H.
  destruct (get h o) as [| | | | | |cls sc al bl co ch we at_|] eqn:Eo; try discriminate.
  destruct w as [|j|j].
  - inversion H; subst d. apply (greachN_le ptrs 1 3); [lia|]. apply greachN_child. rewrite Eo. simpl. auto.
  - destruct (nth_error (items_of h al) j) as [a|] eqn:Ea; [|discriminate].
    destruct (get h a) as [| | |p0 d0 par| | | |] eqn:Eg; try discriminate. inversion H; subst d0.
    apply (greachN_step ptrs 2 h o a); [|rewrite Eg; simpl; auto].
    apply (reach_item h o al j a); [rewrite Eo; simpl; auto|exact Ea].
  - destruct bl as [l|]; [|discriminate].
    destruct (nth_error (items_of h l) j) as [b|] eqn:Eb; [|discriminate].
    destruct (get h b) as [| | | |a1 a2 p0 d0 par| | |] eqn:Eg; try discriminate. inversion H; subst d0.
    apply (greachN_step ptrs 2 h o b); [|rewrite Eg; simpl; auto].
    apply (reach_item h o l j b); [rewrite Eo; simpl; auto|exact Eb].
Qed.

(* every edit of the menu is one write, to a cell the object reaches within three steps, that leaves the pointers
   of that cell as they were *)
Definition one_write (h : heap) (o : loc) (ps : list prim) : Prop :=
  exists l c, ps = [PWrite l c] /\ In l (greachN ptrs 3 h o)
              /\ ptrs c = ptrs (get h l) /\ vptrs c = vptrs (get h l).

Lemma write_shape : forall h o l c ps, Some [PWrite l c] = Some ps -> In l (greachN ptrs 3 h o) ->
  ptrs c = ptrs (get h l) -> vptrs c = vptrs (get h l) -> one_write h o ps.
Proof. intros h o l c ps H Hl Hp Hv. inversion H. exists l, c. auto. Qed.

(* coords / charges / weights: an array over the array held by a field of the object *)
Lemma arr_write_shape : forall h o ol i v ps, (forall l, ol = Some l -> In l (ptrs (get h o))) ->
  match ol with
  | Some l => match get h l with CArr vs => Some [PWrite l (CArr (set_nth i v vs))] | _ => None end
  | None => None end = Some ps -> one_write h o ps.
Proof.
  intros h o [l|] i v ps Hl H; [|discriminate]. destruct (get h l) eqn:Eg; try discriminate.
  apply (write_shape _ _ _ _ _ H); [|rewrite Eg; reflexivity|rewrite Eg; reflexivity].
  apply (greachN_le ptrs 1 3); [lia|]. apply greachN_child. auto.
Qed.

(* attrib of the object / of an atom / of a bond: a dictionary over the dictionary `dict_at` finds *)
Lemma dict_write_shape : forall h o w d kv ps, dict_at h o w = Some d ->
  match get h d with CDict _ v => Some [PWrite d (CDict kv v)] | _ => None end = Some ps -> one_write h o ps.
Proof.
  intros h o w d kv ps Hd H. destruct (get h d) eqn:Eg; try discriminate.
  apply (write_shape _ _ _ _ _ H); [exact (dict_at_reach h o w d Hd)|rewrite Eg; reflexivity|rewrite Eg; reflexivity].
Qed.

Lemma compile_op_shape : forall h o x ps, compile_op h o x = Some ps -> one_write h o ps.
Proof.
  intros h o x ps H. unfold compile_op in H.
  destruct (get h o) as [| | | | | |cls sc al bl co ch we at_|] eqn:Eo; try discriminate.
  destruct x as [j p|j p|i v|i v|i v|kv|j kv|j kv|s].
  - destruct (nth_error (items_of h al) j) as [a|] eqn:Ea; [|discriminate].
    destruct (get h a) eqn:Eg; try discriminate.
    apply (write_shape _ _ _ _ _ H); [|rewrite Eg; reflexivity|rewrite Eg; reflexivity].
    apply greachN_mono. apply (reach_item h o al j a); [rewrite Eo; simpl; auto|exact Ea].
  - destruct bl as [l|]; [|discriminate]. destruct (nth_error (items_of h l) j) as [b|] eqn:Eb; [|discriminate].
    destruct (get h b) eqn:Eg; try discriminate.
    apply (write_shape _ _ _ _ _ H); [|rewrite Eg; reflexivity|rewrite Eg; reflexivity].
    apply greachN_mono. apply (reach_item h o l j b); [rewrite Eo; simpl; auto|exact Eb].
  - apply (arr_write_shape h o co i v ps); [|exact H]. intros l ->. rewrite Eo. simpl. rewrite !in_app_iff. simpl. auto 10.
  - apply (arr_write_shape h o ch i v ps); [|exact H]. intros l ->. rewrite Eo. simpl. rewrite !in_app_iff. simpl. auto 10.
  - apply (arr_write_shape h o we i v ps); [|exact H]. intros l ->. rewrite Eo. simpl. rewrite !in_app_iff. simpl. auto 10.
  - apply (dict_write_shape h o WObj at_ kv ps); [unfold dict_at; rewrite Eo; reflexivity|exact H].
  - destruct (nth_error (items_of h al) j) as [a|] eqn:Ea; [|discriminate].
    destruct (get h a) as [| | |p0 d0 par| | | |] eqn:Ega; try discriminate.
    apply (dict_write_shape h o (WAtom j) d0 kv ps); [unfold dict_at; rewrite Eo, Ea, Ega; reflexivity|exact H].
  - destruct bl as [l|]; [|discriminate]. destruct (nth_error (items_of h l) j) as [b|] eqn:Eb; [|discriminate].
    destruct (get h b) as [| | | |a1 a2 p0 d0 par| | |] eqn:Egb; try discriminate.
    apply (dict_write_shape h o (WBond j) d0 kv ps); [unfold dict_at; rewrite Eo, Eb, Egb; reflexivity|exact H].
  - apply (write_shape _ _ _ _ _ H); [apply greachN_head|rewrite Eo; reflexivity|rewrite Eo; reflexivity].
Qed.

