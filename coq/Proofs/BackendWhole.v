(* A whole writing session through the translated code -- writing().__enter__, one put, writing().__exit__ -- IS the model's
   b_begin_w ; b_put ; b_end_w, for every backend state, file, key and value (any buffer size: the put may be flushed at
   once, or at the end of the session, or fail there), and ends with the lock released. *)
From Coq Require Import NArith ZArith List Bool String Lia.
Import ListNotations.
From Molli Require Import Model.UKV Model.MiniPy Model.Backend Model.MiniPyB Gen.UKVCode Gen.BackendCode
  Proofs.UKVCode Proofs.BackendCode Proofs.BackendBuffer Proofs.BackendMode Proofs.BackendSession.
Open Scope string_scope.
Open Scope N_scope.

(* the caller's local variables survive every statement that is not a bare pop-loop: calls restore them *)
Fixpoint keeps_loc (c : bstmt) : bool :=
  match c with
  | BWhilePop _ _ _ => false
  | BSeq a b | BIf _ a b | BTryReraise a b | BTryFinally a b => keeps_loc a && keeps_loc b
  | _ => true
  end.

Lemma bexec_loc fuel : forall c s, keeps_loc c = true -> bloc (fst (bexec fuel c s)) = bloc s.
Proof.
  intros c s H. revert s. apply (bexec_frame bloc fuel keeps_loc); auto.
  clear. intros c H IH. destruct c; try exact I; try discriminate; intros s0;
    try (match goal with |- context [bexec fuel ?c s0] => exact (proj2 (inner_call_outer fuel c s0)) end); cbn [bexec].
  (* a call gives the caller's locals back, whatever the callee did; calls on the inner object and the lock do not touch them *)
  all: try solve [destruct (bexec fuel c s0) as [s1 o]; reflexivity].
  - destruct (bheld s0); reflexivity.
  - destruct (bheld s0) as [w'|]; [|reflexivity]. destruct (Bool.eqb w w'); reflexivity.
  - reflexivity.
Qed.

(* b_put keeps the UKVFile and grows the buffer by at most the new item *)
Lemma b_put_shape f b k v f' b' r :
  b_put f b k v = (f', b', r) -> has_uk b' = has_uk b /\ (List.length (queue b') <= S (List.length (queue b)))%nat /\ st b' = st b.
Proof.
  unfold b_put. destruct (ro b); [intros E; inversion E; subst; repeat split; lia|].
  set (b1 := mkb _ _ _ _ _ _ _ _).
  destruct (bufsize b1 <? used b1)%Z.
  - destruct (flush f b1) as [[f1 b2] e] eqn:Ef. intros E. inversion E; subst.
    unfold flush in Ef. apply flush_loop_takes_apart in Ef; [|lia].
    destruct Ef as [w [d [E1 [_ [E3 [_ [_ E6]]]]]]].
    split; [rewrite E6; reflexivity|]. split; [|rewrite E3; reflexivity].
    assert (L : List.length (queue b1) = S (List.length (queue b))) by (cbn [b1 queue]; rewrite app_length; simpl; lia).
    rewrite E1, !app_length in L. lia.
  - intros E. inversion E; subst. cbn [b1 has_uk queue st]. rewrite app_length. simpl. repeat split; lia.
Qed.

(* fuel: S (S (length (queue b))): one for the item the put appends, one for flush's own bound *)
Theorem writing_session_put_code fuel s f b k v :
  (List.length f < fuel)%nat -> (S (S (List.length (queue b))) < fuel)%nat -> BRep s f b -> ro b = false ->
  headed f -> (has_uk b = false -> uk b = h0) -> last_in (uk b) ->
  bheld s = None -> (has_inner s = true -> has_mode s) ->
  bloc s "key" = Some k -> bloc s "value" = Some v ->
  let '(s1, o1) := bexec fuel writing_enter_prog s in
  let '(s2, o2) := bexec fuel bput_prog s1 in
  let '(s3, o3) := bexec fuel writing_exit_prog s2 in
  let '(f1, b1, _) := b_begin_w f b in
  let '(f2, b2, r2) := b_put f1 b1 k v in
  let '(f3, b3, r3) := b_end_w f2 b2 in
  o1 = BONormal /\ o2 = bout_of_res r2 /\ o3 = bout_of_res r3 /\ BRep s3 f3 b3 /\ bheld s3 = None /\ st b3 = SIdle.
Proof.
  intros Hfuel Hq R Hro Hh Hh0 Hin Hl Hm Lk Lv.
  pose proof (writing_enter_code fuel s f b Hfuel R Hh Hh0 Hin Hl) as E.
  assert (KL : keeps_loc writing_enter_prog = true) by reflexivity.
  pose proof (bexec_loc fuel writing_enter_prog s KL) as Hloc.
  destruct (bexec fuel writing_enter_prog s) as [s1 o1]. cbn [fst] in Hloc.
  unfold b_begin_w in *. rewrite Hro in *. destruct (open_ f (uk b) MA) as [f1 h1].
  set (b1 := mkb h1 true (queue b) (keys h1) (used b) (bufsize b) false SWriting) in *.
  destruct E as [E1 [E2 [E3 E4]]]. cbn [bout_of_res] in E1.
  assert (Hi1 : has_inner s1 = true) by (rewrite (br_has _ _ _ E2); reflexivity).
  pose proof (E4 Hm Hi1) as M1.
  assert (Hq1 : (S (List.length (queue b1)) < fuel)%nat) by (cbn [b1 queue]; lia).
  assert (Lk1 : bloc s1 "key" = Some k) by (rewrite Hloc; exact Lk).
  assert (Lv1 : bloc s1 "value" = Some v) by (rewrite Hloc; exact Lv).
  pose proof (bput_code fuel s1 f1 b1 k v Hq1 E2 Lk1 Lv1) as P.
  pose proof (bexec_held fuel bput_prog s1 eq_refl) as Hh2.
  pose proof (bexec_inner_attr "mode" fuel bput_prog s1 eq_refl) as Hm2.
  destruct (bexec fuel bput_prog s1) as [s2 o2]. cbn [fst] in Hh2, Hm2.
  destruct (b_put f1 b1 k v) as [[f2 b2] r2] eqn:Ep. destruct P as [P1 P2].
  destruct (b_put_shape _ _ _ _ _ _ _ Ep) as [S1 [S2 S3]].
  assert (M2 : has_mode s2) by exact (has_mode_kept s1 s2 Hm2 M1).
  assert (Hl2 : bheld s2 = Some true) by (rewrite Hh2; exact E3).
  assert (Hq2 : (List.length (queue b2) < fuel)%nat) by (cbn [b1 queue] in S2; lia).
  assert (Hu2 : has_uk b2 = true) by (rewrite S1; reflexivity).
  pose proof (writing_exit_code fuel s2 f2 b2 Hq2 P1 Hu2 M2 Hl2) as X.
  destruct (bexec fuel writing_exit_prog s2) as [s3 o3].
  unfold b_end_w in *. destruct (flush f2 b2) as [[f3 b3'] e3].
  destruct X as [X1 [X2 X3]].
  split; [exact E1|]. split; [exact P2|]. split; [exact X1|]. split; [exact X2|]. split; [exact X3|reflexivity].
Qed.
