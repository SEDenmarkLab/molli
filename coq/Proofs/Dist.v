(* C19 (kernels): the distance-matrix loops of Model/Dist.v return, for ALL array lengths (0 included), an array
   of the right shape whose entry (i,j) / (x,i,j) is the point-distance function applied to row i (of block x)
   and row j; over R the point function is  sum_k (a_k - b_k)^2  (any ND, and ND = 3) resp. its square root. *)
From Coq Require Import Reals Psatz List Lia.
From Molli Require Import Common.Field3 Common.Field3R Common.FlatNth Model.Dist.
Import ListNotations.

(* structure: any F, any point function *)
Section Structure.
Context {F : Type}.
Variable f : vec F -> vec F -> F.

Lemma cdist22_shape (A B : list (vec F)) :
  shape (cdist22 f A B) = [length A; length B] /\ length (data (cdist22 f A B)) = (length A * length B)%nat.
Proof. split; [reflexivity|]. apply flat_map_uniform_length. intros; apply map_length. Qed.

Lemma cdist22_entry (A B : list (vec F)) (da db : vec F) (d : F) (i j : nat) :
  (i < length A)%nat -> (j < length B)%nat ->
  nth (i * length B + j) (data (cdist22 f A B)) d = f (nth i A da) (nth j B db).
Proof. apply table_nth. Qed.

Lemma cdist32_shape (L1 : nat) (E : list (list (vec F))) (B : list (vec F)) :
  Forall (fun A => length A = L1) E ->
  shape (cdist32 f L1 E B) = [length E; L1; length B] /\
  length (data (cdist32 f L1 E B)) = (length E * (L1 * length B))%nat.
Proof.
  intros HE'. pose proof (proj1 (Forall_forall _ _) HE') as HE. split; [reflexivity|].
  apply flat_map_uniform_length. intros A HA. rewrite <- (HE A HA). apply cdist22_shape.
Qed.

Lemma cdist32_entry (L1 : nat) (E : list (list (vec F))) (B : list (vec F)) (da db : vec F) (d : F) (x i j : nat) :
  Forall (fun A => length A = L1) E ->
  (x < length E)%nat -> (i < L1)%nat -> (j < length B)%nat ->
  nth ((x * L1 + i) * length B + j) (data (cdist32 f L1 E B)) d = f (nth i (nth x E []) da) (nth j B db).
Proof.
  intros HE' Hx Hi Hj. pose proof (proj1 (Forall_forall _ _) HE') as HE.
  replace ((x * L1 + i) * length B + j)%nat with (x * (L1 * length B) + (i * length B + j))%nat by lia.
  unfold cdist32, data at 1. rewrite (flat_map_uniform_nth _ (L1 * length B)%nat []); [| |exact Hx|nia].
  - apply cdist22_entry; [|exact Hj]. now rewrite (HE _ (nth_In _ _ Hx)).
  - intros A HA. rewrite <- (HE A HA). apply cdist22_shape.
Qed.
End Structure.

Local Open Scope R_scope.

(* sum_{k < n} g k *)
Fixpoint sumf (g : nat -> R) (n : nat) : R :=
  match n with O => 0 | S m => g O + sumf (fun k => g (S k)) m end.

(* the loop of euclidean2, any ND, from any starting value: acc + sum_k (a_k - b_k)^2 *)
Lemma fold_sq_acc (a : list R) : forall (b : list R) (acc : R), length a = length b ->
  fold_left (fun s p => fadd ROps s (square ROps (fsub ROps (fst p) (snd p)))) (combine a b) acc
  = acc + sumf (fun k => (nth k a 0 - nth k b 0) * (nth k a 0 - nth k b 0)) (length a).
Proof.
  induction a as [|x a IH]; intros [|y b] acc Hl; try discriminate Hl; simpl.
  - symmetry. apply Rplus_0_r.
  - rewrite IH by now injection Hl. apply Rplus_assoc.
Qed.

(* the kernels as registered (ND = 3) *)
Definition sq3 (a b : vecR) : R :=
  let '(a1, a2, a3) := a in let '(b1, b2, b3) := b in
  (a1 - b1) * (a1 - b1) + (a2 - b2) * (a2 - b2) + (a3 - b3) * (a3 - b3).

Lemma euclidean2_sq3 (a b : vecR) : euclidean2 ROps a b = sq3 a b.
Proof. vdestruct. cbv [euclidean2 euclidean2_nd combine fold_left square fst snd ROps fadd fsub fmul f0 sq3]. now rewrite Rplus_0_l. Qed.

Lemma euclidean2_dist2 (a b : vecR) : euclidean2 ROps a b = dist2 ROps a b.
Proof. rewrite euclidean2_sq3. vdestruct. reflexivity. Qed.

Lemma euclidean2_nonneg (a b : vecR) : 0 <= euclidean2 ROps a b.
Proof. rewrite euclidean2_sq3. vdestruct. repeat apply Rplus_le_le_0_compat; apply Rle_0_sqr. Qed.

Lemma euclidean2_sym (a b : vecR) : euclidean2 ROps a b = euclidean2 ROps b a.
Proof. rewrite !euclidean2_sq3. vdestruct. simpl. ring. Qed.

Lemma sum_squares_zero (x y z : R) : x * x + y * y + z * z = 0 -> x = 0 /\ y = 0 /\ z = 0.
Proof. intros H. repeat split; nra. Qed.

Lemma euclidean2_zero_iff (a b : vecR) : euclidean2 ROps a b = 0 <-> a = b.
Proof.
  rewrite euclidean2_sq3. vdestruct. simpl. split.
  - intros H. apply sum_squares_zero in H as [H1 [H2 H3]]. repeat f_equal; lra.
  - intros H. injection H as -> -> ->. ring.
Qed.

(* `euclidean` = sqrt(euclidean2) *)
Definition euclideanR (a b : vecR) : R := sqrt (euclidean2 ROps a b).

Lemma euclideanR_spec (a b : vecR) : 0 <= euclideanR a b /\ euclideanR a b * euclideanR a b = euclidean2 ROps a b.
Proof. unfold euclideanR. split; [apply sqrt_pos | apply sqrt_sqrt, euclidean2_nonneg]. Qed.

Lemma euclideanR_sq3 (a b : vecR) : euclideanR a b = sqrt (sq3 a b).
Proof. unfold euclideanR. now rewrite euclidean2_sq3. Qed.

(* what the boolean root test of the correspondence means *)
Lemma sqrt_close_sound (tol d s : R) : 0 <= s ->
  sqrt_close ROps tol d s = true -> Rabs (d - sqrt s) <= tol * sqrt s.
Proof.
  intros Hs H. apply andb_prop in H as [H H3]. apply andb_prop in H as [H1 H2]. apply Rleb_true in H1, H2, H3.
  pose proof (sqrt_pos s) as Hr. pose proof (sqrt_sqrt s Hs) as Hrr. set (r := sqrt s) in *. clearbody r. subst s.
  cbn in H1, H2, H3. apply Rabs_le.
  (* |d^2 - r^2| <= r^2 tol with d + r >= r > 0 gives |d - r| <= r tol *)
  destruct (Req_dec r 0) as [->|Hnz]; [nra|].
  assert (0 < r * r) by nra. assert (0 <= tol) by nra.
  split; [destruct (Rle_dec r d) | destruct (Rle_dec d r)]; nra.
Qed.

Lemma sqrt_close_exact (d s : R) : 0 <= s -> sqrt_close ROps 0 d s = true -> d = sqrt s.
Proof.
  intros Hs H. apply sqrt_close_sound in H; [|exact Hs].
  rewrite Rmult_0_l in H. unfold Rabs in H. destruct (Rcase_abs (d - sqrt s)); lra.
Qed.

Lemma rel_close_sound (tol x s : R) : rel_close ROps tol x s = true -> Rabs (x - s) <= s * tol.
Proof.
  intros H. apply andb_prop in H as [H1 H2]. apply Rleb_true in H1, H2. apply Rabs_le. cbn in *. lra.
Qed.

(* comparing distances with a non-negative cut-off is comparing squares (used by the grid descriptors, which
   work with squared distances throughout) *)
Lemma sqrt_le_cut (x c : R) : 0 <= x -> 0 <= c -> (sqrt x <= c <-> x <= c * c).
Proof.
  intros Hx Hc. split; intros H.
  - rewrite <- (sqrt_sqrt x Hx). apply Rmult_le_compat; try apply sqrt_pos; exact H.
  - rewrite <- (sqrt_square c Hc). apply sqrt_le_1_alt, H.
Qed.

Lemma all2_spec {A B} (p : A -> B -> bool) (da : A) (db : B) (l : list A) : forall m, all2 p l m = true ->
  length l = length m /\ forall k, (k < length l)%nat -> p (nth k l da) (nth k m db) = true.
Proof.
  induction l as [|x l IH]; intros [|y m] H; try discriminate H; simpl; [split; [reflexivity | lia]|].
  apply andb_prop in H as [H0 H]. destruct (IH m H) as [E Hn].
  split; [now f_equal | intros [|k] Hk; [exact H0 | apply Hn; lia]].
Qed.
