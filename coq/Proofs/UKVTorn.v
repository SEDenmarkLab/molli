(* C02/C03/C04: a file that carries a TORN TAIL -- the state a library is in after a writer process died inside its
   session (C03's crash image) and before the next writer has cut the tail back.  Readers may come and go in that
   state; they never see the tail.  InvT H rs [] is exactly Inv H rs; the step theorem is UKV.step_tail read through
   invT_iff; writer_death says what a dying writer leaves. *)
From Coq Require Import NArith PeanoNat List Lia.
Import ListNotations.
Open Scope N_scope.
From Molli Require Import Model.UKV Proofs.UKVBase Proofs.UKV.

Record InvT (H : bytes) (rs : list kv) (tl : bytes) (w : world) : Prop := {
  it_file : fst w = H ++ blocks rs ++ tl;
  it_torn : torn tl;
  it_hdr : hdr_ok H;
  it_wf : Forall wfkv rs;
  it_nodup : NoDup (map fst rs);
  it_snap : forall i, snap H rs (hnth (snd w) i);
  it_open : forall i, closed (hnth (snd w) i) = false -> full H rs (hnth (snd w) i);
  it_excl : forall i j, i <> j -> closed (hnth (snd w) i) = false -> md (hnth (snd w) i) = MA ->
                          closed (hnth (snd w) j) = true;
  (* while a torn tail is in the file nobody is inside a writing session: opening for append cuts the tail *)
  it_nowriter : tl <> [] -> forall i, closed (hnth (snd w) i) = false -> md (hnth (snd w) i) = MR
}.

(* the record says what Proofs/UKV.v reasons about: Inv for the handles, the tail beside it *)
Lemma invT_iff H rs tl w : InvT H rs tl w <-> InvTl H rs tl w.
Proof.
  split.
  - intros [If It Ih Iwf Ind Is Io Ie In]. split; [exact If|]. split; [exact It|]. split; [|exact In].
    constructor; try assumption. reflexivity.
  - intros [If [It [[_ Ih Iwf Ind Is Io Ie] In]]]. constructor; assumption.
Qed.

Lemma inv_invT H rs w : Inv H rs w -> InvT H rs [] w.
Proof. intros I. apply invT_iff, inv_is_invtl_nil. exact I. Qed.

Lemma invT_inv H rs w : InvT H rs [] w -> Inv H rs w.
Proof. intros I. apply inv_is_invtl_nil, invT_iff. exact I. Qed.

Lemma invT_set H rs tl tl' f f' hs i h' :
  (i < length hs)%nat -> InvT H rs tl (f, hs) -> f' = H ++ blocks rs ++ tl' -> torn tl' ->
  snap H rs h' -> (closed h' = false -> full H rs h') ->
  (closed h' = false -> md h' = MA -> forall j, j <> i -> closed (hnth hs j) = true) ->
  (closed h' = false -> forall j, j <> i -> closed (hnth hs j) = false -> md (hnth hs j) = MR) ->
  (tl' <> [] -> (closed h' = false -> md h' = MR) /\
                forall j, j <> i -> closed (hnth hs j) = false -> md (hnth hs j) = MR) ->
  InvT H rs tl' (f', upd hs i h').
Proof.
  intros Hi I Ef Ht Hs Hf Hw Hr Hn. apply invT_iff in I. destruct I as [_ [_ [I _]]]. simpl in I.
  apply invT_iff. split; [exact Ef|]. split; [exact Ht|]. simpl. split.
  - apply (inv_upd H rs rs _ hs i h' I Hi (inv_wf _ _ _ I) (inv_nodup _ _ _ I) Hs Hf).
    intros j Nj. split; [apply (inv_snap _ _ _ I)|]. intros Cj. split; [apply (inv_open _ _ _ I); exact Cj|].
    intros C. split; [|apply (Hr C j Nj Cj)].
    destruct (md h') eqn:M; [reflexivity|]. pose proof (Hw C eq_refl j Nj). congruence.
  - intros N j. rewrite hnth_upd by exact Hi. destruct (Hn N) as [N1 N2].
    destruct (Nat.eq_dec j i); [exact N1|apply N2; assumption].
Qed.

(* Every operation allowed by the session discipline, on a file with a (possibly empty) torn tail:
   the abstract outcome is that of the insert-only map of the COMPLETE records; the tail is kept by
   readers, cut by the first writer, and while it is there the record list does not change. *)
Theorem step_refinesT H rs tl w o :
  InvT H rs tl w -> ok_op w o ->
  exists rs' tl', InvT H rs' tl' (fst (step w o)) /\
                  step_spec rs (hnth (snd w) (op_handle o)) o (snd (step w o)) rs' /\
                  (forall e, snd (step w o) = RErr e -> fst (step w o) = w) /\
                  (tl' = tl \/ tl' = []) /\ (tl <> [] -> rs' = rs) /\
                  (exists qs, rs' = rs ++ qs).
Proof.
  intros I Hok. apply invT_iff in I. destruct (step_tail H rs tl w o I Hok) as [rs' [tl' [I' R]]].
  exists rs', tl'. split; [apply invT_iff; exact I'|exact R].
Qed.

(* The file is cut to ANY length n at or beyond the length it had when the session began (byte position
   [end_from (len H) (firstn m rs)] = a block boundary), the dying process's handle object is gone: the
   records that were there when the session began are all still there, each record the session added is there
   completely or not at all, what follows them is a torn tail, and every other process's (closed, possibly
   stale) handle is still a consistent snapshot. *)
Theorem writer_death H rs w i m n :
  Inv H rs w -> (i < length (snd w))%nat -> (m <= length rs)%nat ->
  (forall j, j <> i -> snap H (firstn m rs) (hnth (snd w) j) /\ closed (hnth (snd w) j) = true) ->
  (N.to_nat (end_from (len H) (firstn m rs)) <= n)%nat ->
  exists rs' tl, InvT H rs' tl (firstn n (fst w), upd (snd w) i h0) /\
                 (exists c, rs' = firstn m rs ++ c /\ exists j, c = firstn j (skipn m rs)).
Proof.
  intros I Hi _ Hoth Hn. destruct w as [f hs]. simpl in *.
  pose proof (inv_wf _ _ _ I) as Iwf. pose proof (inv_nodup _ _ _ I) as Ind.
  set (r0 := firstn m rs) in *. set (ps := skipn m rs).
  assert (Ers : rs = r0 ++ ps) by (symmetry; apply firstn_skipn). rewrite Ers in Iwf, Ind.
  (* the cut is a crash image of the session: committed r0, puts ps, n' bytes into their stream *)
  set (n' := (n - length (H ++ blocks r0))%nat).
  assert (Ecut : firstn n f = crash_image H r0 ps n').
  { pose proof (inv_file _ _ _ I) as If. simpl in If. rewrite If, Ers, blocks_app, app_assoc, firstn_app, firstn_all2.
    - unfold crash_image. rewrite <- app_assoc. reflexivity.
    - rewrite end_from_len in Hn. unfold len in Hn. rewrite app_length. lia. }
  apply Forall_app in Iwf as Hwp. destruct (crash_image_split H r0 ps n' (proj2 Hwp)) as [tl [Htorn Esplit]].
  destruct (complete_keeps0 r0 ps n' Iwf Ind) as [Hwf' Hnd'].
  exists (r0 ++ complete n' ps), tl. split; [|exists (complete n' ps); split; [reflexivity|apply complete_prefix]].
  apply invT_iff. split; [rewrite Ecut; exact Esplit|]. split; [exact Htorn|]. simpl.
  (* every handle is closed: the dead writer's is new, the others were closed throughout its session *)
  assert (Hcl : forall j, j <> i -> closed (hnth hs j) = false -> False).
  { intros j Nj Cj. destruct (Hoth j Nj) as [_ X]. congruence. }
  split.
  - apply (inv_upd H rs _ f hs i h0 I Hi Hwf' Hnd' (snap_h0 H _)); [discriminate|].
    intros j Nj. split; [apply snap_app, Hoth; exact Nj|]. intros Cj. destruct (Hcl j Nj Cj).
  - intros _ j. rewrite hnth_upd by exact Hi. destruct (Nat.eq_dec j i) as [|Nj]; [discriminate|]. intros Cj. destruct (Hcl j Nj Cj).
Qed.
