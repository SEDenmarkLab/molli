(* C10: the xyz and mol2 readers of Model/Parse.v on well-formed, truncated and line-damaged texts.  A text is well formed in the
   readers' own terms (int() accepts the count line, the record parsers accept the record lines), so the theorems cover bundled
   files as well as what molli writes (Proofs/XyzText.v shows that the writer's output is well formed in this sense). *)
From Coq Require Import List Bool Arith NArith ZArith Ascii String Lia.
From Molli Require Import Common.ParseStr Common.ParseStrFacts Model.Parse.
Import ListNotations.
Local Open Scope char_scope.
Local Open Scope list_scope.

Lemma del_nth_app_l {A} (a b : list A) i : (i < List.length a)%nat -> del_nth i (a ++ b) = del_nth i a ++ b.
Proof.
  revert i. induction a as [|x a IH]; intros i H; simpl in *; [lia|]. destruct i; [reflexivity|].
  simpl. f_equal. apply IH. lia.
Qed.
Lemma del_nth_app_r {A} (a b : list A) i : del_nth (List.length a + i) (a ++ b) = a ++ del_nth i b.
Proof. induction a as [|x a IH]; simpl; [reflexivity|]. now rewrite IH. Qed.
Lemma dup_nth_app_l {A} (a b : list A) i : (i < List.length a)%nat -> dup_nth i (a ++ b) = dup_nth i a ++ b.
Proof.
  revert i. induction a as [|x a IH]; intros i H; simpl in *; [lia|]. destruct i; [reflexivity|].
  simpl. f_equal. apply IH. lia.
Qed.
Lemma dup_nth_app_r {A} (a b : list A) i : dup_nth (List.length a + i) (a ++ b) = a ++ dup_nth i b.
Proof. induction a as [|x a IH]; simpl; [reflexivity|]. now rewrite IH. Qed.
Lemma del_nth_length {A} (l : list A) i : (i < List.length l)%nat -> S (List.length (del_nth i l)) = List.length l.
Proof.
  revert i. induction l as [|x l IH]; intros i H; simpl in *; [lia|]. destruct i; [reflexivity|]. simpl. rewrite IH; lia.
Qed.
Lemma dup_nth_length {A} (l : list A) i : (i < List.length l)%nat -> List.length (dup_nth i l) = S (List.length l).
Proof.
  revert i. induction l as [|x l IH]; intros i H; simpl in *; [lia|]. destruct i; [reflexivity|]. simpl. rewrite IH; lia.
Qed.
Lemma del_nth_Forall {A} (P : A -> Prop) l i : Forall P l -> Forall P (del_nth i l).
Proof.
  revert i. induction l as [|x l IH]; intros i H; [destruct i; constructor|].
  inversion H; subst. destruct i; simpl; [assumption|]. constructor; auto.
Qed.
Lemma dup_nth_Forall {A} (P : A -> Prop) l i : Forall P l -> Forall P (dup_nth i l).
Proof.
  revert i. induction l as [|x l IH]; intros i H; [destruct i; constructor|].
  inversion H; subst. destruct i; simpl; [repeat constructor; assumption|]. constructor; auto.
Qed.

Lemma Forall_firstn {A} (P : A -> Prop) l n : Forall P l -> Forall P (firstn n l).
Proof.
  revert n. induction l as [|x l IH]; intros n H; [destruct n; constructor|].
  destruct n; simpl; [constructor|]. inversion H; subst. constructor; auto.
Qed.

Lemma Forall2_length {A B} {R : A -> B -> Prop} {l1 l2} : Forall2 R l1 l2 -> List.length l1 = List.length l2.
Proof. induction 1; simpl; congruence. Qed.
Lemma Forall2_firstn {A B} (R : A -> B -> Prop) k : forall l1 l2, Forall2 R l1 l2 -> Forall2 R (firstn k l1) (firstn k l2).
Proof. induction k as [|k IH]; intros l1 l2 H; [constructor|]. destruct H; simpl; constructor; auto. Qed.
Lemma Forall2_del_nth {A B} (R : A -> B -> Prop) i : forall l1 l2, Forall2 R l1 l2 -> Forall2 R (del_nth i l1) (del_nth i l2).
Proof. induction i as [|i IH]; intros l1 l2 H; destruct H; simpl; try constructor; auto. Qed.
Lemma Forall2_dup_nth {A B} (R : A -> B -> Prop) i : forall l1 l2, Forall2 R l1 l2 -> Forall2 R (dup_nth i l1) (dup_nth i l2).
Proof. induction i as [|i IH]; intros l1 l2 H; destruct H; simpl; repeat (constructor; auto). Qed.
Lemma Forall2_diag {A} (R : A -> A -> Prop) : (forall x, R x x) -> forall l, Forall2 R l l.
Proof. intros HR. induction l; constructor; auto. Qed.
Lemma split_at {A} k (l : list A) : (k < List.length l)%nat -> exists l1 x l2, l = l1 ++ x :: l2 /\ List.length l1 = k.
Proof.
  intros H. destruct l as [|d l']; [simpl in H; lia|]. destruct (nth_split (d :: l') d H) as (l1 & l2 & E & H1). eauto.
Qed.

(* A machine run by fold_left has a counted loop when in `loop todo acc` every accepted line is pushed on acc and the last
   line owed leaves the loop.  The atom loop of the xyz reader and the ATOM / BOND loops of the mol2 reader are instances. *)
Section CountedLoop.
Variables (S L B : Type) (step : S -> L -> S) (ok : L -> B -> Prop) (loop : N -> list B -> S) (exit : list B -> S).
Hypothesis step_ok : forall todo acc l b, ok l b ->
  step (loop todo acc) l = if (todo <=? 1)%N then exit (b :: acc) else loop (todo - 1) (b :: acc).

Lemma loop_short ls bs : Forall2 ok ls bs -> forall todo acc, (N.of_nat (List.length ls) < todo)%N ->
  fold_left step ls (loop todo acc) = loop (todo - N.of_nat (List.length ls)) (rev bs ++ acc).
Proof.
  induction 1 as [|l b ls bs Hb _ IH]; intros todo acc H; simpl List.length in H; simpl fold_left.
  - now rewrite N.sub_0_r.
  - rewrite (step_ok _ _ _ _ Hb). destruct (N.leb_spec todo 1); [lia|].
    rewrite IH by lia. simpl. rewrite <- app_assoc. f_equal. lia.
Qed.
Lemma loop_exact ls bs : Forall2 ok ls bs -> ls <> [] -> forall acc,
  fold_left step ls (loop (N.of_nat (List.length ls)) acc) = exit (rev bs ++ acc).
Proof.
  intros HF Hne acc. destruct (exists_last Hne) as (ls' & l & ->).
  apply Forall2_app_inv_l in HF. destruct HF as (bs' & b1 & HF' & HF1 & ->).
  inversion HF1 as [|? b ? ? Hb HFn]; subst. inversion HFn; subst.
  rewrite app_length, fold_left_app, (loop_short _ _ HF') by (simpl; lia). simpl.
  rewrite (step_ok _ _ _ _ Hb). destruct (N.leb_spec (N.of_nat (List.length ls' + 1) - N.of_nat (List.length ls')) 1); [|lia].
  now rewrite rev_app_distr.
Qed.
End CountedLoop.

(* int() accepts only one-token lines, the atom parser only four-token lines *)
Lemma count_not_atom l z : parse_int l = Some z -> xyz_atom l = None.
Proof.
  intros H. destruct (parse_int_one_token l z H) as [t Ht]. unfold xyz_atom. now rewrite Ht.
Qed.
Lemma atom_not_count l a : xyz_atom l = Some a -> parse_int l = None.
Proof.
  intros Ha. destruct (parse_int l) as [z|] eqn:E; [|reflexivity].
  rewrite (count_not_atom l z E) in Ha. discriminate.
Qed.

(* P: extra condition on the comment line (True for the round trip / truncation; "not an integer" for
   deletion / duplication, see C10_comment_hypothesis_needed for why it cannot be dropped) *)
Inductive xwf (P : str -> Prop) : xblock -> list str -> Prop :=
| xwf_intro cl cm als n atoms :
    parse_int cl = Some n -> n = Z.of_nat (List.length atoms) ->
    Forall2 (fun l a => xyz_atom l = Some a) als atoms -> P cm ->
    xwf P (mk_xblock n (strip cm) atoms) (cl :: cm :: als).
Inductive xwf_text (P : str -> Prop) : list xblock -> list str -> Prop :=
| xwt_nil : xwf_text P [] []
| xwt_cons b bs l ls : xwf P b l -> xwf_text P bs ls -> xwf_text P (b :: bs) (l ++ ls).

Definition any_comment (_ : str) : Prop := True.
Definition comment_ok (cm : str) : Prop := parse_int cm = None.

Lemma xwf_weaken P b l : xwf P b l -> xwf any_comment b l.
Proof. intros H. destruct H. constructor; auto. exact I. Qed.
Lemma xwf_text_weaken P bs ls : xwf_text P bs ls -> xwf_text any_comment bs ls.
Proof. induction 1; constructor; eauto using xwf_weaken. Qed.

Lemma xrun_app st a b : xrun st (a ++ b) = xrun (xrun st a) b.
Proof. unfold xrun. apply fold_left_app. Qed.
Lemma xrun_fail e ls : xrun (XFail e) ls = XFail e.
Proof. induction ls as [|l ls IH]; [reflexivity|]. exact IH. Qed.
Lemma xrun_cons st l ls : xrun st (l :: ls) = xrun (xstep st l) ls.
Proof. reflexivity. Qed.

Lemma xstep_atom n c out todo acc l a : xyz_atom l = Some a ->
  xstep (XRun (XAtoms n c todo acc) out) l =
  if (todo <=? 1)%N then XRun XCount (mk_xblock n c (rev (a :: acc)) :: out) else XRun (XAtoms n c (todo - 1) (a :: acc)) out.
Proof. intros H. cbn [xstep]. now rewrite H. Qed.
Lemma xatoms_short n c out als atoms : Forall2 (fun l a => xyz_atom l = Some a) als atoms -> forall todo acc,
  (N.of_nat (List.length als) < todo)%N ->
  xrun (XRun (XAtoms n c todo acc) out) als = XRun (XAtoms n c (todo - N.of_nat (List.length als)) (rev atoms ++ acc)) out.
Proof.
  exact (loop_short _ _ _ xstep _ (fun todo acc => XRun (XAtoms n c todo acc) out)
                    (fun acc => XRun XCount (mk_xblock n c (rev acc) :: out)) (xstep_atom n c out) als atoms).
Qed.
Lemma xatoms_exact n c out als atoms : Forall2 (fun l a => xyz_atom l = Some a) als atoms -> als <> [] -> forall acc,
  xrun (XRun (XAtoms n c (N.of_nat (List.length als)) acc) out) als
  = XRun XCount (mk_xblock n c (rev (rev atoms ++ acc)) :: out).
Proof.
  exact (loop_exact _ _ _ xstep _ (fun todo acc => XRun (XAtoms n c todo acc) out)
                    (fun acc => XRun XCount (mk_xblock n c (rev acc) :: out)) (xstep_atom n c out) als atoms).
Qed.

Lemma xwf_length P b l : xwf P b l -> List.length l = (2 + List.length (xb_atoms b))%nat.
Proof. intros H. destruct H as [cl cm als n atoms _ _ HF _]. simpl. f_equal. f_equal. eapply Forall2_length; eauto. Qed.

Lemma xrun_block P b l out rest : xwf P b l ->
  xrun (XRun XCount out) (l ++ rest) = xrun (XRun XCount (b :: out)) rest.
Proof.
  intros [cl cm als n atoms Hc Hn HF _].
  simpl app. rewrite !xrun_cons. cbn [xstep]. rewrite Hc. cbn [xstep].
  pose proof (Forall2_length HF) as Hlen.
  destruct atoms as [|a atoms].
  - destruct als; [|discriminate]. subst n. reflexivity.
  - destruct (Z.leb_spec n 0) as [Hle|Hgt]; [simpl in Hn; lia|]. rewrite xrun_app.
    replace (Z.to_N n) with (N.of_nat (List.length als)) by (rewrite Hlen; lia).
    rewrite (xatoms_exact n (strip cm) out als _ HF) by (destruct als; discriminate).
    now rewrite app_nil_r, rev_involutive.
Qed.
Lemma xrun_text P bs ls : xwf_text P bs ls -> forall out rest,
  xrun (XRun XCount out) (ls ++ rest) = xrun (XRun XCount (rev bs ++ out)) rest.
Proof.
  induction 1 as [|b bs l ls Hb Ht IH]; intros out rest; [reflexivity|].
  rewrite <- app_assoc. rewrite (xrun_block P b l out _ Hb). rewrite IH. simpl. now rewrite <- app_assoc.
Qed.

Theorem read_xyz_wf P bs ls : xwf_text P bs ls -> read_xyz ls = Ok bs.
Proof.
  intros H. unfold read_xyz, xinit. rewrite <- (app_nil_r ls). rewrite (xrun_text P bs ls H). simpl.
  now rewrite app_nil_r, rev_involutive.
Qed.

Lemma xblock_prefix_eof P b l out k : xwf P b l -> (0 < k)%nat -> (k < List.length l)%nat ->
  xfinish (xrun (XRun XCount out) (firstn k l)) = Err EEof.
Proof.
  intros [cl cm als n atoms Hc Hn HF _] Hk0 Hk.
  destruct k as [|k]; [lia|]. simpl firstn. rewrite xrun_cons. cbn [xstep]. rewrite Hc.
  destruct k as [|k]; [reflexivity|]. simpl firstn. rewrite xrun_cons. cbn [xstep].
  pose proof (Forall2_length HF) as Hlen. simpl in Hk.
  destruct (Z.leb_spec n 0) as [Hle|Hgt]; [lia|].
  rewrite (xatoms_short n (strip cm) out _ _ (Forall2_firstn _ k _ _ HF)); [reflexivity|].
  rewrite firstn_length. lia.
Qed.

Theorem read_xyz_truncated P bs ls : xwf_text P bs ls -> forall k,
  (exists e, read_xyz (firstn k ls) = Err e) \/ (exists j, read_xyz (firstn k ls) = Ok (firstn j bs)).
Proof.
  intros H k. unfold read_xyz, xinit.
  assert (G : forall out, (exists e, xfinish (xrun (XRun XCount out) (firstn k ls)) = Err e) \/
                          (exists j, xfinish (xrun (XRun XCount out) (firstn k ls)) = Ok (rev out ++ firstn j bs))).
  { revert k. induction H as [|b bs l ls Hb Ht IH]; intros k out.
    - right. exists 0%nat. rewrite firstn_nil. simpl. now rewrite app_nil_r.
    - rewrite firstn_app. destruct (le_lt_dec (List.length l) k) as [Hge|Hlt].
      + rewrite firstn_all2 by exact Hge. rewrite (xrun_block P b l out _ Hb).
        destruct (IH (k - List.length l)%nat (b :: out)) as [[e E]|[j E]].
        * left. exists e. exact E.
        * right. exists (S j). rewrite E. simpl. now rewrite <- app_assoc.
      + replace (k - List.length l)%nat with 0%nat by lia. rewrite firstn_O, app_nil_r.
        destruct k as [|k].
        * right. exists 0%nat. simpl. now rewrite app_nil_r.
        * left. exists EEof. eapply xblock_prefix_eof; eauto. lia. }
  destruct (G []) as [E|[j E]]; [left; exact E|right; exists j; exact E].
Qed.

Definition xfails (st : xstate) (ls : list str) : Prop := exists e, xfinish (xrun st ls) = Err e.

Lemma xfails_fail e ls : xfails (XFail e) ls.
Proof. exists e. now rewrite xrun_fail. Qed.
Lemma xfails_count_bad out l ls : parse_int l = None -> xfails (XRun XCount out) (l :: ls).
Proof. intros H. unfold xfails. rewrite xrun_cons. cbn [xstep]. rewrite H. apply xfails_fail. Qed.

(* what follows a block inside a well-formed text: nothing, or a count line and a non-integer comment line *)
Inductive xtail : list str -> Prop :=
| xtail_nil : xtail []
| xtail_cons cl cm r z : parse_int cl = Some z -> parse_int cm = None -> xtail (cl :: cm :: r).
Lemma xwf_text_tail bs ls : xwf_text comment_ok bs ls -> xtail ls.
Proof.
  intros H. destruct H as [|b bs l ls Hb Ht]; [constructor|].
  destruct Hb as [cl cm als n atoms Hc _ _ Hcm]. simpl. econstructor; eauto.
Qed.

(* a count line, any comment line, and atom lines that are not as many as the count says.  Too few: the loop is still open
   when the tail begins, and neither its end nor its count line is an atom line.  Too many: the first surplus line is
   read as a count. *)
Lemma xfails_miscount out cl n cm ls ats post : parse_int cl = Some n -> (0 <= n)%Z ->
  Forall2 (fun l a => xyz_atom l = Some a) ls ats -> Z.of_nat (List.length ls) <> n -> xtail post ->
  xfails (XRun XCount out) (cl :: cm :: ls ++ post).
Proof.
  intros Hc Hn HF Hne Ht. unfold xfails. rewrite !xrun_cons. cbn [xstep]. rewrite Hc. cbn [xstep].
  destruct (Z.leb_spec n 0).
  - destruct HF as [|l a ls ats Ha _]; [simpl in Hne; lia|]. exact (xfails_count_bad _ _ _ (atom_not_count l a Ha)).
  - destruct (lt_dec (List.length ls) (Z.to_nat n)) as [Hlt|Hge].
    + rewrite xrun_app, (xatoms_short _ _ _ ls ats HF) by lia.
      destruct Ht as [|cl2 cm2 r z Hc2 _]; [exists EEof; reflexivity|].
      rewrite xrun_cons. cbn [xstep]. rewrite (count_not_atom cl2 z Hc2). apply xfails_fail.
    + destruct (split_at (Z.to_nat n) ls) as (ls1 & x & ls2 & -> & Hls1); [lia|].
      apply Forall2_app_inv_l in HF. destruct HF as (a1 & a2 & HF1 & HF2 & _).
      inversion HF2 as [|? a ? ? Ha _]; subst. rewrite <- app_assoc, xrun_app.
      replace (Z.to_N n) with (N.of_nat (List.length ls1)) by lia.
      rewrite (xatoms_exact _ _ _ ls1 a1 HF1) by (destruct ls1; [simpl in *; lia|discriminate]).
      exact (xfails_count_bad _ _ _ (atom_not_count x a Ha)).
Qed.

Lemma xblock_deleted b l out post i : xwf comment_ok b l -> (i < List.length l)%nat -> xtail post ->
  xfails (XRun XCount out) (del_nth i l ++ post).
Proof.
  intros [cl cm als n atoms Hc Hn HF Hcm] Hi Ht. pose proof (Forall2_length HF) as Hlen.
  destruct i as [|[|j]]; simpl del_nth; simpl app.
  - (* the count line: the comment is read as a count *) now apply xfails_count_bad.
  - (* the comment line: the first atom line, or the count line of the next block, is taken for it *)
    destruct HF as [|a1 x als atoms Ha HF].
    + simpl in Hn. subst n. simpl app. unfold xfails. rewrite xrun_cons. cbn [xstep]. rewrite Hc.
      destruct Ht as [|cl2 cm2 r z Hc2 Hcm2]; [exists EEof; reflexivity|].
      rewrite xrun_cons. now apply xfails_count_bad.
    + apply (xfails_miscount out cl n a1 als atoms); auto; simpl in *; lia.
  - apply (xfails_miscount out cl n cm (del_nth j als) (del_nth j atoms)); auto using Forall2_del_nth; [lia|].
    simpl in Hi. pose proof (del_nth_length als j ltac:(lia)). lia.
Qed.

Lemma xblock_duplicated b l out post i : xwf comment_ok b l -> (i < List.length l)%nat -> xtail post ->
  xfails (XRun XCount out) (dup_nth i l ++ post).
Proof.
  intros [cl cm als n atoms Hc Hn HF Hcm] Hi Ht. pose proof (Forall2_length HF) as Hlen.
  (* the count line or the comment line twice: the comment line stands in front of the atom lines *)
  assert (Hcm_first : forall c0, xfails (XRun XCount out) (cl :: c0 :: cm :: als ++ post)).
  { intros c0. destruct (xyz_atom cm) as [a|] eqn:Ea.
    - apply (xfails_miscount out cl n c0 (cm :: als) (a :: atoms)); auto; simpl; lia.
    - unfold xfails. rewrite 2 xrun_cons. cbn [xstep]. rewrite Hc. cbn [xstep]. destruct (Z.leb_spec n 0).
      + now apply xfails_count_bad.
      + rewrite xrun_cons. cbn [xstep]. rewrite Ea. apply xfails_fail. }
  destruct i as [|[|j]]; simpl dup_nth; simpl app; [apply Hcm_first..|].
  apply (xfails_miscount out cl n cm (dup_nth j als) (dup_nth j atoms)); auto using Forall2_dup_nth; [lia|].
  simpl in Hi. rewrite dup_nth_length by lia. lia.
Qed.

(* a one-line edit that commutes with concatenation (del_nth, dup_nth) and makes every block fail in front of the rest of the text *)
Lemma read_xyz_edited (ed : nat -> list str -> list str) :
  (forall a b i, (i < List.length a)%nat -> ed i (a ++ b) = ed i a ++ b) ->
  (forall a b i, ed (List.length a + i)%nat (a ++ b) = a ++ ed i b) ->
  (forall b l out post i, xwf comment_ok b l -> (i < List.length l)%nat -> xtail post -> xfails (XRun XCount out) (ed i l ++ post)) ->
  forall bs ls i, xwf_text comment_ok bs ls -> (i < List.length ls)%nat -> exists e, read_xyz (ed i ls) = Err e.
Proof.
  intros Hl Hr Hblock bs ls i H. unfold read_xyz, xinit. generalize (@nil xblock) as out. revert i.
  induction H as [|b bs l ls Hb Ht IH]; intros i out Hi; [simpl in Hi; lia|].
  rewrite app_length in Hi. destruct (lt_dec i (List.length l)) as [Hlt|Hge].
  - rewrite Hl by exact Hlt. apply (Hblock b); auto. now apply (xwf_text_tail bs).
  - replace i with (List.length l + (i - List.length l))%nat by lia. rewrite Hr, (xrun_block _ b l out _ Hb). apply IH. lia.
Qed.
Theorem read_xyz_deleted bs ls i : xwf_text comment_ok bs ls -> (i < List.length ls)%nat ->
  exists e, read_xyz (del_nth i ls) = Err e.
Proof. exact (read_xyz_edited del_nth (@del_nth_app_l _) (@del_nth_app_r _) xblock_deleted bs ls i). Qed.
Theorem read_xyz_duplicated bs ls i : xwf_text comment_ok bs ls -> (i < List.length ls)%nat ->
  exists e, read_xyz (dup_nth i ls) = Err e.
Proof. exact (read_xyz_edited dup_nth (@dup_nth_app_l _) (@dup_nth_app_r _) xblock_duplicated bs ls i). Qed.

(* every returned block holds exactly the atoms its own count line declares, whatever the input *)
Definition xblock_ok (b : xblock) : Prop :=
  ((xb_n b <= 0)%Z /\ xb_atoms b = []) \/ xb_n b = Z.of_nat (List.length (xb_atoms b)).
Definition xstate_ok (st : xstate) : Prop :=
  match st with
  | XFail _ => True
  | XRun m out => Forall xblock_ok out /\
      match m with
      | XAtoms n c todo acc => (1 <= todo)%N /\ (Z.of_N todo + Z.of_nat (List.length acc))%Z = n
      | _ => True
      end
  end.
Lemma xstep_ok st l : xstate_ok st -> xstate_ok (xstep st l).
Proof.
  destruct st as [m out|e]; [|auto]. intros [Hout Hm]. destruct m as [|n|n c todo acc]; cbn [xstep].
  - destruct (parse_int l); simpl; auto.
  - destruct (Z.leb_spec n 0) as [Hle|Hgt]; simpl.
    + split; [|exact I]. constructor; [left; simpl; auto|exact Hout].
    + split; [exact Hout|]. split; simpl; lia.
  - destruct (xyz_atom l) as [a|]; [|exact I]. destruct Hm as [H1 H2].
    destruct (N.leb_spec todo 1) as [Hle|Hgt]; simpl.
    + split; [|exact I]. constructor; [|exact Hout]. right. simpl. rewrite app_length, rev_length. simpl. lia.
    + split; [exact Hout|]. split; [lia|]. simpl List.length. lia.
Qed.
Lemma xrun_ok ls : forall st, xstate_ok st -> xstate_ok (xrun st ls).
Proof. induction ls as [|l ls IH]; intros st H; [exact H|]. apply IH. now apply xstep_ok. Qed.
Theorem read_xyz_counts ls bs : read_xyz ls = Ok bs -> Forall xblock_ok bs.
Proof.
  unfold read_xyz. intros H. pose proof (xrun_ok ls xinit (conj (Forall_nil _) I)) as Hok.
  destruct (xrun xinit ls) as [m out|e]; [|discriminate]. destruct m; try discriminate.
  simpl in H. injection H as <-. destruct Hok as [Hout _]. apply Forall_rev. exact Hout.
Qed.

Lemma map_opt_length {A B} (f : A -> option B) l : forall r, map_opt f l = Some r -> List.length r = List.length l.
Proof.
  induction l as [|x l IH]; intros r H; simpl in H; [injection H as <-; reflexivity|].
  destruct (f x); [|discriminate]. destruct (map_opt f l) eqn:E; [|discriminate]. injection H as <-. simpl. f_equal. now apply IH.
Qed.
Lemma all_ok_Forall2 {A B} (f : A -> res B) l : forall ms, all_ok (map f l) = Ok ms -> Forall2 (fun b m => f b = Ok m) l ms.
Proof.
  induction l as [|x l IH]; intros ms H; simpl in H; [injection H as <-; constructor|].
  destruct (f x) eqn:E; [|discriminate]. destruct (all_ok (map f l)) eqn:E2; [|discriminate]. injection H as <-.
  constructor; auto.
Qed.
Lemma all_ok_Forall {A B} (f : A -> res B) (P : A -> Prop) (Q : B -> Prop) : (forall a b, P a -> f a = Ok b -> Q b) ->
  forall l ms, Forall P l -> all_ok (map f l) = Ok ms -> Forall Q ms.
Proof. intros HPQ l ms HP H. apply all_ok_Forall2 in H. induction H; inversion HP; subst; constructor; eauto. Qed.
Lemma all_ok_firstn {A B} (f : A -> res B) l : forall ms j, all_ok (map f l) = Ok ms ->
  all_ok (map f (firstn j l)) = Ok (firstn j ms).
Proof.
  induction l as [|x l IH]; intros ms j H; simpl in H.
  - injection H as <-. now rewrite !firstn_nil.
  - destruct (f x) eqn:E; [|discriminate]. destruct (all_ok (map f l)) eqn:E2; [|discriminate]. injection H as <-.
    destruct j; [reflexivity|]. simpl. rewrite E. now rewrite (IH _ j eq_refl).
Qed.

Definition mol_ok (m : mol) : Prop :=
  m_natoms m = Z.of_nat (List.length (m_elems m)) /\ List.length (m_coords m) = List.length (m_elems m).

Lemma xyz_build_ok zero_ok f b m : xblock_ok b -> xyz_build zero_ok f b = Ok m -> mol_ok m.
Proof.
  unfold xyz_build. intros Hb H. destruct (Z.ltb_spec (xb_n b) 0) as [Hneg|Hge]; [discriminate|].
  destruct ((xb_n b =? 0)%Z && negb zero_ok); [discriminate|].
  destruct (map_opt _ (xb_atoms b)) as [es|] eqn:E; [|discriminate]. injection H as <-.
  apply map_opt_length in E. unfold mol_ok. simpl. rewrite map_length, E. split; [|reflexivity].
  destruct Hb as [[Hle Hnil]|Heq]; [rewrite Hnil; simpl; lia|exact Heq].
Qed.

Theorem load_xyz_truncated P zero_ok f bs ls ms : xwf_text P bs ls -> load_xyz_lines zero_ok f ls = Ok ms -> forall k,
  (exists e, load_xyz_lines zero_ok f (firstn k ls) = Err e) \/
  (exists j, load_xyz_lines zero_ok f (firstn k ls) = Ok (firstn j ms)).
Proof.
  intros Hwf Hfull k. unfold load_xyz_lines, res_bind in *. rewrite (read_xyz_wf P bs ls Hwf) in Hfull.
  destruct (read_xyz_truncated P bs ls Hwf k) as [[e E]|[j E]]; rewrite E.
  - left. now exists e.
  - right. exists j. now apply all_ok_firstn.
Qed.

Theorem load_xyz_deleted zero_ok f bs ls i : xwf_text comment_ok bs ls -> (i < List.length ls)%nat ->
  exists e, load_xyz_lines zero_ok f (del_nth i ls) = Err e.
Proof.
  intros H Hi. destruct (read_xyz_deleted bs ls i H Hi) as [e E]. exists e. unfold load_xyz_lines, res_bind. now rewrite E.
Qed.
Theorem load_xyz_duplicated zero_ok f bs ls i : xwf_text comment_ok bs ls -> (i < List.length ls)%nat ->
  exists e, load_xyz_lines zero_ok f (dup_nth i ls) = Err e.
Proof.
  intros H Hi. destruct (read_xyz_duplicated bs ls i H Hi) as [e E]. exists e. unfold load_xyz_lines, res_bind. now rewrite E.
Qed.

Theorem read_xyz_last_line P bs0 pre0 cl cm als ats n a last l' :
  xwf_text P bs0 pre0 -> parse_int cl = Some n -> n = Z.of_nat (S (List.length ats)) ->
  Forall2 (fun l a => xyz_atom l = Some a) als ats -> xyz_atom last = Some a ->
  read_xyz (pre0 ++ cl :: cm :: als ++ [last]) = Ok (bs0 ++ [mk_xblock n (strip cm) (ats ++ [a])]) /\
  match xyz_atom l' with
  | None => exists e, read_xyz (pre0 ++ cl :: cm :: als ++ [l']) = Err e
  | Some a' => read_xyz (pre0 ++ cl :: cm :: als ++ [l']) = Ok (bs0 ++ [mk_xblock n (strip cm) (ats ++ [a'])])
  end.
Proof.
  intros Hpre Hc Hn HF Ha.
  assert (G : forall x, xrun xinit (pre0 ++ cl :: cm :: als ++ [x]) =
                        xstep (XRun (XAtoms n (strip cm) 1 (rev ats)) (rev bs0)) x).
  { intros x. unfold xinit. rewrite (xrun_text P bs0 pre0 Hpre). rewrite app_nil_r.
    rewrite !xrun_cons. cbn [xstep]. rewrite Hc. cbn [xstep].
    destruct (Z.leb_spec n 0) as [Hle|Hgt]; [lia|]. rewrite xrun_app.
    pose proof (Forall2_length HF) as Hlen.
    rewrite (xatoms_short n (strip cm) (rev bs0) als ats HF) by lia. rewrite app_nil_r.
    replace (Z.to_N n - N.of_nat (List.length als))%N with 1%N by lia. reflexivity. }
  unfold read_xyz. split.
  - rewrite G. cbn [xstep]. rewrite Ha. simpl. rewrite !rev_involutive. reflexivity.
  - destruct (xyz_atom l') as [a'|] eqn:E; rewrite G; cbn [xstep]; rewrite E.
    + simpl. rewrite !rev_involutive. reflexivity.
    + exists ESyntax. reflexivity.
Qed.

(* mol2: every returned block holds the record counts of its own header, whatever the input *)
Definition m2block_ok (b : m2block) : Prop :=
  Z.of_nat (List.length (mk_atoms b)) = mh_natoms (mk_hdr b) /\ Z.of_nat (List.length (mk_bonds b)) = nb_of (mk_hdr b).
Definition m2out (st : m2state) : list m2block := match st with MRun _ v => v_out v | MFail _ => [] end.

Lemma m2yield_ok v v' : Forall m2block_ok (v_out v) -> m2yield true v = Ok v' -> Forall m2block_ok (v_out v').
Proof.
  unfold m2yield. intros Hout H. destruct (v_hdr v) as [h|]; [|injection H as <-; exact Hout].
  destruct (v_atoms v) as [ra|]; [|discriminate]. destruct (v_bonds v) as [rb|]; [|discriminate].
  destruct (len_is ra (mh_natoms h) && len_is rb (nb_of h)) eqn:E; [|discriminate]. injection H as <-. simpl.
  constructor; [|exact Hout]. apply andb_prop in E. destruct E as [E1 E2]. unfold len_is in *.
  apply Z.eqb_eq in E1. apply Z.eqb_eq in E2. split; simpl; rewrite rev_length; assumption.
Qed.

Lemma m2main_ok v l : Forall m2block_ok (v_out v) -> Forall m2block_ok (m2out (m2main true v l)).
Proof.
  intros H. unfold m2main. destruct l as [|c r]; [exact H|]. destruct (ascii_eqb c "#"); [exact H|].
  destruct (tripos_name (c :: r)) as [nm|].
  - destruct (section_of nm); cbn [v_hdr v_atoms v_bonds v_out v_skip].
    + destruct (m2yield true _) as [v'|e] eqn:E; [|constructor]. apply m2yield_ok in E; [|exact H]. exact E.
    + destruct (v_hdr v); [|constructor]. destruct (true && nonempty_opt (v_atoms v)); [constructor|].
      destruct (mh_natoms m <=? 0)%Z; exact H.
    + destruct (v_hdr v); [|constructor]. destruct (mh_nbonds m); [|constructor].
      destruct (true && nonempty_opt (v_bonds v)); [constructor|]. destruct (z <=? 0)%Z; exact H.
    + exact H.
    + exact H.
    + exact H.
  - destruct (v_skip v); [exact H|constructor].
Qed.

Lemma m2step_ok st l : Forall m2block_ok (m2out st) -> Forall m2block_ok (m2out (m2step true st l)).
Proof.
  destruct st as [m v|e]; [|intros; constructor]. simpl m2out. intros H. unfold m2step.
  destruct m.
  - now apply m2main_ok.
  - destruct got as [|a [|b [|c [|d [|e got]]]]]; try exact H.
    destruct (m2header d c a) as [h|]; [|constructor].
    destruct (tripos_name (strip l)); [apply m2main_ok; exact H|]. destruct (str_eqb _ _); exact H.
  - exact H.
  - destruct (List.length (split (strip l)) <? 5)%nat; [constructor|]. destruct (todo <=? 1)%N; exact H.
  - destruct (List.length (split (strip l)) <? 4)%nat; [constructor|]. destruct (todo <=? 1)%N; exact H.
  - destruct (tripos_name (strip l)); [now apply m2main_ok|]. destruct (two_ints (strip l)) as [[i n]|]; [|constructor].
    destruct (n <=? 0)%Z; exact H.
  - destruct (split (strip l)) as [|a [|b [|c r]]]; try constructor.
    unfold set_atom_attr. destruct (v_atoms v); [|constructor]. destruct (py_index _ _); [|constructor].
    destruct (todo <=? 1)%N; exact H.
  - destruct (tripos_name (strip l)); [now apply m2main_ok|]. destruct (two_ints (strip l)) as [[i n]|]; [|constructor].
    destruct (n <=? 0)%Z; exact H.
  - destruct (split (strip l)) as [|a [|b [|c r]]]; try constructor.
    unfold chk_bond_attr. destruct (v_bonds v); [|constructor]. destruct (py_index _ _); [|constructor].
    destruct (todo <=? 1)%N; exact H.
Qed.

Lemma m2run_ok ls : forall st, Forall m2block_ok (m2out st) -> Forall m2block_ok (m2out (m2run true st ls)).
Proof. induction ls as [|l ls IH]; intros st H; [exact H|]. apply IH. now apply m2step_ok. Qed.

Theorem read_mol2_counts ls bs : read_mol2 true ls = Ok bs -> Forall m2block_ok bs.
Proof.
  unfold read_mol2. intros H. pose proof (m2run_ok ls (m2init) (Forall_nil _)) as Hok.
  destruct (m2run true m2init ls) as [m v|e]; [|discriminate]. simpl in Hok. destruct m; try discriminate.
  simpl in H. destruct (v_hdr v); [|discriminate]. destruct (m2yield true v) as [v'|] eqn:E; [|discriminate].
  injection H as <-. apply Forall_rev. eapply m2yield_ok; eauto.
Qed.

(* The layout molli writes, line by line in the reader's own terms: blank / `#` lines (ignorable), a TRIPOS record of a given
   section (is_sec), the five header lines of which the last is neither a record nor "****" (plain_status), ATOM and BOND record
   lines with enough columns (atom_line_of / bond_line_of give the record the reader stores). *)
Definition ignorable (l : str) : Prop := strip l = [] \/ exists r, strip l = "#" :: r.
Definition is_sec (l : str) (s : section) : Prop :=
  exists nm r, strip l = "@" :: r /\ tripos_name (strip l) = Some nm /\ section_of nm = s.
Definition plain_status (l : str) : Prop := tripos_name (strip l) = None /\ str_eqb (strip l) (s2l "****") = false.
Definition atom_line_of (l : str) (a : m2atom) : Prop :=
  a = mk_m2atom (split (strip l)) None /\ (5 <= List.length (split (strip l)))%nat.
Definition bond_line_of (l : str) (b : m2bond) : Prop :=
  b = mk_m2bond (split (strip l)) /\ (4 <= List.length (split (strip l)))%nat.

(* one molecule: blank / comment lines, MOLECULE, five header lines, ATOM with exactly the declared records, BOND with exactly
   the declared records; no UNITY section, nothing behind the last bond record.  m2wf_text: such molecules one after another. *)
Inductive m2wf : m2block -> list str -> Prop :=
| m2wf_intro ign lm name counts mtype ctype status la als lb bls h atoms bonds :
    Forall ignorable ign -> is_sec lm SMolecule ->
    m2header (strip name) (strip counts) (strip ctype) = Ok h -> plain_status status ->
    is_sec la SAtom -> mh_natoms h = Z.of_nat (List.length atoms) -> Forall2 atom_line_of als atoms ->
    is_sec lb SBond -> mh_nbonds h = Some (Z.of_nat (List.length bonds)) -> Forall2 bond_line_of bls bonds ->
    m2wf (mk_m2block h atoms bonds)
         (ign ++ lm :: name :: counts :: mtype :: ctype :: status :: la :: als ++ lb :: bls).
Inductive m2wf_text : list m2block -> list str -> Prop :=
| m2wt_nil : m2wf_text [] []
| m2wt_cons b bs l ls : m2wf b l -> m2wf_text bs ls -> m2wf_text (b :: bs) (l ++ ls).

Lemma m2wf_text_app bs1 ls1 bs2 ls2 : m2wf_text bs1 ls1 -> m2wf_text bs2 ls2 -> m2wf_text (bs1 ++ bs2) (ls1 ++ ls2).
Proof. induction 1 as [|b bs l ls Hb Ht IH]; intros H2; [exact H2|]. rewrite <- app_assoc. simpl. constructor; auto. Qed.

(* the reader's variables with the skip flag off, as they are everywhere in this layout *)
Local Notation V oh oa ob out := (mk_m2vars oh oa ob false out).

Lemma m2run_app st a b : m2run true (m2run true st a) b = m2run true st (a ++ b).
Proof. unfold m2run. symmetry. apply fold_left_app. Qed.
Lemma m2run_cons st l ls : m2run true st (l :: ls) = m2run true (m2step true st l) ls.
Proof. reflexivity. Qed.

(* pending molecule: parsed but not yet yielded *)
Definition pend := option (m2hdr * list m2atom * list m2bond).
Definition pvars (out : list m2block) (p : pend) : m2vars :=
  match p with
  | None => V None None None out
  | Some (h, a, b) => V (Some h) (Some (rev a)) (Some (rev b)) out
  end.
Definition pout (out : list m2block) (p : pend) : list m2block :=
  match p with None => out | Some (h, a, b) => mk_m2block h a b :: out end.
Definition pok (p : pend) : Prop :=
  match p with None => True
  | Some (h, a, b) => Z.of_nat (List.length a) = mh_natoms h /\ Z.of_nat (List.length b) = nb_of h end.
Definition phdr (p : pend) : option m2hdr := match p with None => None | Some (h, _, _) => Some h end.

Lemma len_is_rev {A} (l : list A) z : len_is (rev l) z = len_is l z.
Proof. unfold len_is. now rewrite rev_length. Qed.

Lemma yield_pending out p : pok p -> exists oa ob, m2yield true (pvars out p) = Ok (mk_m2vars (phdr p) oa ob false (pout out p)).
Proof.
  destruct p as [[[h a] b]|]; simpl; intros H.
  - destruct H as [H1 H2]. unfold m2yield. simpl. rewrite !len_is_rev. unfold len_is.
    rewrite H1, H2, !Z.eqb_refl. simpl. rewrite !rev_involutive. eauto.
  - unfold m2yield. simpl. eauto.
Qed.

Lemma step_ign v l : ignorable l -> m2step true (MRun MMain v) l = MRun MMain v.
Proof. intros [H|[r H]]; unfold m2step, m2main; rewrite H; reflexivity. Qed.
Lemma run_ign v ign : Forall ignorable ign -> m2run true (MRun MMain v) ign = MRun MMain v.
Proof. induction 1 as [|l ign Hl _ IH]; [reflexivity|]. rewrite m2run_cons, step_ign by exact Hl. exact IH. Qed.

Lemma step_molecule out p l : pok p -> is_sec l SMolecule ->
  m2step true (MRun MMain (pvars out p)) l = MRun (MHdr []) (mk_m2vars (phdr p) (Some []) (Some []) false (pout out p)).
Proof.
  intros Hp (nm & r & E1 & E2 & E3). unfold m2step, m2main. rewrite E1 in *. rewrite E2, E3.
  change (ascii_eqb "@" "#") with false. cbv iota.
  replace (mk_m2vars (v_hdr (pvars out p)) (v_atoms (pvars out p)) (v_bonds (pvars out p)) false (v_out (pvars out p)))
    with (pvars out p) by (destruct p as [[[h a] b]|]; reflexivity).
  destruct (yield_pending out p Hp) as [oa [ob E]]. rewrite E. reflexivity.
Qed.

Lemma step_hdr_push v got l : (List.length got < 4)%nat -> m2step true (MRun (MHdr got) v) l = MRun (MHdr (strip l :: got)) v.
Proof. intros H. unfold m2step. destruct got as [|a [|b [|c [|d r]]]]; try reflexivity. simpl in H. lia. Qed.

Lemma step_hdr_status oh oa ob out name counts mtype ctype status h :
  m2header (strip name) (strip counts) (strip ctype) = Ok h -> plain_status status ->
  m2step true (MRun (MHdr [strip ctype; strip mtype; strip counts; strip name]) (V oh oa ob out)) status
  = MRun MMain (V (Some h) oa ob out).
Proof. intros Hh [H1 H2]. unfold m2step. rewrite Hh, H1, H2. reflexivity. Qed.

Lemma step_atom_sec h ob out l : is_sec l SAtom ->
  m2step true (MRun MMain (V (Some h) (Some []) ob out)) l =
  if (mh_natoms h <=? 0)%Z then MRun MMain (V (Some h) (Some []) ob out)
  else MRun (MAtoms (Z.to_N (mh_natoms h))) (V (Some h) (Some []) ob out).
Proof.
  intros (nm & r & E1 & E2 & E3). unfold m2step, m2main. rewrite E1 in *. rewrite E2, E3.
  change (ascii_eqb "@" "#") with false. cbv iota. simpl. destruct (mh_natoms h <=? 0)%Z; reflexivity.
Qed.
Lemma step_bond_sec h oa out l nb : is_sec l SBond -> mh_nbonds h = Some nb ->
  m2step true (MRun MMain (V (Some h) oa (Some []) out)) l =
  if (nb <=? 0)%Z then MRun MMain (V (Some h) oa (Some []) out)
  else MRun (MBonds (Z.to_N nb)) (V (Some h) oa (Some []) out).
Proof.
  intros (nm & r & E1 & E2 & E3) Hnb. unfold m2step, m2main. rewrite E1 in *. rewrite E2, E3.
  change (ascii_eqb "@" "#") with false. cbv iota. simpl. rewrite Hnb. simpl. destruct (nb <=? 0)%Z; reflexivity.
Qed.

Lemma step_atom oh ra ob out todo l a : atom_line_of l a ->
  m2step true (MRun (MAtoms todo) (V oh (Some ra) ob out)) l =
  if (todo <=? 1)%N then MRun MMain (V oh (Some (a :: ra)) ob out) else MRun (MAtoms (todo - 1)) (V oh (Some (a :: ra)) ob out).
Proof.
  intros [-> H]. unfold m2step. destruct (Nat.ltb_spec (List.length (split (strip l))) 5); [lia|]. reflexivity.
Qed.
Lemma step_bond oh oa rb out todo l b : bond_line_of l b ->
  m2step true (MRun (MBonds todo) (V oh oa (Some rb) out)) l =
  if (todo <=? 1)%N then MRun MMain (V oh oa (Some (b :: rb)) out) else MRun (MBonds (todo - 1)) (V oh oa (Some (b :: rb)) out).
Proof.
  intros [-> H]. unfold m2step. destruct (Nat.ltb_spec (List.length (split (strip l))) 4); [lia|]. reflexivity.
Qed.

Lemma atoms_short oh ob out als atoms : Forall2 atom_line_of als atoms -> forall todo ra,
  (N.of_nat (List.length als) < todo)%N ->
  m2run true (MRun (MAtoms todo) (V oh (Some ra) ob out)) als
  = MRun (MAtoms (todo - N.of_nat (List.length als))) (V oh (Some (rev atoms ++ ra)) ob out).
Proof.
  exact (loop_short _ _ _ (m2step true) _ (fun todo ra => MRun (MAtoms todo) (V oh (Some ra) ob out))
                    (fun ra => MRun MMain (V oh (Some ra) ob out))
                    (fun todo ra l a => step_atom oh ra ob out todo l a) als atoms).
Qed.
Lemma atoms_exact oh ob out als atoms : Forall2 atom_line_of als atoms -> als <> [] -> forall ra,
  m2run true (MRun (MAtoms (N.of_nat (List.length als))) (V oh (Some ra) ob out)) als
  = MRun MMain (V oh (Some (rev atoms ++ ra)) ob out).
Proof.
  exact (loop_exact _ _ _ (m2step true) _ (fun todo ra => MRun (MAtoms todo) (V oh (Some ra) ob out))
                    (fun ra => MRun MMain (V oh (Some ra) ob out))
                    (fun todo ra l a => step_atom oh ra ob out todo l a) als atoms).
Qed.
Lemma bonds_short oh oa out bls bonds : Forall2 bond_line_of bls bonds -> forall todo rb,
  (N.of_nat (List.length bls) < todo)%N ->
  m2run true (MRun (MBonds todo) (V oh oa (Some rb) out)) bls
  = MRun (MBonds (todo - N.of_nat (List.length bls))) (V oh oa (Some (rev bonds ++ rb)) out).
Proof.
  exact (loop_short _ _ _ (m2step true) _ (fun todo rb => MRun (MBonds todo) (V oh oa (Some rb) out))
                    (fun rb => MRun MMain (V oh oa (Some rb) out))
                    (fun todo rb l b => step_bond oh oa rb out todo l b) bls bonds).
Qed.
Lemma bonds_exact oh oa out bls bonds : Forall2 bond_line_of bls bonds -> bls <> [] -> forall rb,
  m2run true (MRun (MBonds (N.of_nat (List.length bls))) (V oh oa (Some rb) out)) bls
  = MRun MMain (V oh oa (Some (rev bonds ++ rb)) out).
Proof.
  exact (loop_exact _ _ _ (m2step true) _ (fun todo rb => MRun (MBonds todo) (V oh oa (Some rb) out))
                    (fun rb => MRun MMain (V oh oa (Some rb) out))
                    (fun todo rb l b => step_bond oh oa rb out todo l b) bls bonds).
Qed.

Lemma run_hdr_lines oh out name counts mtype ctype status h rest :
  m2header (strip name) (strip counts) (strip ctype) = Ok h -> plain_status status ->
  m2run true (MRun (MHdr []) (mk_m2vars oh (Some []) (Some []) false out)) (name :: counts :: mtype :: ctype :: status :: rest)
  = m2run true (MRun MMain (V (Some h) (Some []) (Some []) out)) rest.
Proof.
  intros Hh Hst. do 5 rewrite m2run_cons. rewrite !step_hdr_push by (simpl; lia).
  now rewrite (step_hdr_status _ _ _ _ _ _ _ _ _ h Hh Hst).
Qed.

Section Body.
Variables (h : m2hdr) (atoms : list m2atom) (bonds : list m2bond) (out' : list m2block).
Variables (la lb : str) (als bls : list str).
Hypothesis Hna : mh_natoms h = Z.of_nat (List.length atoms).
Hypothesis Hnb : mh_nbonds h = Some (Z.of_nat (List.length bonds)).
Hypothesis Hla : is_sec la SAtom.
Hypothesis HFa : Forall2 atom_line_of als atoms.
Hypothesis Hlb : is_sec lb SBond.
Hypothesis HFb : Forall2 bond_line_of bls bonds.

Lemma run_atoms_sec ob rest :
  m2run true (MRun MMain (V (Some h) (Some []) ob out')) (la :: als ++ rest)
  = m2run true (MRun MMain (V (Some h) (Some (rev atoms)) ob out')) rest.
Proof using Hna Hla HFa.
  clear - Hna Hla HFa. rewrite m2run_cons, (step_atom_sec h _ _ la Hla). pose proof (Forall2_length HFa) as Hlen.
  rewrite <- m2run_app. f_equal.
  destruct (Z.leb_spec (mh_natoms h) 0) as [Hle|Hgt].
  - assert (E : atoms = []) by (destruct atoms; [reflexivity|simpl in Hna; lia]). rewrite E in *. inversion HFa; subst. reflexivity.
  - replace (Z.to_N (mh_natoms h)) with (N.of_nat (List.length als)) by lia.
    rewrite (atoms_exact _ _ _ als atoms HFa) by (destruct als; [simpl in *; lia|discriminate]). now rewrite app_nil_r.
Qed.
Lemma run_bonds_sec oa rest :
  m2run true (MRun MMain (V (Some h) oa (Some []) out')) (lb :: bls ++ rest)
  = m2run true (MRun MMain (V (Some h) oa (Some (rev bonds)) out')) rest.
Proof using Hnb Hlb HFb.
  clear - Hnb Hlb HFb. rewrite m2run_cons, (step_bond_sec h _ _ lb _ Hlb Hnb). pose proof (Forall2_length HFb) as Hlen.
  rewrite <- m2run_app. f_equal.
  destruct (Z.leb_spec (Z.of_nat (List.length bonds)) 0) as [Hle|Hgt].
  - assert (E : bonds = []) by (destruct bonds; [reflexivity|simpl in Hle; lia]). rewrite E in *. inversion HFb; subst. reflexivity.
  - replace (Z.to_N (Z.of_nat (List.length bonds))) with (N.of_nat (List.length bls)) by lia.
    rewrite (bonds_exact _ _ _ bls bonds HFb) by (destruct bls; [simpl in *; lia|discriminate]). now rewrite app_nil_r.
Qed.
Lemma run_body rest :
  m2run true (MRun MMain (V (Some h) (Some []) (Some []) out')) ((la :: als ++ lb :: bls) ++ rest)
  = m2run true (MRun MMain (pvars out' (Some (h, atoms, bonds)))) rest.
Proof.
  change ((la :: als ++ lb :: bls) ++ rest) with (la :: (als ++ lb :: bls) ++ rest). rewrite <- app_assoc.
  rewrite run_atoms_sec. change ((lb :: bls) ++ rest) with (lb :: bls ++ rest). rewrite run_bonds_sec. reflexivity.
Qed.
End Body.


Lemma finish_main h ra rb out :
  m2finish true (MRun MMain (V (Some h) (Some ra) (Some rb) out)) =
  if len_is ra (mh_natoms h) && len_is rb (nb_of h) then Ok (rev (mk_m2block h (rev ra) (rev rb) :: out)) else Err ECounts.
Proof. unfold m2finish, m2yield. simpl. destruct (len_is ra (mh_natoms h) && len_is rb (nb_of h)); reflexivity. Qed.

(* finishing from st raises, or returns exactly this block on top of out': all a truncated block may do *)
Definition good (h : m2hdr) (atoms : list m2atom) (bonds : list m2bond) (out' : list m2block) (st : m2state) : Prop :=
  (exists e, m2finish true st = Err e) \/ m2finish true st = Ok (rev (mk_m2block h atoms bonds :: out')).

(* the header's bond count as a number (an absent count reads as 0) *)
Lemma nb_of_h h (bonds : list m2bond) : mh_nbonds h = Some (Z.of_nat (List.length bonds)) -> nb_of h = Z.of_nat (List.length bonds).
Proof. intros Hnb. unfold nb_of. now rewrite Hnb. Qed.

Lemma good_main h atoms bonds out' ra rb :
  (len_is ra (mh_natoms h) = true -> rev ra = atoms) -> (len_is rb (nb_of h) = true -> rev rb = bonds) ->
  good h atoms bonds out' (MRun MMain (V (Some h) (Some ra) (Some rb) out')).
Proof.
  intros H1 H2. unfold good. rewrite finish_main.
  destruct (len_is ra (mh_natoms h)) eqn:E1; [|left; eexists; reflexivity].
  destruct (len_is rb (nb_of h)) eqn:E2; [|left; eexists; reflexivity].
  right. simpl. now rewrite H1, H2.
Qed.
(* an empty record list meets the declared count only if nothing was declared (A: the stored records, B: the declared ones) *)
Lemma len0_nil {A B} (m : list B) : len_is (@nil A) (Z.of_nat (List.length m)) = true -> m = [].
Proof. unfold len_is. intros H. apply Z.eqb_eq in H. destruct m; [reflexivity|simpl in H; lia]. Qed.

Lemma good_bonds h atoms bonds out' lb bls k :
  mh_nbonds h = Some (Z.of_nat (List.length bonds)) ->
  is_sec lb SBond -> Forall2 bond_line_of bls bonds -> (k < S (List.length bls))%nat ->
  good h atoms bonds out' (m2run true (MRun MMain (V (Some h) (Some (rev atoms)) (Some []) out')) (firstn k (lb :: bls))).
Proof.
  intros Hnb Hlb HF Hk. pose proof (Forall2_length HF) as Hlen. destruct k as [|k]; simpl firstn.
  - simpl. apply good_main.
    + intros _. apply rev_involutive.
    + rewrite (nb_of_h h bonds Hnb). intros H. simpl. symmetry. eapply len0_nil; eauto.
  - rewrite m2run_cons, (step_bond_sec h _ _ lb _ Hlb Hnb).
    destruct (Z.leb_spec (Z.of_nat (List.length bonds)) 0) as [Hle|Hgt]; [lia|].
    rewrite (bonds_short _ _ _ _ _ (Forall2_firstn _ k _ _ HF)) by (rewrite firstn_length; lia). left. eexists. reflexivity.
Qed.

Lemma good_atoms h atoms bonds out' la als lb bls k :
  mh_natoms h = Z.of_nat (List.length atoms) -> mh_nbonds h = Some (Z.of_nat (List.length bonds)) ->
  is_sec la SAtom -> Forall2 atom_line_of als atoms -> is_sec lb SBond ->
  Forall2 bond_line_of bls bonds -> (k < S (List.length als + S (List.length bls)))%nat ->
  good h atoms bonds out' (m2run true (MRun MMain (V (Some h) (Some []) (Some []) out')) (firstn k (la :: als ++ lb :: bls))).
Proof.
  intros Hna Hnb Hla HFa Hlb HFb Hk. pose proof (Forall2_length HFa) as Hlen. destruct k as [|k]; simpl firstn.
  - simpl. apply good_main.
    + rewrite Hna. intros H. simpl. symmetry. eapply len0_nil; eauto.
    + rewrite (nb_of_h h bonds Hnb). intros H. simpl. symmetry. eapply len0_nil; eauto.
  - rewrite firstn_app. destruct (le_lt_dec (List.length als) k) as [Hge|Hlt].
    + rewrite firstn_all2, (run_atoms_sec h atoms out' la als Hna Hla HFa) by exact Hge.
      apply (good_bonds h atoms bonds out' lb bls _ Hnb Hlb HFb). lia.
    + replace (k - List.length als)%nat with 0%nat by lia. simpl firstn.
      rewrite app_nil_r, m2run_cons, (step_atom_sec h _ _ la Hla). destruct (Z.leb_spec (mh_natoms h) 0); [lia|].
      rewrite (atoms_short _ _ _ _ _ (Forall2_firstn _ k _ _ HFa)) by (rewrite firstn_length; lia). left. eexists. reflexivity.
Qed.

Lemma finish_pend out p : pok p -> p <> None -> m2finish true (MRun MMain (pvars out p)) = Ok (rev (pout out p)).
Proof.
  intros Hp Hn. destruct p as [[[h a] b]|]; [|contradiction]. destruct Hp as [H1 H2]. cbn [pvars pout].
  rewrite finish_main, !len_is_rev. unfold len_is. rewrite H1, H2, !Z.eqb_refl. simpl. now rewrite !rev_involutive.
Qed.
Lemma finish_pending out p : pok p ->
  (exists e, m2finish true (MRun MMain (pvars out p)) = Err e) \/ m2finish true (MRun MMain (pvars out p)) = Ok (rev (pout out p)).
Proof. intros Hp. destruct p as [x|]; [right; now apply finish_pend|left; eexists; reflexivity]. Qed.

Lemma run_block b l out p : m2wf b l -> pok p ->
  m2run true (MRun MMain (pvars out p)) l = MRun MMain (pvars (pout out p) (Some (mk_hdr b, mk_atoms b, mk_bonds b))) /\
  pok (Some (mk_hdr b, mk_atoms b, mk_bonds b)).
Proof.
  intros H Hp. destruct H as [ign lm name counts mtype ctype status la als lb bls h atoms bonds Hign Hlm Hh Hst Hla Hna HFa Hlb Hnb HFb].
  cbn [mk_hdr mk_atoms mk_bonds]. split; [|split; [now rewrite Hna|unfold nb_of; now rewrite Hnb]].
  rewrite <- m2run_app, run_ign by exact Hign. rewrite m2run_cons, step_molecule by assumption.
  rewrite (run_hdr_lines _ _ _ _ _ _ _ h _ Hh Hst), <- (app_nil_r (la :: _)).
  now rewrite (run_body h atoms bonds _ la lb als bls) by assumption.
Qed.

Lemma block_prefix b l out p k : m2wf b l -> pok p -> (k < List.length l)%nat ->
  let st := m2run true (MRun MMain (pvars out p)) (firstn k l) in
  (exists e, m2finish true st = Err e) \/ m2finish true st = Ok (rev (pout out p)) \/ m2finish true st = Ok (rev (b :: pout out p)).
Proof.
  intros H Hp Hk. destruct H as [ign lm name counts mtype ctype status la als lb bls h atoms bonds Hign Hlm Hh Hst Hla Hna HFa Hlb Hnb HFb].
  cbv zeta. rewrite firstn_app. destruct (le_lt_dec k (List.length ign)) as [Hle|Hgt].
  - replace (k - List.length ign)%nat with 0%nat by lia. simpl firstn. rewrite app_nil_r.
    rewrite run_ign by (now apply Forall_firstn). destruct (finish_pending out p Hp) as [E|E]; auto.
  - rewrite firstn_all2 by lia. rewrite <- m2run_app, run_ign by exact Hign.
    remember (k - List.length ign)%nat as k1 eqn:Ek1. destruct k1 as [|k1]; [lia|]. simpl firstn.
    rewrite m2run_cons, step_molecule by assumption.
    rewrite app_length in Hk. simpl in Hk. rewrite app_length in Hk. simpl in Hk.
    do 5 (destruct k1 as [|k1]; [left; eexists; reflexivity|]; simpl firstn; rewrite m2run_cons;
          try (rewrite step_hdr_push by (simpl; lia))).
    rewrite (step_hdr_status _ _ _ _ _ _ _ _ _ h Hh Hst).
    destruct (good_atoms h atoms bonds (pout out p) la als lb bls k1 Hna Hnb Hla HFa Hlb HFb) as [E|E]; [lia|auto|auto].
Qed.

Definition pend_of (b : m2block) : pend := Some (mk_hdr b, mk_atoms b, mk_bonds b).
Lemma pout_pend_of out b : pout out (pend_of b) = b :: out.
Proof. destruct b; reflexivity. Qed.

(* a whole text: some block is pending afterwards, unless there was none before and the text is empty *)
Lemma run_text bs ls : m2wf_text bs ls -> forall out p, pok p -> exists out2 p2, pok p2 /\
  m2run true (MRun MMain (pvars out p)) ls = MRun MMain (pvars out2 p2) /\ pout out2 p2 = rev bs ++ pout out p /\
  (p2 = None -> bs = [] /\ p = None).
Proof.
  induction 1 as [|b bs l ls Hb Ht IH]; intros out p Hp; [exists out, p; auto|].
  destruct (run_block b l out p Hb Hp) as [E Hpb].
  destruct (IH (pout out p) (pend_of b) Hpb) as (out2 & p2 & H1 & H2 & H3 & H4).
  exists out2, p2. split; [exact H1|]. split; [now rewrite <- m2run_app, E|]. split.
  - rewrite H3, pout_pend_of. simpl. now rewrite <- app_assoc.
  - intros ->. now destruct (H4 eq_refl).
Qed.

Theorem read_mol2_wf bs ls : m2wf_text bs ls -> bs <> [] -> read_mol2 true ls = Ok bs.
Proof.
  intros H Hne. unfold read_mol2, m2init. destruct (run_text bs ls H [] None I) as (out2 & p2 & Hp & R & Ho & Hn).
  change (mk_m2vars None None None false []) with (pvars [] None). rewrite R, finish_pend, Ho; auto.
  - simpl. now rewrite app_nil_r, rev_involutive.
  - intros ->. now destruct (Hn eq_refl).
Qed.

Theorem read_mol2_truncated bs ls : m2wf_text bs ls -> forall k,
  (exists e, read_mol2 true (firstn k ls) = Err e) \/ (exists j, read_mol2 true (firstn k ls) = Ok (firstn j bs)).
Proof.
  intros H k. unfold read_mol2, m2init. change (mk_m2vars None None None false []) with (pvars [] None).
  assert (G : forall out p, pok p ->
            (exists e, m2finish true (m2run true (MRun MMain (pvars out p)) (firstn k ls)) = Err e) \/
            (exists j, m2finish true (m2run true (MRun MMain (pvars out p)) (firstn k ls)) = Ok (rev (pout out p) ++ firstn j bs))).
  { revert k. induction H as [|b bs l ls Hb Ht IH]; intros k out p Hp.
    - rewrite firstn_nil. destruct (finish_pending out p Hp) as [E|E]; [left; exact E|].
      right. exists 0%nat. simpl. now rewrite app_nil_r.
    - rewrite firstn_app. destruct (le_lt_dec (List.length l) k) as [Hge|Hlt].
      + rewrite firstn_all2 by exact Hge. destruct (run_block b l out p Hb Hp) as [E Hpb]. fold (pend_of b) in E, Hpb.
        rewrite <- m2run_app, E. destruct (IH (k - List.length l)%nat (pout out p) (pend_of b) Hpb) as [[e E2]|[j E2]].
        * left. now exists e.
        * right. exists (S j). rewrite E2, pout_pend_of. simpl. now rewrite <- app_assoc.
      + replace (k - List.length l)%nat with 0%nat by lia. rewrite firstn_O, app_nil_r.
        destruct (block_prefix b l out p k Hb Hp Hlt) as [E|[E|E]].
        * left. exact E.
        * right. exists 0%nat. simpl. now rewrite app_nil_r.
        * right. exists 1%nat. rewrite E. simpl. reflexivity. }
  destruct (G [] None I) as [E|[j E]]; [left; exact E|right; exists j; exact E].
Qed.

Definition mol2_ok (m : mol) : Prop :=
  m_natoms m = Z.of_nat (List.length (m_elems m)) /\ List.length (m_coords m) = List.length (m_elems m) /\
  m_nbonds m = Z.of_nat (List.length (m_bonds m)).
Lemma all_ok_length {A B} (f : A -> res B) l ms : all_ok (map f l) = Ok ms -> List.length ms = List.length l.
Proof. intros H. apply all_ok_Forall2 in H. symmetry. exact (Forall2_length H). Qed.
Lemma mol2_build_ok atype btype b m : m2block_ok b -> mol2_build atype btype b = Ok m -> mol2_ok m.
Proof.
  intros [H1 H2]. unfold mol2_build, res_bind. destruct (mh_natoms (mk_hdr b) <? 0)%Z; [discriminate|].
  destruct (mh_natoms (mk_hdr b) <? Z.of_nat (List.length (mk_atoms b)))%Z; [discriminate|].
  destruct (all_ok (map _ (mk_atoms b))) as [ats|] eqn:Ea; [|discriminate].
  destruct (all_ok (map _ (mk_bonds b))) as [bds|] eqn:Eb; [|discriminate].
  destruct (_ && _); [discriminate|]. intros H. injection H as <-.
  apply all_ok_length in Ea. apply all_ok_length in Eb. unfold mol2_ok. simpl. rewrite !map_length, Ea, Eb. auto.
Qed.

Lemma xyz_atom_split_eq l1 l2 : split l1 = split l2 -> xyz_atom l1 = xyz_atom l2.
Proof. unfold xyz_atom. now intros ->. Qed.
Lemma xyz_atom_tokens l a : xyz_atom l = Some a -> List.length (split l) = 4%nat.
Proof.
  unfold xyz_atom. destruct (split l) as [|s [|x [|y [|z [|w r]]]]]; try discriminate. reflexivity.
Qed.
Lemma xyz_atom_few l : (List.length (split l) < 4)%nat -> xyz_atom l = None.
Proof.
  unfold xyz_atom. destruct (split l) as [|s [|x [|y [|z [|w r]]]]]; simpl; intros H; try reflexivity; lia.
Qed.

(* whatever follows, the text is refused: the reader run on from st over ls ends in an exception *)
Definition m2fails (st : m2state) (ls : list str) : Prop := exists e, m2finish true (m2run true st ls) = Err e.
Lemma m2run_fail e ls : m2run true (MFail e) ls = MFail e.
Proof. induction ls as [|l ls IH]; [reflexivity|exact IH]. Qed.
Lemma m2fails_fail e ls : m2fails (MFail e) ls.
Proof. exists e. now rewrite m2run_fail. Qed.
Lemma m2fails_step st l ls : m2fails (m2step true st l) ls -> m2fails st (l :: ls).
Proof. intros H. exact H. Qed.
Lemma m2fails_app st a b : m2fails (m2run true st a) b -> m2fails st (a ++ b).
Proof. unfold m2fails. now rewrite m2run_app. Qed.
(* the bridge from a reader state to a text: a prefix that leads to st, then lines on which st fails *)
Lemma fails_read pre st rest : m2run true m2init pre = st -> m2fails st rest -> exists e, read_mol2 true (pre ++ rest) = Err e.
Proof. intros <-. apply m2fails_app. Qed.

(* What a line must not be mistaken for once a neighbour is lost or doubled and it is read one place off: a counts line
   (counts_bad: m2header refuses it), a blank / comment / TRIPOS line (other_line), a record line (few_tokens).  never_bond is for
   the blank / comment lines in front of the NEXT molecule: a BOND loop that lost a record swallows the line behind the section,
   so that line must have too few columns or be refused by the bond conversion. *)
Definition counts_bad (s : str) : Prop := forall n c, exists e, m2header n s c = Err e.
Definition other_line (l : str) : Prop :=
  exists c r, strip l = c :: r /\ ascii_eqb c "#" = false /\ tripos_name (strip l) = None.
Definition few_tokens (k : nat) (l : str) : Prop := (List.length (split (strip l)) < k)%nat.
Definition never_bond (l : str) : Prop :=
  few_tokens 4 l \/ forall btype n, exists e, m2_bond_conv btype n (mk_m2bond (split (strip l))) = Err e.

Lemma fails_other oh oa ob out l ls : other_line l -> m2fails (MRun MMain (V oh oa ob out)) (l :: ls).
Proof.
  intros (c & r & E & Hc & Ht). apply m2fails_step. unfold m2step, m2main. rewrite E in *. rewrite Hc, Ht. apply m2fails_fail.
Qed.
Lemma fails_atom_few oh oa ob out todo l ls : few_tokens 5 l -> m2fails (MRun (MAtoms todo) (V oh oa ob out)) (l :: ls).
Proof.
  unfold few_tokens. intros H. apply m2fails_step. unfold m2step.
  destruct (Nat.ltb_spec (List.length (split (strip l))) 5); [apply m2fails_fail|lia].
Qed.
Lemma fails_bond_few oh oa ob out todo l ls : few_tokens 4 l -> m2fails (MRun (MBonds todo) (V oh oa ob out)) (l :: ls).
Proof.
  unfold few_tokens. intros H. apply m2fails_step. unfold m2step.
  destruct (Nat.ltb_spec (List.length (split (strip l))) 4); [apply m2fails_fail|lia].
Qed.

(* more record lines than the header declares, each of them unmistakably a record line: the first surplus one is read in the main loop *)
Lemma too_many_atoms h ob out la als atoms n post : is_sec la SAtom -> mh_natoms h = Z.of_nat n ->
  Forall2 atom_line_of als atoms -> Forall other_line als -> (n < List.length als)%nat ->
  m2fails (MRun MMain (V (Some h) (Some []) ob out)) (la :: als ++ post).
Proof.
  intros Hla Hna HF Ho Hn. destruct (split_at n als Hn) as (l1 & x & r & -> & Hl1).
  apply Forall2_app_inv_l in HF. destruct HF as (a1 & a2 & HF1 & _ & _). pose proof (Forall2_length HF1).
  rewrite <- app_assoc. unfold m2fails. rewrite (run_atoms_sec h a1 out la l1) by (assumption || congruence).
  apply fails_other. exact (Forall_elt _ _ _ Ho).
Qed.
Lemma too_many_bonds h oa out lb bls bonds n post : is_sec lb SBond -> mh_nbonds h = Some (Z.of_nat n) ->
  Forall2 bond_line_of bls bonds -> Forall other_line bls -> (n < List.length bls)%nat ->
  m2fails (MRun MMain (V (Some h) oa (Some []) out)) (lb :: bls ++ post).
Proof.
  intros Hlb Hnb HF Ho Hn. destruct (split_at n bls Hn) as (l1 & x & r & -> & Hl1).
  apply Forall2_app_inv_l in HF. destruct HF as (b1 & b2 & HF1 & _ & _). pose proof (Forall2_length HF1).
  rewrite <- app_assoc. unfold m2fails. rewrite (run_bonds_sec h b1 out lb l1) by (assumption || congruence).
  apply fails_other. exact (Forall_elt _ _ _ Ho).
Qed.

Lemma step_hdr_bad_counts v name counts mtype ctype x : counts_bad (strip counts) ->
  exists e, m2step true (MRun (MHdr [strip ctype; strip mtype; strip counts; strip name]) v) x = MFail e.
Proof. intros H. destruct (H (strip name) (strip ctype)) as [e E]. exists e. unfold m2step. now rewrite E. Qed.

(* five header lines whose last one is a TRIPOS record: it is put back and dispatched in main mode *)
Lemma step_hdr_putback oh oa ob out name counts mtype ctype x h s :
  m2header (strip name) (strip counts) (strip ctype) = Ok h -> is_sec x s ->
  m2step true (MRun (MHdr [strip ctype; strip mtype; strip counts; strip name]) (V oh oa ob out)) x
  = m2step true (MRun MMain (V (Some h) oa ob out)) x.
Proof. intros Hh (nm & r & _ & Hx & _). unfold m2step. now rewrite Hh, Hx. Qed.

(* m2header only looks at the counts line for success; the header differs in name / charge type only *)
Definition hsim (h' h : m2hdr) : Prop := mh_natoms h' = mh_natoms h /\ mh_nbonds h' = mh_nbonds h.
Lemma m2header_sim n c t h n' t' : m2header n c t = Ok h -> exists h', m2header n' c t' = Ok h' /\ hsim h' h.
Proof.
  unfold m2header. destruct (map_opt parse_int (split c)) as [[|na [|nb [|ns r]]]|]; try discriminate;
    intros H; injection H as <-; (eexists; split; [reflexivity|split; reflexivity]).
Qed.

Lemma line_class l : tripos_name (strip l) = None -> ignorable l \/ other_line l.
Proof.
  intros H. unfold ignorable, other_line. destruct (strip l) as [|c r] eqn:E; [left; left; reflexivity|].
  destruct (ascii_eqb c "#") eqn:Ec.
  - left. right. apply ascii_eqb_eq in Ec. subst c. now exists r.
  - right. exists c, r. auto.
Qed.

Lemma pvars_V out p : exists oh oa ob, pvars out p = V oh oa ob out.
Proof. destruct p as [[[h a] b]|]; simpl; eauto. Qed.

(* m2wf with its ten premises, then what makes each line unmistakable when shifted (the eleven premises after the comment) *)
Inductive m2wfs : m2block -> list str -> Prop :=
| m2wfs_intro ign lm name counts mtype ctype status la als lb bls h atoms bonds :
    Forall ignorable ign -> is_sec lm SMolecule ->
    m2header (strip name) (strip counts) (strip ctype) = Ok h -> plain_status status ->
    is_sec la SAtom -> mh_natoms h = Z.of_nat (List.length atoms) -> Forall2 atom_line_of als atoms ->
    is_sec lb SBond -> mh_nbonds h = Some (Z.of_nat (List.length bonds)) -> Forall2 bond_line_of bls bonds ->
    (* the name is no record and no counts line, the counts line is no blank / comment / record, mol_type is no counts line, the
       charge type could stand as a status line, the section records and the record lines cannot stand for each other *)
    Forall never_bond ign -> few_tokens 4 lm ->
    tripos_name (strip name) = None -> counts_bad (strip name) -> other_line counts -> counts_bad (strip mtype) ->
    plain_status ctype -> few_tokens 5 la -> few_tokens 4 lb ->
    Forall other_line als -> Forall other_line bls ->
    m2wfs (mk_m2block h atoms bonds)
          (ign ++ lm :: name :: counts :: mtype :: ctype :: status :: la :: als ++ lb :: bls).

Lemma m2wfs_wf b l : m2wfs b l -> m2wf b l.
Proof. intros H. destruct H. now constructor. Qed.

(* what stands behind a block in such a text: nothing, or the first line of the next block (a blank / comment line that is
   never a bond, or the MOLECULE record) *)
Inductive wtail : list str -> Prop :=
| wt_nil : wtail []
| wt_ign x post : ignorable x -> never_bond x -> wtail (x :: post)
| wt_lm x post : few_tokens 4 x -> wtail (x :: post).

Definition bad_bond (bd : m2bond) : Prop := forall btype n, exists e, m2_bond_conv btype n bd = Err e.

(* What one damaged block does to the reader, started in S0, over the damaged lines dl with `post` behind them: it fails; or it
   ends as after the intact block, the header agreeing in its counts (hsim: name and charge type may have shifted); or a BOND loop
   that lost a record swallows the blank / comment line x behind the block as a bond record, which the conversion refuses. *)
Inductive outcome (out' : list m2block) (h : m2hdr) (atoms : list m2atom) (bonds : list m2bond)
                  (S0 : m2state) (dl post : list str) : Prop :=
| oc_fail : m2fails S0 (dl ++ post) -> outcome out' h atoms bonds S0 dl post
| oc_same h' : hsim h' h -> m2run true S0 dl = MRun MMain (pvars out' (Some (h', atoms, bonds))) ->
               outcome out' h atoms bonds S0 dl post
| oc_bogus x post' bonds' bd : post = x :: post' -> ignorable x ->
    List.length bonds' = List.length bonds -> In bd bonds' -> bad_bond bd ->
    m2run true S0 (dl ++ [x]) = MRun MMain (pvars out' (Some (h, atoms, bonds'))) ->
    outcome out' h atoms bonds S0 dl post.

Arguments oc_fail {out' h atoms bonds S0 dl post}.
Arguments oc_same {out' h atoms bonds S0 dl post}.
Arguments oc_bogus {out' h atoms bonds S0 dl post}.

Lemma hsim_refl h : hsim h h.
Proof. split; reflexivity. Qed.

(* damage behind an intact part `a` of the block that takes the reader from S0 to S1 *)
Lemma outcome_after out' h atoms bonds S0 S1 a X post : (forall rest, m2run true S0 (a ++ rest) = m2run true S1 rest) ->
  outcome out' h atoms bonds S1 X post -> outcome out' h atoms bonds S0 (a ++ X) post.
Proof.
  intros R [F|h' Hs E|x post' bonds' bd E1 E2 E3 E4 E5 E6].
  - apply oc_fail. unfold m2fails in *. now rewrite <- app_assoc, R.
  - apply (oc_same h' Hs). now rewrite R.
  - apply (oc_bogus x post' bonds' bd); auto. now rewrite <- app_assoc, R.
Qed.

Arguments outcome_after {out' h atoms bonds} S0 S1 a.
Lemma few45 l : few_tokens 4 l -> few_tokens 5 l.
Proof. unfold few_tokens. lia. Qed.
Lemma finish_hdr got v : m2finish true (MRun (MHdr got) v) = Err EEof.
Proof. reflexivity. Qed.

Lemma list_case {A} (l : list A) : l = [] \/ exists x r, l = x :: r.
Proof. destruct l; [now left|right; eauto]. Qed.

Section BlockDamage.
Variables (ign : list str) (lm name counts mtype ctype status la lb : str) (als bls : list str).
Variables (h : m2hdr) (atoms : list m2atom) (bonds : list m2bond).
Hypothesis Hign : Forall ignorable ign.
Hypothesis Hlm : is_sec lm SMolecule.
Hypothesis Hh : m2header (strip name) (strip counts) (strip ctype) = Ok h.
Hypothesis Hst : plain_status status.
Hypothesis Hla : is_sec la SAtom.
Hypothesis Hna : mh_natoms h = Z.of_nat (List.length atoms).
Hypothesis HFa : Forall2 atom_line_of als atoms.
Hypothesis Hlb : is_sec lb SBond.
Hypothesis Hnb : mh_nbonds h = Some (Z.of_nat (List.length bonds)).
Hypothesis HFb : Forall2 bond_line_of bls bonds.
Hypothesis Hname_t : tripos_name (strip name) = None.
Hypothesis Hname_bad : counts_bad (strip name).
Hypothesis Hcounts_o : other_line counts.
Hypothesis Hmtype_bad : counts_bad (strip mtype).
Hypothesis Hctype_p : plain_status ctype.
Hypothesis Hla_few : few_tokens 5 la.
Hypothesis Hlb_few : few_tokens 4 lb.
Hypothesis Hals_o : Forall other_line als.
Hypothesis Hbls_o : Forall other_line bls.
Variables (out : list m2block) (p : pend).
Hypothesis Hp : pok p.

(* the reader at the start of the block, after the MOLECULE record, after the header, after the ATOM section *)
Let out' := pout out p.
Let S0 := MRun MMain (pvars out p).
Let SH := MRun (MHdr []) (mk_m2vars (phdr p) (Some []) (Some []) false out').
Let SB := MRun MMain (V (Some h) (Some []) (Some []) out').
Let SA := MRun MMain (V (Some h) (Some (rev atoms)) (Some []) out').
Let body := la :: als ++ lb :: bls.

Lemma run_lm rest : m2run true S0 (lm :: rest) = m2run true SH rest.
Proof. unfold S0, SH, out'. rewrite m2run_cons, step_molecule by assumption. reflexivity. Qed.
Lemma run_to_body rest : m2run true S0 ([lm; name; counts; mtype; ctype; status] ++ rest) = m2run true SB rest.
Proof. simpl app. rewrite run_lm. exact (run_hdr_lines _ _ _ _ _ _ _ h rest Hh Hst). Qed.
Lemma run_to_bonds rest :
  m2run true S0 ((lm :: name :: counts :: mtype :: ctype :: status :: la :: als) ++ rest) = m2run true SA rest.
Proof. exact (eq_trans (run_to_body ((la :: als) ++ rest)) (run_atoms_sec h atoms out' la als Hna Hla HFa _ rest)). Qed.

Lemma hdr_bad n c x t y rest : counts_bad (strip c) -> m2fails S0 (lm :: n :: c :: x :: t :: y :: rest).
Proof.
  intros Hbad. unfold m2fails. rewrite run_lm. unfold SH. do 4 apply m2fails_step. rewrite !step_hdr_push by (simpl; lia).
  apply m2fails_step. destruct (step_hdr_bad_counts (mk_m2vars (phdr p) (Some []) (Some []) false out') n c x t y Hbad) as [e E].
  rewrite E. apply m2fails_fail.
Qed.

Lemma hsim_natoms h' : hsim h' h -> mh_natoms h' = Z.of_nat (List.length atoms).
Proof. intros [H1 _]. now rewrite H1. Qed.
Lemma hsim_nbonds h' : hsim h' h -> mh_nbonds h' = Some (Z.of_nat (List.length bonds)).
Proof. intros [_ H2]. now rewrite H2. Qed.

(* four header lines (one of mol_type / charge type / status missing): the ATOM record is the fifth and is put back *)
Lemma del_hdr_case post x t : (exists h', m2header (strip name) (strip counts) (strip t) = Ok h' /\ hsim h' h) ->
  outcome out' h atoms bonds S0 (lm :: name :: counts :: x :: t :: body) post.
Proof.
  intros (h' & Hh' & Hs). apply (oc_same h' Hs). rewrite run_lm. unfold SH, body.
  do 5 rewrite m2run_cons. rewrite !step_hdr_push by (simpl; lia).
  rewrite (step_hdr_putback _ _ _ _ _ _ _ _ la h' _ Hh' Hla), <- m2run_cons, <- (app_nil_r (la :: _)).
  exact (run_body h' atoms bonds out' la lb als bls (hsim_natoms h' Hs) (hsim_nbonds h' Hs) Hla HFa Hlb HFb []).
Qed.
(* six header lines: the fifth is taken for the status line, the sixth is read in the main loop *)
Lemma dup_hdr_case post x t s extra : (exists h', m2header (strip name) (strip counts) (strip t) = Ok h' /\ hsim h' h) ->
  plain_status s -> plain_status extra ->
  outcome out' h atoms bonds S0 (lm :: name :: counts :: x :: t :: s :: extra :: body) post.
Proof.
  intros (h' & Hh' & Hs) Hps Hpe.
  assert (R : forall rest, m2run true S0 (lm :: name :: counts :: x :: t :: s :: rest)
                           = m2run true (MRun MMain (V (Some h') (Some []) (Some []) out')) rest).
  { intros rest. rewrite run_lm. exact (run_hdr_lines _ _ _ _ _ _ _ h' rest Hh' Hps). }
  destruct (line_class extra (proj1 Hpe)) as [Hi|Ho].
  - apply (oc_same h' Hs). rewrite R, m2run_cons, step_ign by exact Hi. rewrite <- (app_nil_r body).
    exact (run_body h' atoms bonds out' la lb als bls (hsim_natoms h' Hs) (hsim_nbonds h' Hs) Hla HFa Hlb HFb []).
  - apply oc_fail. unfold m2fails. simpl app. rewrite R. now apply fails_other.
Qed.

Lemma deleted_inner post k : wtail post -> (k < 7 + List.length als + 1 + List.length bls)%nat ->
  outcome out' h atoms bonds S0 (del_nth k (lm :: name :: counts :: mtype :: ctype :: status :: body)) post.
Proof.
  intros Ht Hk. pose proof (Forall2_length HFa) as Hlena. pose proof (Forall2_length HFb) as Hlenb.
  unfold body. destruct k as [|[|[|[|[|[|[|j]]]]]]]; cbn [del_nth].
  - (* MOLECULE record gone: the name line is read in main mode *)
    apply oc_fail. unfold S0. destruct (pvars_V out p) as (oh & oa & ob & ->). simpl app.
    destruct (line_class name Hname_t) as [Hi|Ho]; [|now apply fails_other].
    apply m2fails_step. rewrite step_ign by exact Hi. now apply fails_other.
  - (* name gone: mol_type is read as the counts *) apply oc_fail. now apply hdr_bad.
  - apply oc_fail. now apply hdr_bad.
  - (* mol_type gone: the status line becomes the charge type *) apply del_hdr_case, (m2header_sim _ _ _ _ _ _ Hh).
  - apply del_hdr_case, (m2header_sim _ _ _ _ _ _ Hh).
  - apply del_hdr_case, (m2header_sim _ _ _ _ _ _ Hh).
  - (* ATOM record gone *)
    apply (outcome_after S0 SB [lm; name; counts; mtype; ctype; status]); [exact run_to_body|].
    destruct (list_case als) as [Eals|(a1 & als' & Eals)]; rewrite Eals.
    + assert (Ea : atoms = []) by (rewrite Eals in HFa; inversion HFa; reflexivity).
      apply (oc_same h (hsim_refl h)). rewrite Ea, <- (app_nil_r bls).
      exact (run_bonds_sec h bonds out' lb bls Hnb Hlb HFb _ []).
    + apply oc_fail. simpl app. apply fails_other. rewrite Eals in Hals_o. now inversion Hals_o.
  - destruct (lt_dec j (List.length als)) as [Hja|Hja].
    + (* an atom line gone: the BOND record is read as an atom *)
      rewrite del_nth_app_l by exact Hja.
      apply (outcome_after S0 SB [lm; name; counts; mtype; ctype; status]); [exact run_to_body|].
      apply oc_fail. simpl app. apply m2fails_step. unfold SB. rewrite (step_atom_sec h _ _ la Hla).
      destruct (Z.leb_spec (mh_natoms h) 0); [lia|]. rewrite <- app_assoc. apply m2fails_app.
      pose proof (del_nth_length als j Hja). rewrite (atoms_short _ _ _ _ _ (Forall2_del_nth _ j _ _ HFa)) by lia.
      now apply fails_atom_few, few45.
    + replace j with (List.length als + (j - List.length als))%nat by lia. rewrite del_nth_app_r.
      apply (outcome_after S0 SA (lm :: name :: counts :: mtype :: ctype :: status :: la :: als)); [exact run_to_bonds|].
      destruct (j - List.length als)%nat as [|j2] eqn:Ej; cbn [del_nth].
      * (* BOND record gone *)
        destruct (list_case bls) as [Ebls|(b1 & bls' & Ebls)]; rewrite Ebls.
        -- assert (Eb : bonds = []) by (rewrite Ebls in HFb; inversion HFb; reflexivity).
           apply (oc_same h (hsim_refl h)). now rewrite Eb.
        -- apply oc_fail. simpl app. apply fails_other. rewrite Ebls in Hbls_o. now inversion Hbls_o.
      * (* a bond line gone: the next line of the text is read as a bond record *)
        pose proof (del_nth_length bls j2 ltac:(lia)) as Hdl.
        assert (Hrun : m2run true SA (lb :: del_nth j2 bls)
                       = MRun (MBonds 1) (V (Some h) (Some (rev atoms)) (Some (rev (del_nth j2 bonds))) out')).
        { unfold SA. rewrite m2run_cons, (step_bond_sec h _ _ lb _ Hlb Hnb).
          destruct (Z.leb_spec (Z.of_nat (List.length bonds)) 0); [lia|].
          rewrite (bonds_short _ _ _ _ _ (Forall2_del_nth _ j2 _ _ HFb)) by lia. rewrite app_nil_r. do 2 f_equal. lia. }
        assert (Hfew : forall x post', few_tokens 4 x -> outcome out' h atoms bonds SA (lb :: del_nth j2 bls) (x :: post')).
        { intros x post' Hx. apply oc_fail, m2fails_app. rewrite Hrun. now apply fails_bond_few. }
        destruct Ht as [|x post' Hxi [Hxf|Hbad]|x post' Hxf]; auto.
        -- apply oc_fail. rewrite app_nil_r. exists EEof. now rewrite Hrun.
        -- destruct (lt_dec (List.length (split (strip x))) 4) as [Hxf|Hnf]; [now apply Hfew|].
           apply (oc_bogus x post' (del_nth j2 bonds ++ [mk_m2bond (split (strip x))]) (mk_m2bond (split (strip x)))); auto.
           ++ rewrite app_length. simpl. pose proof (del_nth_length bonds j2 ltac:(lia)). lia.
           ++ apply in_or_app. right. now left.
           ++ rewrite <- m2run_app, Hrun, m2run_cons, (step_bond _ _ _ _ _ x (mk_m2bond (split (strip x)))) by (split; [reflexivity|lia]).
              simpl. now rewrite rev_app_distr.
Qed.

Lemma duplicated_inner post k : (k < 7 + List.length als + 1 + List.length bls)%nat ->
  outcome out' h atoms bonds S0 (dup_nth k (lm :: name :: counts :: mtype :: ctype :: status :: body)) post.
Proof.
  intros Hk. pose proof (Forall2_length HFa) as Hlena. pose proof (Forall2_length HFb) as Hlenb.
  pose proof (m2header_sim _ _ _ _ (strip name) (strip mtype) Hh) as Hm.
  pose proof (m2header_sim _ _ _ _ (strip name) (strip ctype) Hh) as Hc.
  unfold body. destruct k as [|[|[|[|[|[|[|j]]]]]]]; cbn [dup_nth].
  - (* the MOLECULE record, the name: the name line is read as the counts *) apply oc_fail. now apply hdr_bad.
  - apply oc_fail. now apply hdr_bad.
  - (* a header line from the counts on: one line more before the ATOM record *) now apply dup_hdr_case.
  - now apply dup_hdr_case.
  - now apply dup_hdr_case.
  - now apply dup_hdr_case.
  - (* ATOM record twice: the second is read as an atom record, unless no atom is owed *)
    apply (outcome_after S0 SB [lm; name; counts; mtype; ctype; status]); [exact run_to_body|].
    unfold SB. destruct (Z.leb_spec (mh_natoms h) 0) as [Hle|Hgt].
    + apply (oc_same h (hsim_refl h)). rewrite m2run_cons, (step_atom_sec h _ _ la Hla).
      destruct (Z.leb_spec (mh_natoms h) 0); [|lia]. rewrite <- (app_nil_r (la :: _)).
      exact (run_body h atoms bonds out' la lb als bls Hna Hnb Hla HFa Hlb HFb []).
    + apply oc_fail. simpl app. apply m2fails_step. rewrite (step_atom_sec h _ _ la Hla). destruct (Z.leb_spec (mh_natoms h) 0); [lia|].
      now apply fails_atom_few.
  - destruct (lt_dec j (List.length als)) as [Hja|Hja].
    + (* an atom line twice *)
      rewrite dup_nth_app_l by exact Hja.
      apply (outcome_after S0 SB [lm; name; counts; mtype; ctype; status]); [exact run_to_body|].
      apply oc_fail. simpl app. rewrite <- app_assoc.
      apply (too_many_atoms h _ _ la _ (dup_nth j atoms) (List.length atoms)); auto using Forall2_dup_nth, dup_nth_Forall.
      rewrite dup_nth_length by exact Hja. lia.
    + replace j with (List.length als + (j - List.length als))%nat by lia. rewrite dup_nth_app_r.
      apply (outcome_after S0 SA (lm :: name :: counts :: mtype :: ctype :: status :: la :: als)); [exact run_to_bonds|].
      unfold SA. destruct (j - List.length als)%nat as [|j2] eqn:Ej; cbn [dup_nth].
      * (* BOND record twice *)
        destruct (Z.leb_spec (Z.of_nat (List.length bonds)) 0) as [Hle|Hgt].
        -- apply (oc_same h (hsim_refl h)). rewrite m2run_cons, (step_bond_sec h _ _ lb _ Hlb Hnb).
           destruct (Z.leb_spec (Z.of_nat (List.length bonds)) 0); [|lia]. rewrite <- (app_nil_r bls).
           exact (run_bonds_sec h bonds out' lb bls Hnb Hlb HFb _ []).
        -- apply oc_fail. simpl app. apply m2fails_step. rewrite (step_bond_sec h _ _ lb _ Hlb Hnb).
           destruct (Z.leb_spec (Z.of_nat (List.length bonds)) 0); [lia|]. now apply fails_bond_few.
      * (* a bond line twice *)
        apply oc_fail. simpl app.
        apply (too_many_bonds h _ _ lb _ (dup_nth j2 bonds) (List.length bonds)); auto using Forall2_dup_nth, dup_nth_Forall.
        rewrite dup_nth_length by lia. lia.
Qed.
Let block := ign ++ lm :: name :: counts :: mtype :: ctype :: status :: body.
Lemma block_lines_wf ign' : Forall ignorable ign' ->
  m2run true S0 (ign' ++ lm :: name :: counts :: mtype :: ctype :: status :: body) = MRun MMain (pvars out' (Some (h, atoms, bonds))).
Proof.
  intros Hign'. refine (proj1 (run_block (mk_m2block h atoms bonds) _ out p _ Hp)). unfold body. now constructor.
Qed.
Lemma after_ign X post : outcome out' h atoms bonds S0 X post -> outcome out' h atoms bonds S0 (ign ++ X) post.
Proof. apply outcome_after. intros rest. unfold S0. now rewrite <- m2run_app, run_ign. Qed.
Lemma inner_index i : (i < List.length block)%nat -> ~ (i < List.length ign)%nat ->
  i = (List.length ign + (i - List.length ign))%nat /\ (i - List.length ign < 7 + List.length als + 1 + List.length bls)%nat.
Proof. unfold block, body. rewrite app_length. simpl. rewrite app_length. simpl. lia. Qed.

Lemma block_deleted_in post i : wtail post -> (i < List.length block)%nat -> outcome out' h atoms bonds S0 (del_nth i block) post.
Proof.
  intros Ht Hi. unfold block. destruct (lt_dec i (List.length ign)) as [Hlt|Hge].
  - rewrite del_nth_app_l by exact Hlt. apply (oc_same h (hsim_refl h)), block_lines_wf, del_nth_Forall, Hign.
  - destruct (inner_index i Hi Hge) as [E Hk]. rewrite E, del_nth_app_r. now apply after_ign, deleted_inner.
Qed.
Lemma block_duplicated_in post i : (i < List.length block)%nat -> outcome out' h atoms bonds S0 (dup_nth i block) post.
Proof.
  intros Hi. unfold block. destruct (lt_dec i (List.length ign)) as [Hlt|Hge].
  - rewrite dup_nth_app_l by exact Hlt. apply (oc_same h (hsim_refl h)), block_lines_wf, dup_nth_Forall, Hign.
  - destruct (inner_index i Hi Hge) as [E Hk]. rewrite E, dup_nth_app_r. now apply after_ign, duplicated_inner.
Qed.
End BlockDamage.

Inductive m2wfs_text : list m2block -> list str -> Prop :=
| m2ws_nil : m2wfs_text [] []
| m2ws_cons b bs l ls : m2wfs b l -> m2wfs_text bs ls -> m2wfs_text (b :: bs) (l ++ ls).
Lemma m2wfs_text_wf bs ls : m2wfs_text bs ls -> m2wf_text bs ls.
Proof. induction 1; constructor; auto using m2wfs_wf. Qed.

Lemma m2wfs_text_tail bs ls : m2wfs_text bs ls -> wtail ls.
Proof.
  intros H. destruct H as [|b bs l ls Hb Ht]; [constructor|].
  destruct Hb as [ign lm name counts mtype ctype status la als lb bls h atoms bonds Hign ? ? ? ? ? ? ? ? ? Hnb Hfew].
  destruct ign as [|x ign]; simpl.
  - now apply wt_lm.
  - inversion Hign; subst. inversion Hnb; subst. now apply wt_ign.
Qed.

Lemma is_sec_not_ignorable l s : is_sec l s -> ~ ignorable l.
Proof. intros (nm & r & E & _) [H|[r' H]]; rewrite E in H; discriminate. Qed.

Lemma m2wf_text_drop_ign bs x post : m2wf_text bs (x :: post) -> ignorable x -> m2wf_text bs post.
Proof.
  intros H Hx. remember (x :: post) as ls0 eqn:E0. destruct H as [|b bs' l ls Hb Ht]; [discriminate|].
  destruct Hb as [ign lm name counts mtype ctype status la als lb bls h atoms bonds Hign Hlm].
  destruct ign as [|y ign].
  - simpl in E0. injection E0 as Ex Epost. subst lm. exfalso. exact (is_sec_not_ignorable _ _ Hlm Hx).
  - simpl in E0. injection E0 as Ex Epost. subst y post. inversion Hign; subst. constructor; [|exact Ht]. now constructor.
Qed.

Lemma m2wfs_text_locate bs ls i : m2wfs_text bs ls -> (i < List.length ls)%nat ->
  exists bs1 b bs2 pre l post i', ls = pre ++ l ++ post /\ bs = bs1 ++ b :: bs2 /\
    m2wfs_text bs1 pre /\ m2wfs b l /\ m2wfs_text bs2 post /\ i = (List.length pre + i')%nat /\ (i' < List.length l)%nat.
Proof.
  intros H. revert i. induction H as [|b bs l ls Hb Ht IH]; intros i Hi; [simpl in Hi; lia|].
  rewrite app_length in Hi. destruct (lt_dec i (List.length l)) as [Hlt|Hge].
  - exists [], b, bs, [], l, ls, i. repeat split; auto. constructor.
  - destruct (IH (i - List.length l)%nat) as (bs1 & b' & bs2 & pre & l' & post & i' & E1 & E2 & H1 & H2 & H3 & E3 & H4); [lia|].
    exists (b :: bs1), b', bs2, (l ++ pre), l', post, i'. repeat split; auto.
    + rewrite E1. now rewrite app_assoc.
    + rewrite E2. reflexivity.
    + now constructor.
    + rewrite app_length. lia.
Qed.

Lemma pre_state bs1 pre : m2wf_text bs1 pre -> exists out p, pok p /\
  m2run true m2init pre = MRun MMain (pvars out p) /\ pout out p = rev bs1.
Proof.
  intros H. destruct (run_text bs1 pre H [] None I) as (out & p & Hp & R & Ho & _). exists out, p.
  now rewrite Ho, app_nil_r.
Qed.

Lemma finish_text bs2 post out h atoms bonds : m2wf_text bs2 post ->
  Z.of_nat (List.length atoms) = mh_natoms h -> Z.of_nat (List.length bonds) = nb_of h ->
  m2finish true (m2run true (MRun MMain (pvars out (Some (h, atoms, bonds)))) post)
  = Ok (rev (mk_m2block h atoms bonds :: out) ++ bs2).
Proof.
  intros H H1 H2. destruct (run_text bs2 post H out (Some (h, atoms, bonds)) (conj H1 H2)) as (out2 & p2 & Hp & R & Ho & Hn).
  rewrite R, finish_pend, Ho; auto.
  - cbn [pout]. now rewrite rev_app_distr, rev_involutive.
  - intros ->. now destruct (Hn eq_refl).
Qed.

(* the same three outcomes for the blocks read_mol2 returns: an exception, the blocks up to hsim, or some block with a refused bond *)
Definition bsim (b' b : m2block) : Prop := hsim (mk_hdr b') (mk_hdr b) /\ mk_atoms b' = mk_atoms b /\ mk_bonds b' = mk_bonds b.
Definition bogus_block (b : m2block) : Prop := exists bd, In bd (mk_bonds b) /\ bad_bond bd.
Lemma bsim_refl b : bsim b b.
Proof. repeat split. Qed.

Definition damaged_result (r : res (list m2block)) (bs : list m2block) : Prop :=
  (exists e, r = Err e) \/ (exists bs', r = Ok bs' /\ Forall2 bsim bs' bs) \/ (exists bs', r = Ok bs' /\ Exists bogus_block bs').

Lemma outcome_result bs1 pre b l bs2 post dl out p :
  pok p -> m2run true m2init pre = MRun MMain (pvars out p) -> pout out p = rev bs1 ->
  m2wfs b l -> m2wf_text bs2 post ->
  outcome (pout out p) (mk_hdr b) (mk_atoms b) (mk_bonds b) (MRun MMain (pvars out p)) dl post ->
  damaged_result (read_mol2 true (pre ++ dl ++ post)) (bs1 ++ b :: bs2).
Proof.
  intros Hp Rpre Eout Hb Hpost O. unfold read_mol2. rewrite <- m2run_app, Rpre.
  assert (Hc : Z.of_nat (List.length (mk_atoms b)) = mh_natoms (mk_hdr b) /\ Z.of_nat (List.length (mk_bonds b)) = nb_of (mk_hdr b)).
  { destruct (run_block b l out p (m2wfs_wf _ _ Hb) Hp) as [_ Hc]. exact Hc. }
  destruct Hc as [Hc1 Hc2].
  destruct O as [F|h' Hs E|x post' bonds' bd E1 E2 E3 E4 E5 E6].
  - left. exact F.
  - right. left. rewrite <- m2run_app, E. destruct Hs as [Hs1 Hs2].
    assert (X1 : Z.of_nat (List.length (mk_atoms b)) = mh_natoms h') by (now rewrite Hs1).
    assert (X2 : Z.of_nat (List.length (mk_bonds b)) = nb_of h') by (unfold nb_of in *; now rewrite Hs2).
    rewrite (finish_text bs2 post _ _ _ _ Hpost X1 X2).
    eexists. split; [reflexivity|]. rewrite Eout. simpl. rewrite rev_involutive, <- app_assoc. simpl.
    apply Forall2_app; [apply Forall2_diag, bsim_refl|]. constructor; [|apply Forall2_diag, bsim_refl].
    destruct b. repeat split; assumption.
  - right. right. subst post. replace (dl ++ x :: post') with ((dl ++ [x]) ++ post') by (now rewrite <- app_assoc).
    rewrite <- m2run_app, E6.
    assert (X0 : m2wf_text bs2 post') by (eapply m2wf_text_drop_ign; eauto).
    assert (X2 : Z.of_nat (List.length bonds') = nb_of (mk_hdr b)) by (now rewrite E3).
    rewrite (finish_text bs2 post' _ _ _ _ X0 Hc1 X2).
    eexists. split; [reflexivity|]. rewrite Eout. simpl. rewrite rev_involutive, <- app_assoc. simpl.
    apply Exists_app. right. apply Exists_cons_hd. exists bd. split; assumption.
Qed.

Lemma block_deleted b l out p post i : m2wfs b l -> pok p -> wtail post -> (i < List.length l)%nat ->
  outcome (pout out p) (mk_hdr b) (mk_atoms b) (mk_bonds b) (MRun MMain (pvars out p)) (del_nth i l) post.
Proof. intros [] Hp Ht Hi. now apply block_deleted_in. Qed.
Lemma block_duplicated b l out p post i : m2wfs b l -> pok p -> wtail post -> (i < List.length l)%nat ->
  outcome (pout out p) (mk_hdr b) (mk_atoms b) (mk_bonds b) (MRun MMain (pvars out p)) (dup_nth i l) post.
Proof. intros [] Hp _ Hi. now apply block_duplicated_in. Qed.

(* a one-line edit that commutes with concatenation and whose effect on every block is an `outcome` *)
Lemma read_mol2_edited (ed : nat -> list str -> list str) :
  (forall a b i, (i < List.length a)%nat -> ed i (a ++ b) = ed i a ++ b) ->
  (forall a b i, ed (List.length a + i)%nat (a ++ b) = a ++ ed i b) ->
  (forall b l out p post i, m2wfs b l -> pok p -> wtail post -> (i < List.length l)%nat ->
     outcome (pout out p) (mk_hdr b) (mk_atoms b) (mk_bonds b) (MRun MMain (pvars out p)) (ed i l) post) ->
  forall bs ls i, m2wfs_text bs ls -> (i < List.length ls)%nat -> damaged_result (read_mol2 true (ed i ls)) bs.
Proof.
  intros Hl Hr Hblock bs ls i H Hi.
  destruct (m2wfs_text_locate bs ls i H Hi) as (bs1 & b & bs2 & pre & l & post & i' & -> & -> & H1 & H2 & H3 & -> & H4).
  rewrite Hr, Hl by exact H4. destruct (pre_state bs1 pre (m2wfs_text_wf _ _ H1)) as (out & p & Hp & R & Eo).
  eapply outcome_result; eauto using m2wfs_text_wf, m2wfs_text_tail.
Qed.
Theorem read_mol2_deleted bs ls i : m2wfs_text bs ls -> (i < List.length ls)%nat ->
  damaged_result (read_mol2 true (del_nth i ls)) bs.
Proof. exact (read_mol2_edited del_nth (@del_nth_app_l _) (@del_nth_app_r _) block_deleted bs ls i). Qed.
Theorem read_mol2_duplicated bs ls i : m2wfs_text bs ls -> (i < List.length ls)%nat ->
  damaged_result (read_mol2 true (dup_nth i ls)) bs.
Proof. exact (read_mol2_edited dup_nth (@dup_nth_app_l _) (@dup_nth_app_r _) block_duplicated bs ls i). Qed.

(* related inputs to two conversions that agree where the first one succeeds *)
Lemma all_ok_sim {A A' B} (f : A -> res B) (f' : A' -> res B) (R : A' -> A -> Prop) :
  (forall x' x m, R x' x -> f x = Ok m -> (exists e, f' x' = Err e) \/ f' x' = Ok m) ->
  forall l' l, Forall2 R l' l -> forall ms, all_ok (map f l) = Ok ms ->
  (exists e, all_ok (map f' l') = Err e) \/ all_ok (map f' l') = Ok ms.
Proof.
  intros HR l' l HF. induction HF as [|x' x l' l Hx HF IH]; intros ms H; [now right|]. simpl in *.
  destruct (f x) as [m|] eqn:Ex; [|discriminate]. destruct (all_ok (map f l)) as [ms'|] eqn:El; [|discriminate]. injection H as <-.
  destruct (HR x' x m Hx Ex) as [[e E]|E]; rewrite E; [left; now exists e|].
  destruct (IH ms' eq_refl) as [[e E2]|E2]; rewrite E2; [left; now exists e|now right].
Qed.

(* whether the charge column is needed changes whether an atom record converts, not what it converts to *)
Lemma atom_conv_nc atype nc nc' a x : m2_atom_conv atype nc a = Ok x ->
  (exists e, m2_atom_conv atype nc' a = Err e) \/ m2_atom_conv atype nc' a = Ok x.
Proof.
  unfold m2_atom_conv. destruct (nth_tok 2 (ma_toks a)); [|discriminate]. destruct (nth_tok 3 (ma_toks a)); [|discriminate].
  destruct (nth_tok 4 (ma_toks a)); [|discriminate].
  destruct (parse_float s); [|discriminate]. destruct (parse_float s0); [|discriminate]. destruct (parse_float s1); [|discriminate].
  destruct (nth_tok 5 (ma_toks a)); [|discriminate]. destruct (atype s2); [|discriminate].
  destruct (match ma_attr_charge a with Some c => parse_int c | None => Some 0%Z end); [|discriminate].
  destruct nc, nc'; intros H; auto.
  - destruct (nth_tok 8 (ma_toks a)); [|discriminate]. destruct (parse_float s3); [|discriminate]. now right.
  - destruct (nth_tok 8 (ma_toks a)); [|left; eexists; reflexivity]. destruct (parse_float s3); [now right|left; eexists; reflexivity].
Qed.

Lemma build_sim atype btype b' b m : bsim b' b -> mol2_build atype btype b = Ok m ->
  (exists e, mol2_build atype btype b' = Err e) \/ mol2_build atype btype b' = Ok m.
Proof.
  destruct b' as [h' a' bd'], b as [h a bd]. intros [[Hn Hb] [Ea Eb]]. simpl in *. subst a' bd'.
  unfold mol2_build, res_bind. cbn [mk_hdr mk_atoms mk_bonds]. rewrite Hn.
  destruct (mh_natoms h <? 0)%Z; [discriminate|]. destruct (mh_natoms h <? Z.of_nat (List.length a))%Z; [discriminate|].
  set (nc := negb (str_eqb (mh_chrg h) no_charges)). set (nc' := negb (str_eqb (mh_chrg h') no_charges)).
  destruct (all_ok (map (m2_atom_conv atype nc) a)) as [ats|] eqn:E1; [|discriminate].
  assert (Hnc : forall x' x y, x' = x -> m2_atom_conv atype nc x = Ok y ->
                (exists e, m2_atom_conv atype nc' x' = Err e) \/ m2_atom_conv atype nc' x' = Ok y)
    by (intros x' x y ->; apply atom_conv_nc).
  destruct (all_ok_sim _ _ eq Hnc a a (Forall2_diag _ (@eq_refl _) a) ats E1) as [[e E1']|E1']; rewrite E1';
    [left; now exists e|].
  destruct (all_ok (map (m2_bond_conv btype (Z.to_nat (mh_natoms h))) bd)) as [bds|] eqn:E2; [|discriminate].
  destruct (nc && negb (len_is a (mh_natoms h))); [discriminate|]. intros H. injection H as <-.
  destruct (nc' && negb (len_is a (mh_natoms h))); [left; eexists; reflexivity|]. right.
  unfold nb_of. now rewrite Hb.
Qed.

Lemma all_ok_err_in {A B} (f : A -> res B) l : Exists (fun x => exists e, f x = Err e) l -> exists e, all_ok (map f l) = Err e.
Proof.
  induction 1 as [x l [e E]|x l H [e IH]]; simpl.
  - rewrite E. now exists e.
  - destruct (f x); [|eexists; reflexivity]. rewrite IH. now exists e.
Qed.
Lemma build_bogus atype btype b : bogus_block b -> exists e, mol2_build atype btype b = Err e.
Proof.
  intros (bd & Hin & Hbad). unfold mol2_build, res_bind.
  destruct (mh_natoms (mk_hdr b) <? 0)%Z; [eexists; reflexivity|].
  destruct (mh_natoms (mk_hdr b) <? Z.of_nat (List.length (mk_atoms b)))%Z; [eexists; reflexivity|].
  destruct (all_ok (map _ (mk_atoms b))); [|eexists; reflexivity].
  destruct (all_ok_err_in (m2_bond_conv btype (Z.to_nat (mh_natoms (mk_hdr b)))) (mk_bonds b)) as [e E].
  - apply Exists_exists. exists bd. split; [exact Hin|apply Hbad].
  - rewrite E. now exists e.
Qed.

Lemma damaged_load atype btype bs ls ls' ms : m2wfs_text bs ls -> (0 < List.length ls)%nat ->
  load_mol2_lines true atype btype ls = Ok ms -> damaged_result (read_mol2 true ls') bs ->
  (exists e, load_mol2_lines true atype btype ls' = Err e) \/ load_mol2_lines true atype btype ls' = Ok ms.
Proof.
  intros H Hne Hfull D. unfold load_mol2_lines in *.
  rewrite (read_mol2_wf _ ls (m2wfs_text_wf _ _ H)) in Hfull by (intros ->; inversion H; subst; simpl in Hne; lia).
  destruct D as [[e ->]|[(bs' & -> & HF)|(bs' & -> & HE)]]; simpl in *.
  - left. now exists e.
  - eapply all_ok_sim; eauto. intros x' x m. apply build_sim.
  - left. apply all_ok_err_in. eapply Exists_impl; [|exact HE]. intros b Hb. now apply build_bogus.
Qed.

