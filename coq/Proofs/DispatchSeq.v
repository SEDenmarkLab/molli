(* C09, histories of calls (Model/DispatchSeq.v): association lists and `write_at`; what one call returns
   (`call_result`: no state between calls) and what it can do to the world (`step_call`); how `final` and `run`
   compose and what every history keeps for the caller's streams; soundness of the boolean equalities behind
   `check_seq`.  Props/C09.v assembles the C09_seq_* theorems. *)
From Coq Require Import List Bool Arith.
Import ListNotations.
From Molli Require Import Model.Dispatch Model.DispatchSeq Proofs.Dispatch.

Section Assoc.
  Context {K V : Type} (eqb : K -> K -> bool).
  Hypothesis eqb_spec : forall a b, eqb a b = true <-> a = b.

  Lemma eqb_refl_ k : eqb k k = true.
  Proof. apply eqb_spec; reflexivity. Qed.

  Lemma eqb_neq a b : a <> b -> eqb a b = false.
  Proof. intros H. apply not_true_is_false. rewrite eqb_spec. exact H. Qed.

  Lemma assoc_get_set_same (d : V) l k v : assoc_get eqb d (assoc_set eqb l k v) k = v.
  Proof.
    induction l as [|[k' v'] r IH]; simpl.
    - rewrite eqb_refl_. reflexivity.
    - destruct (eqb k' k) eqn:E; simpl; rewrite E; [reflexivity | exact IH].
  Qed.

  Lemma assoc_get_set_other (d : V) l k v k2 : k <> k2 ->
    assoc_get eqb d (assoc_set eqb l k v) k2 = assoc_get eqb d l k2.
  Proof.
    intros Hne. induction l as [|[k' v'] r IH]; simpl.
    - rewrite (eqb_neq _ _ Hne). reflexivity.
    - destruct (eqb k' k) eqn:E; simpl.
      + apply eqb_spec in E; subst k'. rewrite (eqb_neq _ _ Hne). reflexivity.
      + destruct (eqb k' k2); [reflexivity | exact IH].
  Qed.

  Lemma assoc_set_forallb (P : V -> bool) l k v :
    forallb (fun p => P (snd p)) l = true -> P v = true ->
    forallb (fun p => P (snd p)) (assoc_set eqb l k v) = true.
  Proof.
    intros Hl Hv. induction l as [|[k' v'] r IH]; simpl in *.
    - rewrite Hv. reflexivity.
    - apply andb_prop in Hl as [H1 H2].
      destruct (eqb k' k); simpl; [rewrite Hv, H2; reflexivity | rewrite H1, (IH H2); reflexivity].
  Qed.
End Assoc.

Lemma extk_eqb_spec a b : extk_eqb a b = true <-> a = b.
Proof.
  destruct a as [f|], b as [g|]; simpl; split; intros H; try discriminate; try reflexivity.
  - f_equal; apply internal_fmtc_dec_bl; exact H.
  - apply internal_fmtc_dec_lb; congruence.
Qed.

Lemma fkey_eqb_spec a b : fkey_eqb a b = true <-> a = b.
Proof.
  destruct a as [[n e] d], b as [[n' e'] d']; unfold fkey_eqb; simpl.
  rewrite !andb_true_iff, Nat.eqb_eq, extk_eqb_spec, Bool.eqb_true_iff.
  split; [intros [[-> ->] ->]; reflexivity | intros [= -> -> ->]; auto].
Qed.

Lemma get_set_file_same w k t : get_file (set_file w k t) k = t.
Proof. apply assoc_get_set_same, fkey_eqb_spec. Qed.

Lemma get_set_file_other w k t k2 : k <> k2 -> get_file (set_file w k t) k2 = get_file w k2.
Proof. apply assoc_get_set_other, fkey_eqb_spec. Qed.

Lemma get_set_stream_same w s t : get_stream (set_stream w s t) s = t.
Proof. apply assoc_get_set_same, Nat.eqb_eq. Qed.

Lemma get_set_stream_other w s t s2 : s <> s2 -> get_stream (set_stream w s t) s2 = get_stream w s2.
Proof. apply assoc_get_set_other, Nat.eqb_eq. Qed.

Lemma get_set_sstate_same w s q : get_sstate (set_sstate w s q) s = q.
Proof. apply assoc_get_set_same, Nat.eqb_eq. Qed.

Lemma get_set_sstate_other w s q s2 : s <> s2 -> get_sstate (set_sstate w s q) s2 = get_sstate w s2.
Proof. apply assoc_get_set_other, Nat.eqb_eq. Qed.

Lemma get_file_set_stream w s t k : get_file (set_stream w s t) k = get_file w k.
Proof. reflexivity. Qed.

Lemma get_file_set_sstate w s q k : get_file (set_sstate w s q) k = get_file w k.
Proof. reflexivity. Qed.

Lemma get_stream_set_file w k t s : get_stream (set_file w k t) s = get_stream w s.
Proof. reflexivity. Qed.

Lemma get_stream_set_sstate w s q s2 : get_stream (set_sstate w s q) s2 = get_stream w s2.
Proof. reflexivity. Qed.

Lemma get_sstate_set_stream w s t s2 : get_sstate (set_stream w s t) s2 = get_sstate w s2.
Proof. reflexivity. Qed.

Lemma get_sstate_set_file w k t s : get_sstate (set_file w k t) s = get_sstate w s.
Proof. reflexivity. Qed.

Lemma set_sstate_ready w s q : streams_ready w = true -> is_open q = true -> streams_ready (set_sstate w s q) = true.
Proof. apply (assoc_set_forallb Nat.eqb is_open). Qed.

Lemma sub_add_max n m : n - m + m = Nat.max n m.
Proof.
  destruct (Nat.le_ge_cases n m) as [H|H].
  - rewrite (proj2 (Nat.sub_0_le n m) H), Nat.max_r by exact H. reflexivity.
  - rewrite Nat.sub_add, Nat.max_l by exact H. reflexivity.
Qed.

Lemma write_at_end t x : write_at t (length t) x = t ++ x.
Proof.
  unfold write_at. rewrite firstn_all, skipn_all2, app_nil_r by apply Nat.le_add_r. reflexivity.
Qed.

(* The sums are written `length x + p` so that for a single record they are `S p` by computation. *)
Section WriteAt.
  Variables (t x : text) (p : nat).
  Hypothesis Hp : p <= length t.

  Let kept : length (firstn p t) = p := firstn_length_le t Hp.

  Lemma write_at_prefix : firstn p (write_at t p x) = firstn p t.
  Proof.
    unfold write_at. rewrite firstn_app, kept, Nat.sub_diag, firstn_firstn, Nat.min_id. apply app_nil_r.
  Qed.

  Lemma write_at_nth i : i < length x -> nth_error (write_at t p x) (i + p) = nth_error x i.
  Proof.
    intros Hi. unfold write_at. rewrite nth_error_app2; rewrite kept; [|apply Nat.le_add_l].
    rewrite Nat.add_sub. apply nth_error_app1, Hi.
  Qed.

  Lemma write_at_suffix : skipn (length x + p) (write_at t p x) = skipn (length x + p) t.
  Proof.
    unfold write_at. rewrite skipn_app, kept, Nat.add_sub, skipn_app, skipn_all, Nat.sub_diag.
    rewrite skipn_all2 by (rewrite kept; apply Nat.le_add_l). rewrite (Nat.add_comm p). reflexivity.
  Qed.

  Lemma write_at_length : length (write_at t p x) = Nat.max (length t) (length x + p).
  Proof.
    unfold write_at. rewrite !app_length, kept, skipn_length, Nat.add_assoc, (Nat.add_comm p), Nat.add_comm.
    apply sub_add_max.
  Qed.
End WriteAt.

(* NO HIDDEN STATE: whatever happened before, the action of a call is the ONE-SHOT specification of its cell,
   and the text it returns (what the class-level codec consumed or rendered) is a function of the CURRENT
   content of the file it addresses -- so any two worlds, hence any two histories, that agree on that file
   give the same result. *)
Lemma call_result c slot o v md : exists f : text -> option text, forall w,
  snd (step w (OCall c slot o v md)) = (spec c, f (get_file w (fkey_of c slot))).
Proof.
  unfold step. destruct (c_verb c), (spec c) as [|r|m s ok| |]; try (eexists (fun _ => _); intros w; reflexivity).
  (* only load and load_all hand over the content of the file; every other text is the same in every world *)
  1, 2: exists (fun t => Some t); reflexivity.
  - destruct s, ok; exists (fun _ => None); intros w; try reflexivity. destruct (get_sstate w slot); reflexivity.
  - destruct r; eexists (fun _ => _); intros w; reflexivity.
Qed.

Lemma step_action_is_spec w c slot o v md : fst (snd (step w (OCall c slot o v md))) = spec c.
Proof. destruct (call_result c slot o v md) as [f Hf]. rewrite Hf. reflexivity. Qed.

(* What a call can do to the world: leave it alone, write one record at the position of the stream it was
   given, or replace the file it addresses.  Frame and ownership facts are read off these three shapes. *)
Inductive call_effect (w : world) (c : cell) (slot o v : nat) (md : mode) : world -> Prop :=
| CallPure : call_effect w c slot o v md w
| CallStream m p :
    c_verb c = VDump -> spec c = AWrote m SGivenStream true -> get_sstate w slot = SOpenAt p ->
    call_effect w c slot o v md
      (set_sstate (set_stream w slot (write_at (get_stream w slot) p [TW m o v])) slot (SOpenAt (S p)))
| CallPath m :
    c_verb c = VDump -> spec c = AWrote m SOpenedPath true ->
    call_effect w c slot o v md
      (set_file w (fkey_of c slot)
         ((match md with MAppend => get_file w (fkey_of c slot) | MTrunc => [] end) ++ [TW m o v])).

Lemma step_call w c slot o v md : call_effect w c slot o v md (fst (step w (OCall c slot o v md))).
Proof.
  unfold step. destruct (c_verb c) eqn:Hv, (spec c) as [|r|m s ok| |] eqn:Hs; try apply CallPure.
  - destruct s, ok; try apply CallPure.
    + destruct (get_sstate w slot) eqn:Hq; [now apply CallStream | apply CallPure ..].
    + now apply CallPath.
  - destruct r; apply CallPure.
Qed.

Definition is_load (c : cell) : bool := match c_verb c with VLoad | VLoadAll => true | _ => false end.
Definition is_loads (c : cell) : bool := match c_verb c with VLoads | VLoadsAll => true | _ => false end.

(* a reader that succeeds hands the class-level codec the current content of the file *)
Lemma load_sees_current_file c r : is_load c = true -> spec c = ARet r -> forall w slot o v md,
  snd (step w (OCall c slot o v md)) = (ARet r, Some (get_file w (fkey_of c slot))).
Proof. intros Hl Hs *. unfold step, is_load in *. rewrite Hs. destruct (c_verb c); try discriminate; reflexivity. Qed.

(* dump to a path: the file afterwards is (old content if appending) ++ what the class writer of the
   object as it is now wrote *)
Lemma dump_path_effect c m : c_verb c = VDump -> spec c = AWrote m SOpenedPath true -> forall w slot o v md,
  get_file (fst (step w (OCall c slot o v md))) (fkey_of c slot)
  = (match md with MAppend => get_file w (fkey_of c slot) | MTrunc => [] end) ++ [TW m o v].
Proof. intros Hv Hs *. unfold step. rewrite Hv, Hs. apply get_set_file_same. Qed.

(* a REFUSED call (unsupported format / parser / no format: spec = ARaise) leaves the whole world as it was *)
Lemma refused_leaves_world c e : spec c = ARaise e -> forall w slot o v md,
  step w (OCall c slot o v md) = (w, (ARaise e, None)).
Proof. intros H *. unfold step. rewrite H. destruct (c_verb c); reflexivity. Qed.

(* no operation -- successful or refused, reader or writer -- closes a stream of the caller or leaves it
   inside a record: streams that were open on a record boundary are open on a record boundary afterwards *)
Lemma step_stays_ready w x : streams_ready w = true -> streams_ready (fst (step w x)) = true.
Proof.
  intros Hr. destruct x as [c slot o v md | k d | s p].
  - destruct (step_call w c slot o v md); [exact Hr | | exact Hr].
    apply set_sstate_ready; [exact Hr | reflexivity].
  - exact Hr.
  - unfold step; cbn [fst]. destruct (get_sstate w s); try exact Hr.
    apply set_sstate_ready; [exact Hr | reflexivity].
Qed.

(* the only operations that move a stream are a dump INTO it and the caller's own seek; nothing else does,
   and nothing changes its text except a dump into it *)
Definition touches_stream (s : nat) (x : op) : bool :=
  match x with
  | OSeek s' _ => Nat.eqb s' s
  | OCall c slot _ _ _ => match c_verb c, c_tgt c with VDump, TStream => Nat.eqb slot s | _, _ => false end
  | ORewrite _ _ => false
  end.

Lemma stream_dump_needs_stream_target c m :
  c_verb c = VDump -> spec c = AWrote m SGivenStream true -> c_tgt c = TStream.
Proof.
  unfold spec. intros ->. destruct (c_prs c); try discriminate; destruct (c_fmt c); try discriminate;
  destruct (c_tgt c); try reflexivity; destruct (c_fsrc c); discriminate.
Qed.

Lemma step_untouched w x s : touches_stream s x = false ->
  get_stream (fst (step w x)) s = get_stream w s /\ get_sstate (fst (step w x)) s = get_sstate w s.
Proof.
  intros Ht. destruct x as [c slot o v md | k d | s' p]; simpl in Ht.
  - destruct (step_call w c slot o v md) as [ | m p Hv Hs _ | m _ _]; [split; reflexivity | | split; reflexivity].
    rewrite Hv, (stream_dump_needs_stream_target c m Hv Hs) in Ht. apply Nat.eqb_neq in Ht.
    rewrite get_stream_set_sstate, get_set_stream_other, get_set_sstate_other by exact Ht. split; reflexivity.
  - split; reflexivity.
  - apply Nat.eqb_neq in Ht. unfold step; cbn [fst].
    destruct (get_sstate w s'); split; try reflexivity. apply get_set_sstate_other, Ht.
Qed.

Lemma final_app w p q : final w (p ++ q) = final (final w p) q.
Proof. revert w; induction p as [|x p IH]; intros w; simpl; [reflexivity | apply IH]. Qed.

Lemma final_one w x : final w [x] = fst (step w x).
Proof. reflexivity. Qed.

Lemma run_app w p q : run w (p ++ q) = run w p ++ run (final w p) q.
Proof. revert w; induction p as [|x p IH]; intros w; simpl; [reflexivity | rewrite IH; reflexivity]. Qed.

Lemma run_length w p : length (run w p) = length p.
Proof. revert w; induction p as [|x p IH]; intros w; simpl; [reflexivity | rewrite IH; reflexivity]. Qed.

Lemma run_nth w p i x : nth_error p i = Some x ->
  exists ob, nth_error (run w p) i = Some ob /\ ob_res ob = snd (step (final w (firstn i p)) x).
Proof.
  revert w i; induction p as [|y p IH]; intros w i H; [destruct i; discriminate|].
  destruct i as [|i]; simpl in H.
  - inversion H; subst. simpl. eexists; split; reflexivity.
  - simpl. apply IH. exact H.
Qed.

(* in every history the streams of the caller stay usable: open, on a record boundary, after any number of
   calls, refused ones included *)
Lemma streams_stay_ready w p : streams_ready w = true -> streams_ready (final w p) = true.
Proof.
  revert w; induction p as [|x p IH]; intros w H; simpl; [exact H|]. apply IH, step_stays_ready, H.
Qed.

(* a stream that no operation of the history addresses (no dump into it, no seek of it) holds what it held,
   where it was *)
Lemma stream_state_preserved w p s : existsb (touches_stream s) p = false ->
  get_stream (final w p) s = get_stream w s /\ get_sstate (final w p) s = get_sstate w s.
Proof.
  revert w; induction p as [|x p IH]; intros w H; simpl in *; [split; reflexivity|].
  apply orb_false_elim in H as [Hx Hp]. destruct (IH (fst (step w x)) Hp) as [-> ->]. apply step_untouched, Hx.
Qed.

Lemma streams_ready_obs w : forallb is_open (map snd (w_sstate w)) = streams_ready w.
Proof. unfold streams_ready. induction (w_sstate w) as [|q l IH]; simpl; [|rewrite IH]; reflexivity. Qed.

(* every observation of a history reports every stream open on a record boundary, and no handle left open *)
Lemma run_obs_owned w p ob : streams_ready w = true -> In ob (run w p) ->
  forallb is_open (ob_sstate ob) = true /\ ob_left_open ob = 0.
Proof.
  revert w; induction p as [|x p IH]; intros w Hr H; simpl in H; [contradiction|].
  pose proof (step_stays_ready w x Hr) as Hr'. destruct H as [H|H].
  - subst ob; simpl. rewrite streams_ready_obs. split; [exact Hr' | reflexivity].
  - exact (IH _ Hr' H).
Qed.

(* For the soundness of `check_seq`: the boolean equalities of the model imply equality. *)
Lemma tok_eqb_eq a b : tok_eqb a b = true -> a = b.
Proof.
  destruct a as [d|m o v|], b as [d'|m' o' v'|]; simpl; try discriminate; intros H; [| |reflexivity].
  - f_equal. apply Nat.eqb_eq, H.
  - do 2 (apply andb_prop in H as [H ?]). f_equal; [apply meth_eqb_eq | apply Nat.eqb_eq ..]; assumption.
Qed.

Lemma list_eqb_eq {A} (eqb : A -> A -> bool) (Heq : forall a b, eqb a b = true -> a = b) :
  forall x y, list_eqb eqb x y = true -> x = y.
Proof.
  induction x as [|a x IH]; intros [|b y] H; simpl in H; try discriminate; [reflexivity|].
  apply andb_prop in H as [H1 H2]. f_equal; auto.
Qed.

Definition text_eqb_eq : forall s t, text_eqb s t = true -> s = t := list_eqb_eq tok_eqb tok_eqb_eq.

Lemma result_eqb_eq a b : result_eqb a b = true -> a = b.
Proof.
  destruct a as [a s], b as [b t]; unfold result_eqb; simpl; intros H. apply andb_prop in H as [Ha Hs].
  apply action_eqb_eq in Ha. destruct s, t; try discriminate; [apply text_eqb_eq in Hs|]; congruence.
Qed.

Lemma sstate_eqb_eq a b : sstate_eqb a b = true -> a = b.
Proof. destruct a, b; simpl; try discriminate; try reflexivity. intros H. f_equal. apply Nat.eqb_eq, H. Qed.

Lemma obs_eqb_eq a b : obs_eqb a b = true -> a = b.
Proof.
  destruct a, b; unfold obs_eqb; simpl; intros H. do 4 (apply andb_prop in H as [H ?]).
  f_equal; [apply result_eqb_eq | apply (list_eqb_eq _ text_eqb_eq) | apply (list_eqb_eq _ text_eqb_eq)
           | apply (list_eqb_eq _ sstate_eqb_eq) | apply Nat.eqb_eq]; assumption.
Qed.
