(* C05 -- the optional charge of add_atom stored as it arrives (Model/MolEditCall.v, add_atom_charge_as_is):
   lemmas for Props/C05.v; that the spelling of a call does not matter is evaluation of `elab` and is proved there *)
From Coq Require Import List ZArith.
Import ListNotations.
From Molli Require Import Model.MolEdit Model.MolEditCall Proofs.MolEdit.

Definition q_or_0 (q : qarg) : Z := match qval q with Some t => t | None => 0%Z end.

(* storing the argument as is: whenever it stands for "no charge" -- an explicit None, whatever default the
   signature has; an omitted charge, with the default None of the code as first found -- a non-number is left in
   the charge array *)
Lemma charge_as_is_breaks dflt s e l c q s' : has_q s = true -> qval_as_is dflt q = None ->
  add_atom_charge_as_is dflt s e l c q = Ok s' -> ~ Inv s'.
Proof.
  intros Hq Hn H HI. unfold add_atom_charge_as_is, geom_add_atom in H. rewrite Hn in H.
  destruct (cval c) as [t|]; cbn [bind] in H; [|discriminate].
  injection H as H. subst s'. destruct HI as [_ [G _]]. cbn in G. rewrite Hq in G. destruct G as [_ G].
  rewrite Forall_forall in G. destruct (G CNone) as [t' Ht]; [|discriminate].
  apply in_or_app. right. left. reflexivity.
Qed.

(* with the normalisation in place the as-is variant and the model agree on every number *)
Lemma charge_as_is_num dflt s e l c nf kw t :
  add_atom_charge_as_is dflt s e l c (QNum nf kw t) = mol_add_atom s e l (cval c) (qval (QNum nf kw t)).
Proof. reflexivity. Qed.
