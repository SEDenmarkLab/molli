(* C05 -- shared Atom objects: Substructure views and adoption by other containers.

   Two facts about Model/MolEdit.v, for EVERY state and EVERY operation:
     step_parent_blind : no operation decides anything from the parent pointer of an atom
                         (running it on the state with all pointers reset gives the same result, reset);
     step_atoms_frame  : no operation re-points an existing atom (every atom record afterwards is an old
                         record, untouched, or a new atom reporting this molecule).
   From these the alignment invariant  AInv s := Inv (own_all s)  -- everything Inv says except the parent
   pointers of the atoms -- is lifted over every history that interleaves edits of the molecule, bond
   operations through Substructure views and adoptions of its atoms by other containers (xstep_good, xrun_good);
   xrun_parents: an atom reports another parent only if some container adopted it; run_check_xrun: a
   correspondence case the kernel accepts is a history of xrun.  At the end, what deciding membership from
   the parent pointer would do (readopt, append_bond_by_parent): after an adoption the adopted end is listed twice. *)
From Coq Require Import List Bool PArith.
Import ListNotations.
From Molli Require Import Model.MolEdit Proofs.MolEdit.

Definition blindp (p : atom -> bool) : Prop := forall a, p (own a) = p a.

Lemma blind_id x : blindp (id_is x).
Proof. intros a. reflexivity. Qed.
Lemma blind_el e : blindp (el_is e).
Proof. intros a. reflexivity. Qed.
Lemma blind_lab l : blindp (lab_is l).
Proof. intros a. reflexivity. Qed.

Lemma find_own {p} : blindp p -> forall l, find p (map own l) = option_map own (find p l).
Proof.
  intros Hp. induction l as [|a l IH]; simpl; [reflexivity|].
  rewrite Hp. destruct (p a); [reflexivity|exact IH].
Qed.

Lemma find_idx_own {p} : blindp p -> forall l, find_idx p (map own l) = find_idx p l.
Proof.
  intros Hp. induction l as [|a l IH]; simpl; [reflexivity|].
  rewrite Hp. destruct (p a); [reflexivity|]. rewrite IH. reflexivity.
Qed.

Lemma remove_first_own {p} : blindp p -> forall l,
  remove_first p (map own l) = option_map (map own) (remove_first p l).
Proof.
  intros Hp. induction l as [|a l IH]; simpl; [reflexivity|].
  rewrite Hp. destruct (p a); [reflexivity|]. rewrite IH. destruct (remove_first p l); reflexivity.
Qed.

Lemma existsb_own {p} : blindp p -> forall l, existsb p (map own l) = existsb p l.
Proof.
  intros Hp. induction l as [|a l IH]; simpl; [reflexivity|]. rewrite Hp, IH. reflexivity.
Qed.

Lemma own_fix a : a_par a = OThis -> own a = a.
Proof. destruct a as [i e l p]. simpl. intros ->. reflexivity. Qed.

Definition rmap (g : st -> st) (r : res) : res :=
  match r with Ok s => Ok (g s) | Err s => Err (g s) | Unspec => Unspec | OutOfFuel => OutOfFuel end.

Lemma bind_blind r f f' :
  (forall s, f' (own_all s) = rmap own_all (f s)) ->
  bind (rmap own_all r) f' = rmap own_all (bind r f).
Proof. intros H. destruct r; simpl; auto. Qed.

Lemma fold_blind {X} (G : st -> X -> res) :
  (forall s x, G (own_all s) x = rmap own_all (G s x)) ->
  forall l r, fold_left (fun r x => bind r (fun s' => G s' x)) l (rmap own_all r)
              = rmap own_all (fold_left (fun r x => bind r (fun s' => G s' x)) l r).
Proof.
  intros HG. induction l as [|x l IH]; intros r; simpl; [reflexivity|].
  rewrite <- IH. f_equal. destruct r; simpl; auto.
Qed.

(* step_parent_blind is an equation between two runs, from s and from own_all s, not a relation between a state and
   its successor, so it is not an instance of step_post: it is proved layer by layer *)
Lemma get_atom_own s sl : get_atom (own_all s) sl = option_map own (get_atom s sl).
Proof.
  destruct sl; simpl.
  - apply find_own, blind_id.
  - rewrite map_length. destruct (py_index (length (atoms s)) i); [apply nth_error_map|reflexivity].
  - apply find_own, blind_lab.
  - apply find_own, blind_el.
Qed.

Lemma get_atom_index_own s sl : get_atom_index (own_all s) sl = get_atom_index s sl.
Proof.
  destruct sl; simpl.
  - apply find_idx_own, blind_id.
  - rewrite map_length. reflexivity.
  - apply find_idx_own, blind_lab.
  - apply find_idx_own, blind_el.
Qed.

Lemma is_member_own s x : is_member (own_all s) x = is_member s x.
Proof. unfold is_member. simpl. apply existsb_own, blind_id. Qed.

Lemma pm_del_atom_blind s sl : pm_del_atom (own_all s) sl = rmap own_all (pm_del_atom s sl).
Proof.
  unfold pm_del_atom. rewrite get_atom_own. destruct (get_atom s sl) as [a|]; simpl; [|reflexivity].
  rewrite (remove_first_own (blind_id (a_id a))).
  destruct (remove_first (id_is (a_id a)) (atoms s)); reflexivity.
Qed.

Lemma conn_del_bond_blind s x y : conn_del_bond (own_all s) x y = rmap own_all (conn_del_bond s x y).
Proof.
  unfold conn_del_bond. simpl. destruct (remove_first (same_ends x y) (bonds s)); reflexivity.
Qed.

Lemma del_bonds_loop_blind tbd s : del_bonds_loop tbd (own_all s) = rmap own_all (del_bonds_loop tbd s).
Proof.
  unfold del_bonds_loop.
  apply (fold_blind (fun s' b => conn_del_bond s' (b_a1 b) (b_a2 b))
                    (fun s0 b => conn_del_bond_blind s0 (b_a1 b) (b_a2 b)) tbd (Ok s)).
Qed.

Lemma conn_del_atom_blind s sl : conn_del_atom (own_all s) sl = rmap own_all (conn_del_atom s sl).
Proof.
  unfold conn_del_atom. rewrite get_atom_own. destruct (get_atom s sl) as [a|]; simpl; [|reflexivity].
  change (bonds (own_all s)) with (bonds s). rewrite del_bonds_loop_blind.
  apply bind_blind. intros s0. apply pm_del_atom_blind.
Qed.

Lemma conn_append_bond_blind s x y : conn_append_bond (own_all s) x y = rmap own_all (conn_append_bond s x y).
Proof.
  unfold conn_append_bond. rewrite !is_member_own.
  destruct (is_member s x && is_member s y); reflexivity.
Qed.

Lemma conn_connect_blind s s1 s2 : conn_connect (own_all s) s1 s2 = rmap own_all (conn_connect s s1 s2).
Proof.
  unfold conn_connect. rewrite !get_atom_own.
  destruct (get_atom s s1) as [a1|]; simpl; [|reflexivity].
  destruct (get_atom s s2) as [a2|]; simpl; [|reflexivity].
  apply conn_append_bond_blind.
Qed.

Lemma bfs_loop_blind s : forall fuel vis q out,
  bfs_loop fuel (own_all s) vis q out = bfs_loop fuel s vis q out.
Proof.
  induction fuel as [|f IH]; intros vis q out; destruct q as [|x q']; simpl; try reflexivity.
  change (neighbours (own_all s) x) with (neighbours s x).
  destruct (fold_left bfs_visit (neighbours s x) (vis, q', out)) as [[v1 q1] o1]. apply IH.
Qed.

Lemma geom_del_atom_blind s sl : geom_del_atom (own_all s) sl = rmap own_all (geom_del_atom s sl).
Proof.
  unfold geom_del_atom. rewrite get_atom_index_own.
  destruct (get_atom_index s sl) as [i|]; [|reflexivity].
  change (coords (own_all s)) with (coords s).
  destruct (del_nth i (coords s)) as [cs|]; [|reflexivity].
  change (set_coords (own_all s) cs) with (own_all (set_coords s cs)). apply conn_del_atom_blind.
Qed.

Lemma struct_del_atom_blind s sl : struct_del_atom (own_all s) sl = rmap own_all (struct_del_atom s sl).
Proof.
  unfold struct_del_atom. rewrite get_atom_own. destruct (get_atom s sl) as [a|]; simpl; [|reflexivity].
  apply geom_del_atom_blind.
Qed.

Lemma mol_del_atom_blind s sl : mol_del_atom (own_all s) sl = rmap own_all (mol_del_atom s sl).
Proof.
  unfold mol_del_atom. rewrite get_atom_index_own.
  destruct (get_atom_index s sl) as [i|]; [|reflexivity].
  rewrite struct_del_atom_blind. apply bind_blind. intros s0.
  change (charges (own_all s0)) with (charges s0). destruct (del_nth i (charges s0)); reflexivity.
Qed.

Lemma add_atom_blind s e l c q : add_atom (own_all s) e l c q = rmap own_all (add_atom s e l c q).
Proof.
  rewrite !add_atom_spec. destruct c; [|reflexivity]. unfold added, own_all. simpl. rewrite map_app. reflexivity.
Qed.

Lemma del_atom_blind s sl : del_atom (own_all s) sl = rmap own_all (del_atom s sl).
Proof.
  unfold del_atom. change (has_q (own_all s)) with (has_q s).
  destruct (has_q s); [apply mol_del_atom_blind|apply struct_del_atom_blind].
Qed.

Lemma append_bonds_blind s l : append_bonds (own_all s) l = rmap own_all (append_bonds s l).
Proof.
  unfold append_bonds.
  apply (fold_blind (fun s' p => conn_append_bond s' (fst p) (snd p))
                    (fun s0 p => conn_append_bond_blind s0 (fst p) (snd p)) l (Ok s)).
Qed.

Lemma remove_substituent_blind s s1 s2 l :
  remove_substituent (own_all s) s1 s2 l = rmap own_all (remove_substituent s s1 s2 l).
Proof.
  unfold remove_substituent. rewrite !get_atom_own.
  destruct (get_atom s s1) as [a1|]; cbn [option_map]; [|reflexivity].
  destruct (get_atom s s2) as [a2|]; cbn [option_map]; [|reflexivity].
  cbn [a_id own set_par]. rewrite get_atom_index_own.
  destruct (get_atom_index s (ByObj (a_id a2))) as [i2|]; [|reflexivity].
  change (coords (own_all s)) with (coords s).
  destruct (nth_error (coords s) i2) as [c2|]; [|reflexivity].
  change (neighbours (own_all s) (a_id a1)) with (neighbours s (a_id a1)).
  destruct (mem (a_id a2) (neighbours s (a_id a1))); [|reflexivity].
  change (bfs_fuel (own_all s)) with (bfs_fuel s). rewrite bfs_loop_blind.
  destruct (bfs_loop (bfs_fuel s) s [a_id a2; a_id a1] [a_id a2] [a_id a2]) as [out|]; [|reflexivity].
  change (Ok (own_all s)) with (rmap own_all (Ok s)).
  rewrite (fold_blind (fun s' x => del_atom s' (ByObj x)) (fun s0 x => del_atom_blind s0 (ByObj x)) out (Ok s)).
  apply bind_blind. intros sa. rewrite add_atom_blind. apply bind_blind. intros sb.
  change (next_a (own_all sa)) with (next_a sa). apply conn_connect_blind.
Qed.

Lemma add_hs_one_blind s x cs : add_hs_one (own_all s) x cs = rmap own_all (add_hs_one s x cs).
Proof.
  unfold add_hs_one. rewrite is_member_own. destruct (is_member s x); [|reflexivity].
  change (Ok (own_all s)) with (rmap own_all (Ok s)).
  apply (fold_blind (fun s' c => bind (add_atom s' el_H None (Some c) None)
                                      (fun s'' => conn_append_bond s'' x (next_a s')))).
  intros s0 c. rewrite add_atom_blind. apply bind_blind. intros s1.
  change (next_a (own_all s0)) with (next_a s0). apply conn_append_bond_blind.
Qed.

Lemma add_hs_blind s l : add_hs (own_all s) l = rmap own_all (add_hs s l).
Proof.
  unfold add_hs.
  apply (fold_blind (fun s' p => add_hs_one s' (fst p) (snd p))
                    (fun s0 p => add_hs_one_blind s0 (fst p) (snd p)) l (Ok s)).
Qed.

Theorem step_parent_blind s o : step (own_all s) o = rmap own_all (step s o).
Proof.
  destruct o; simpl.
  - apply add_atom_blind.
  - apply add_atom_blind.
  - apply del_atom_blind.
  - apply conn_connect_blind.
  - apply conn_append_bond_blind.
  - apply append_bonds_blind.
  - apply conn_del_bond_blind.
  - apply remove_substituent_blind.
  - apply add_hs_blind.
Qed.

(* every atom record of s' is a record of s, untouched, or reports this molecule *)
Definition Fr (s s' : st) : Prop := forall a, In a (atoms s') -> In a (atoms s) \/ a_par a = OThis.

Lemma Fr_incl s s' : incl (atoms s') (atoms s) -> Fr s s'.
Proof. intros E a H. left. apply E, H. Qed.

Lemma Fr_refl s : Fr s s.
Proof. apply Fr_incl, incl_refl. Qed.

Lemma Fr_trans s1 s2 s3 : Fr s1 s2 -> Fr s2 s3 -> Fr s1 s3.
Proof. intros A B a H. destruct (B a H) as [H2|H2]; [apply A; exact H2|right; exact H2]. Qed.

Theorem step_fr s o : post Fr True True s (step s o).
Proof.
  assert (Hb : forall s x y, post Fr True True s (conn_del_bond s x y)).
  { intros s0 x y. unfold conn_del_bond. destruct (remove_first _ _); apply Fr_incl, incl_refl. }
  apply step_post; [exact Fr_refl|exact Fr_trans|exact Hb| | | |auto].
  - intros s0 e l c q. rewrite add_atom_spec. destruct c; [|apply Fr_refl].
    intros a Ha. simpl in Ha. apply in_app_or in Ha. destruct Ha as [Ha|[<-|[]]]; [left; exact Ha|right; reflexivity].
  - intros s0 sl. apply del_atom_post; [exact Fr_refl|exact Fr_trans|exact Hb| |intros; apply Fr_incl, incl_refl..].
    clear. intros s sl.
    unfold pm_del_atom. destruct (get_atom s sl) as [a|]; [|apply Fr_refl].
    destruct (remove_first (id_is (a_id a)) (atoms s)) as [l|] eqn:E; [|apply Fr_refl].
    rewrite remove_first_spec in E. destruct (find_idx _ _) as [i|]; [injection E as <-|discriminate].
    apply Fr_incl. intros b. apply rm_in.
  - intros s0 x y. unfold conn_append_bond. destruct (_ && _); [apply Fr_incl, incl_refl|exact I].
Qed.

Theorem step_atoms_frame s o s' : (step s o = Ok s' \/ step s o = Err s') ->
  forall a, In a (atoms s') -> In a (atoms s) \/ a_par a = OThis.
Proof. intros [H|H]; pose proof (step_fr s o) as G; rewrite H in G; exact G. Qed.

Definition AInv (s : st) : Prop := Inv (own_all s).

Lemma own_all_fix s : (forall a, In a (atoms s) -> a_par a = OThis) -> own_all s = s.
Proof.
  intros H. destruct s as [q ats cs qs bs na nb]. unfold own_all, set_atoms. simpl in *. f_equal.
  rewrite <- (map_id ats) at 2. apply map_ext_in. intros a Ha. apply own_fix, H, Ha.
Qed.

Lemma Inv_own_all s : Inv s -> own_all s = s.
Proof. intros [_ [_ [_ [H4 _]]]]. apply own_all_fix. intros a Ha. apply H4. exact Ha. Qed.

Lemma Inv_AInv s : Inv s -> AInv s.
Proof. intros H. unfold AInv. rewrite (Inv_own_all s H). exact H. Qed.

Lemma ids_own_all s : ids (own_all s) = ids s.
Proof. unfold ids. simpl. rewrite map_map. reflexivity. Qed.

Lemma row_of_own_all s y : row_of (own_all s) y = row_of s y.
Proof. unfold row_of. simpl. rewrite (find_idx_own (blind_id y)). reflexivity. Qed.

Lemma AInv_unfold s : AInv s ->
  length (coords s) = length (atoms s) /\
  (if has_q s then length (charges s) = length (atoms s) /\ Forall numeric (charges s) else charges s = []) /\
  NoDup (ids s) /\
  (forall a, In a (atoms s) -> (a_id a < next_a s)%positive) /\
  NoDup (bids s) /\
  (forall b, In b (bonds s) ->
     b_par b = OThis /\ (b_id b < next_b s)%positive /\ In (b_a1 b) (ids s) /\ In (b_a2 b) (ids s)).
Proof.
  unfold AInv. intros [H1 [H2 [H3 [H4 [H5 H6]]]]]. rewrite ids_own_all in *. simpl in *.
  rewrite map_length in *.
  split; [exact H1|]. split; [exact H2|]. split; [exact H3|].
  split; [intros a Ha; apply (H4 (own a)); apply in_map; exact Ha|].
  split; [exact H5|exact H6].
Qed.

Lemma own_adopt s l w : own_all (adopt s l w) = own_all s.
Proof.
  unfold own_all, adopt, set_atoms. simpl. rewrite map_map. f_equal.
  apply map_ext. intros a. destruct (mem (a_id a) l); reflexivity.
Qed.

Lemma via_sub_same s va o s' : (xstep s (ViaSub va o) = Ok s' \/ xstep s (ViaSub va o) = Err s') -> s' = s.
Proof.
  simpl. destruct (sub_view s va) as [v|]; [destruct (vstep v o)|]; intros [H|H]; congruence.
Qed.

Theorem xstep_good s x s' : (xstep s x = Ok s' \/ xstep s x = Err s') -> Good (own_all s) (own_all s').
Proof.
  intros H. destruct x as [o|va o|l w].
  - simpl in H. pose proof (step_good (own_all s) o) as G. rewrite step_parent_blind in G.
    destruct H as [H|H]; rewrite H in G; exact G.
  - rewrite (via_sub_same s va o s' H). intros HA. split; [exact HA|apply Keeps_refl].
  - simpl in H. destruct (forallb (is_member s) l); destruct H as [H|H]; try discriminate.
    inversion H; subst. rewrite own_adopt. intros HA. split; [exact HA|apply Keeps_refl].
Qed.

Theorem xrun_good : forall h s s', xrun s h = Some s' -> Good (own_all s) (own_all s').
Proof.
  induction h as [|x h IH]; intros s s' H; simpl in H.
  - inversion H; subst. intros HA. split; [exact HA|apply Keeps_refl].
  - destruct (xstep s x) as [s1|s1| |] eqn:E; try discriminate;
      (eapply Good_trans; [apply (xstep_good s x s1); auto|apply IH, H]).
Qed.

Lemma xstep_parents s x s' L : (xstep s x = Ok s' \/ xstep s x = Err s') ->
  (forall a, In a (atoms s) -> a_par a = OThis \/ In (a_id a) L) ->
  forall a, In a (atoms s') -> a_par a = OThis \/ In (a_id a) (L ++ adopted [x]).
Proof.
  intros H HP. destruct x as [o|va o|l w]; simpl; rewrite app_nil_r.
  - intros a Ha. destruct (step_atoms_frame s o s' H a Ha) as [F|F]; [apply HP; exact F|left; exact F].
  - rewrite (via_sub_same s va o s' H). exact HP.
  - simpl in H. destruct (forallb (is_member s) l); destruct H as [H|H]; try discriminate. inversion H; subst.
    intros a Ha. apply in_map_iff in Ha. destruct Ha as [a0 [<- Ha0]]. rewrite in_app_iff.
    destruct (mem (a_id a0) l) eqn:M; [right; right; apply mem_In; exact M|destruct (HP a0 Ha0); auto].
Qed.

Lemma xrun_parents_gen : forall h s s' L,
  (forall a, In a (atoms s) -> a_par a = OThis \/ In (a_id a) L) ->
  xrun s h = Some s' ->
  forall a, In a (atoms s') -> a_par a = OThis \/ In (a_id a) (L ++ adopted h).
Proof.
  induction h as [|x h IH]; intros s s' L HP H; simpl in H.
  - inversion H; subst. simpl. rewrite app_nil_r. exact HP.
  - replace (adopted (x :: h)) with (adopted [x] ++ adopted h) by (destruct x; simpl; rewrite ?app_nil_r; reflexivity).
    rewrite app_assoc.
    destruct (xstep s x) as [s1|s1| |] eqn:E; try discriminate;
      (apply (IH s1); [apply (xstep_parents s x s1 L); auto|exact H]).
Qed.

Theorem xrun_parents s h s' : Inv s -> xrun s h = Some s' ->
  forall a, In a (atoms s') -> a_par a = OThis \/ In (a_id a) (adopted h).
Proof.
  intros HI H a Ha. apply (xrun_parents_gen h s s' []); [|exact H|exact Ha].
  intros b Hb. left. destruct HI as [_ [_ [_ [H4 _]]]]. apply H4. exact Hb.
Qed.

Lemma run_check_xrun : forall steps s, run_check s steps = true -> exists s', xrun s (map fst steps) = Some s'.
Proof.
  induction steps as [|[o ob] steps IH]; intros s H; simpl in *; [eauto|].
  destruct (xstep s o); try discriminate; apply andb_true_iff in H; destruct H as [_ H]; apply IH; exact H.
Qed.

(* append_bond as it would read with `atom.parent is not self` in place of `atom not in self.atoms`:
   an end that does not report this molecule is appended (again) and re-pointed *)
Definition readopt (s : st) (x : positive) : st :=
  match find (id_is x) (atoms s) with
  | Some a => if owner_eqb (a_par a) OThis then s else set_atoms s (atoms s ++ [own a])
  | None => s
  end.
Definition append_bond_by_parent (s : st) (x y : positive) : st :=
  let s1 := mkSt (has_q s) (atoms s) (coords s) (charges s)
                 (bonds s ++ [mkBond (next_b s) x y OThis]) (next_a s) (Pos.succ (next_b s)) in
  readopt (readopt s1 x) y.

Lemma find_adopt w x L : In x L -> forall l, In x (map a_id l) ->
  exists a0, In a0 l /\ a_id a0 = x /\
    find (id_is x) (map (fun a => if mem (a_id a) L then set_par a w else a) l) = Some (set_par a0 w).
Proof.
  intros HL. apply mem_In in HL. induction l as [|a l IH]; simpl; intros H; [contradiction|].
  destruct (Pos.eqb (a_id a) x) eqn:E.
  - exists a. apply Pos.eqb_eq in E. rewrite E, HL. unfold id_is. simpl. rewrite E, Pos.eqb_refl. auto.
  - assert (Ex : id_is x (if mem (a_id a) L then set_par a w else a) = false) by (destruct (mem (a_id a) L); exact E).
    rewrite Ex. destruct H as [H|H]; [apply Pos.eqb_neq in E; contradiction|].
    destruct (IH H) as [a0 [A1 [A2 A3]]]. exists a0. auto.
Qed.

Lemma ids_adopt s l w : ids (adopt s l w) = ids s.
Proof.
  unfold ids, adopt. simpl. rewrite map_map. apply map_ext. intros a. destruct (mem (a_id a) l); reflexivity.
Qed.

Lemma readopt_grows t z : exists extra, atoms (readopt t z) = atoms t ++ extra.
Proof.
  unfold readopt. destruct (find (id_is z) (atoms t)) as [a|]; [|exists []; rewrite app_nil_r; reflexivity].
  destruct (owner_eqb (a_par a) OThis); [exists []; rewrite app_nil_r; reflexivity|exists [own a]; reflexivity].
Qed.

(* after an adoption of x the parent-pointer test lists x twice *)
Lemma by_parent_lists_twice s x y w : In x (ids s) -> w <> OThis ->
  ~ NoDup (ids (append_bond_by_parent (adopt s [x] w) x y)).
Proof.
  intros Hx Hw ND. unfold append_bond_by_parent in ND.
  set (s0 := adopt s [x] w) in *.
  set (s1 := mkSt (has_q s0) (atoms s0) (coords s0) (charges s0)
                  (bonds s0 ++ [mkBond (next_b s0) x y OThis]) (next_a s0) (Pos.succ (next_b s0))) in *.
  destruct (find_adopt w x [x] (or_introl eq_refl) (atoms s) Hx) as [a0 [A1 [A2 A3]]].
  assert (H1 : atoms (readopt s1 x) = atoms s0 ++ [own (set_par a0 w)]).
  { unfold readopt.
    change (atoms s1) with (map (fun a => if mem (a_id a) [x] then set_par a w else a) (atoms s)).
    rewrite A3. cbn [a_par set_par].
    destruct w; [contradiction|reflexivity|reflexivity]. }
  destruct (readopt_grows (readopt s1 x) y) as [extra He].
  unfold ids in ND. rewrite He, H1 in ND. rewrite !map_app in ND. simpl in ND.
  rewrite <- app_assoc in ND. simpl in ND. apply NoDup_remove_2 in ND. apply ND.
  apply in_or_app. left. cbn [a_id own set_par]. rewrite A2.
  change (In x (ids (adopt s [x] w))). rewrite ids_adopt. exact Hx.
Qed.
