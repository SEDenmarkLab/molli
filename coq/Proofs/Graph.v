(* C15: walks over the bond list; the certificate lemma (a labelling closed under predecessors and steps is
   the distance labelling); the traversal in FIFO form, its invariant, and the fuel it needs.  Proofs/GraphTop.v
   carries this over to the functions of Model/Graph.v; adjacency accessors are in Proofs/GraphAdj.v. *)
From Coq Require Import Arith List Bool Lia Sorted.
From Molli Require Import Model.Graph.
From Molli Require Import Common.ListFacts.
Import ListNotations.
Open Scope nat_scope.

Definition adj (g : graph) (u v : nat) : Prop := In (u, v) g \/ In (v, u) g.

Lemma adj_sym g u v : adj g u v -> adj g v u.
Proof. unfold adj; tauto. Qed.

Lemma mem_In a l : mem a l = true <-> In a l.
Proof. exact (existsb_eqb_In Nat.eqb Nat.eqb_eq a l). Qed.
Lemma mem_false a l : mem a l = false <-> ~ In a l.
Proof. rewrite <- mem_In. destruct (mem a l); split; congruence. Qed.

Lemma bond_has_true b x : bond_has b x = true <-> fst b = x \/ snd b = x.
Proof. unfold bond_has. now rewrite orb_true_iff, !Nat.eqb_eq. Qed.

Lemma joins_true b x y : joins b x y = true <-> (fst b = x /\ snd b = y) \/ (fst b = y /\ snd b = x).
Proof. unfold joins. now rewrite orb_true_iff, !andb_true_iff, !Nat.eqb_eq. Qed.

Lemma joins_sym b x y : joins b x y = joins b y x.
Proof. unfold joins. apply orb_comm. Qed.

Lemma connected_atoms_adj g a b : In b (connected_atoms g a) <-> adj g a b.
Proof.
  unfold connected_atoms, adj, bond_other. rewrite in_map_iff. split.
  - intros [[x y] [E H]]. apply filter_In in H. destruct H as [Hin Hb]. apply bond_has_true in Hb.
    cbn [fst snd] in *. destruct (Nat.eqb_spec x a); subst; [now left|right].
    destruct Hb; [contradiction|now subst].
  - intros [H|H]; [exists (a, b)|exists (b, a)]; cbn [fst snd];
      (split; [|apply filter_In; split; [exact H|apply bond_has_true; cbn [fst snd]; tauto]]).
    + now rewrite Nat.eqb_refl.
    + destruct (Nat.eqb_spec b a); congruence.
Qed.

(* walks over an arbitrary step relation; `walk g` is the instance for the bond list *)
Inductive walkR (R : nat -> nat -> Prop) (a : nat) : nat -> nat -> Prop :=
| w0 : walkR R a a 0
| wS b c k : walkR R a b k -> R b c -> walkR R a c (S k).

Definition walk (g : graph) := walkR (adj g).
Definition reach (g : graph) (a b : nat) : Prop := exists k, walk g a b k.
Definition is_dist (g : graph) (a b d : nat) : Prop := walk g a b d /\ forall k, walk g a b k -> d <= k.

Lemma walkR_app (R : nat -> nat -> Prop) a b c k1 k2 : walkR R a b k1 -> walkR R b c k2 -> walkR R a c (k1 + k2).
Proof.
  intros W1 W2. induction W2 as [|x y k W2 IH Hxy].
  - now rewrite Nat.add_0_r.
  - rewrite Nat.add_succ_r. econstructor; eauto.
Qed.

Lemma walkR_sym (R : nat -> nat -> Prop) a b k : (forall u v, R u v -> R v u) -> walkR R a b k -> walkR R b a k.
Proof.
  intros Hs W. induction W as [|x y k W IH Hxy].
  - constructor.
  - change (S k) with (1 + k). eapply walkR_app; [|exact IH].
    econstructor; [constructor|]. now apply Hs.
Qed.

Lemma reach_sym g a b : reach g a b -> reach g b a.
Proof. intros [k W]. exists k. apply walkR_sym; [intros u v; apply adj_sym|exact W]. Qed.
Lemma reach_refl g a : reach g a a.
Proof. exists 0. constructor. Qed.
Lemma reach_trans g a b c : reach g a b -> reach g b c -> reach g a c.
Proof. intros [k1 W1] [k2 W2]. exists (k1 + k2). eapply walkR_app; eauto. Qed.
Lemma reach_mono g g' a b : (forall u v, adj g u v -> adj g' u v) -> reach g a b -> reach g' a b.
Proof. intros H [k W]. exists k. induction W; econstructor; eauto. Qed.
Lemma reach_step g a b c : reach g a b -> adj g b c -> reach g a c.
Proof. intros [k W] H. exists (S k). econstructor; eauto. Qed.

Lemma in_map_fst {A B} (l : list (A * B)) a : In a (map fst l) <-> exists b, In (a, b) l.
Proof.
  rewrite in_map_iff. split; [intros [[x y] [<- H]]; eauto|intros [b H]; exists (a, b); auto].
Qed.

Lemma fst_fun {A B} (l : list (A * B)) a b b' : NoDup (map fst l) -> In (a, b) l -> In (a, b') l -> b = b'.
Proof.
  induction l as [|p l IH]; [intros _ []|]. cbn [map]. intros Hn. inversion Hn as [|? ? Hp Hn']; subst.
  intros [->|H1] [E|H2]; [congruence| | |now apply IH]; exfalso; apply Hp, in_map_fst; [|subst p]; eauto.
Qed.

(* Any labelling L of vertices, functional and containing (s, 0), in which every other labelled vertex has
   a neighbour labelled one less, and every step from a labelled vertex leads to a vertex labelled at most
   one more, is the distance labelling of the start's component. *)
Section Cert.
Variables (R : nat -> nat -> Prop) (s : nat) (L : list (nat * nat)).
Hypothesis Hs : In (s, 0) L.
Hypothesis Hf : NoDup (map fst L).
Hypothesis Hb : forall v d, In (v, d) L -> (v, d) = (s, 0) \/ exists u d', d = S d' /\ In (u, d') L /\ R u v.
Hypothesis Hc : forall u du w, In (u, du) L -> R u w -> exists dw, In (w, dw) L /\ dw <= S du.

Lemma cert_walk : forall d v, In (v, d) L -> walkR R s v d.
Proof.
  induction d as [|d IH]; intros v Hv; destruct (Hb _ _ Hv) as [E|(u & d' & E & Hu & Ha)]; try discriminate.
  - injection E as ->. constructor.
  - injection E as <-. econstructor; [apply IH; exact Hu|exact Ha].
Qed.
Lemma cert_le k v : walkR R s v k -> exists d, In (v, d) L /\ d <= k.
Proof.
  intros W. induction W as [|b c k W (db & Hb' & Hle) Ha]; [eauto|].
  destruct (Hc _ _ _ Hb' Ha) as (dc & Hc' & Hle'). exists dc. split; [exact Hc'|lia].
Qed.
Theorem cert v : (exists k, walkR R s v k) <-> In v (map fst L).
Proof.
  rewrite in_map_fst. split.
  - intros [k W]. destruct (cert_le _ _ W) as (d & H & _). eauto.
  - intros [d H]. eauto using cert_walk.
Qed.
Theorem cert_dist v d : In (v, d) L -> walkR R s v d /\ forall k, walkR R s v k -> d <= k.
Proof.
  intros H. split; [now apply cert_walk|]. intros k W.
  destruct (cert_le _ _ W) as (d' & H' & Hle). now rewrite (fst_fun _ _ _ _ Hf H H').
Qed.
End Cert.

(* one neighbour scan reports the atoms of ns not yet visited, each at its first occurrence *)
Fixpoint news (ns visited : list nat) : list nat :=
  match ns with
  | [] => []
  | a :: ns' => if mem a visited then news ns' visited else a :: news ns' (a :: visited)
  end.
Definition tag (d a : nat) : nat * nat := (a, d).

(* loop_d of Model/Graph.v with the deque read as a queue: take the head, append what its scan reports *)
Fixpoint bfs (fuel : nat) (g : graph) (visited : list nat) (queue : list (nat * nat)) : option (list (nat * nat)) :=
  match queue with
  | [] => Some []
  | (u, d) :: q =>
    match fuel with
    | O => None
    | S fuel' =>
      let fr := news (connected_atoms g u) visited in
      match bfs fuel' g (rev fr ++ visited) (q ++ map (tag (S d)) fr) with
      | Some out => Some (map (tag (S d)) fr ++ out)
      | None => None
      end
    end
  end.

Lemma news_In ns : forall visited x, In x (news ns visited) <-> In x ns /\ ~ In x visited.
Proof.
  induction ns as [|a ns IH]; intros visited x; cbn [news In]; [tauto|].
  destruct (mem a visited) eqn:E.
  - apply mem_In in E. rewrite IH. split; [tauto|]. intros [[<-|Hx] Hn]; tauto.
  - apply mem_false in E. cbn [In]. rewrite IH. cbn [In]. destruct (Nat.eq_dec a x) as [<-|Hne]; tauto.
Qed.
Lemma news_NoDup ns : forall visited, NoDup (news ns visited).
Proof.
  induction ns as [|a ns IH]; intros visited; cbn [news]; [constructor|].
  destruct (mem a visited); [apply IH|]. constructor; [|apply IH]. rewrite news_In. cbn [In]. tauto.
Qed.

Lemma tag_fst d l : map fst (map (tag d) l) = l.
Proof. rewrite map_map. apply map_id. Qed.
Lemma tag_In d l a b : In (a, b) (map (tag d) l) <-> b = d /\ In a l.
Proof. rewrite in_map_iff. unfold tag. split; [intros (x & [= <- <-] & H); auto|intros [-> H]; eauto]. Qed.

Lemma SS_app_iff (l1 l2 : list nat) : StronglySorted le (l1 ++ l2) <->
  StronglySorted le l1 /\ StronglySorted le l2 /\ (forall x y, In x l1 -> In y l2 -> x <= y).
Proof.
  induction l1 as [|a l1 IH]; cbn [app].
  - split; [intros H; repeat split; [constructor|exact H|intros x y []]|tauto].
  - split.
    + intros H. inversion H as [|? ? Hs Hf]; subst. apply IH in Hs. destruct Hs as (S1 & S2 & Hle).
      apply Forall_app in Hf. destruct Hf as [F1 F2]. repeat split; [now constructor|exact S2|].
      intros x y [<-|Hx] Hy; [rewrite Forall_forall in F2; now apply F2|now apply Hle].
    + intros (S1 & S2 & Hle). inversion S1 as [|? ? Hs Hf]; subst. constructor.
      * apply IH. repeat split; auto. intros x y Hx. apply Hle. now right.
      * apply Forall_app. split; [exact Hf|]. apply Forall_forall. intros y Hy. apply Hle; [now left|exact Hy].
Qed.
Lemma SS_const (l : list nat) c : (forall b, In b l -> b = c) -> StronglySorted le l.
Proof.
  induction l as [|a l IH]; intros H; constructor.
  - apply IH. intros; apply H; now right.
  - apply Forall_forall. intros y Hy. rewrite (H a), (H y); cbn; auto.
Qed.

(* `blk` are atoms put into `visited` before the loop starts and never expanded (empty for the plain
   traversal, [start] for the directed one).  The traversal of g then explores any graph g' that has g's
   bonds between unblocked atoms and none into a blocked one: g itself when nothing is blocked, g with the
   start deleted for the directed traversal. *)
Section Inv.
Variables (g g' : graph) (s : nat) (blk : list nat).
Hypothesis Hsub : forall u v, adj g' u v -> adj g u v /\ ~ In v blk.
Hypothesis Hsup : forall u v, adj g u v -> ~ In u blk -> ~ In v blk -> adj g' u v.

(* L is everything labelled so far, start included, in the order of discovery: first the entries already
   expanded, then those waiting. *)
Record Inv (visited : list nat) (L done queue : list (nat * nat)) : Prop := {
  iL : L = done ++ queue;
  i0 : In (s, 0) L;
  iV : forall x, In x visited <-> In x blk \/ In x (map fst L);
  iN : NoDup (map fst L);
  iNb : forall x, In x (map fst L) -> ~ In x blk;
  iS : StronglySorted le (map snd L);
  iH : forall p r, In p L -> In r queue -> snd p <= S (snd r);
  iB : forall v d, In (v, d) L -> (v, d) = (s, 0) \/ exists u d', d = S d' /\ In (u, d') L /\ adj g' u v;
  iC : forall u du w, In (u, du) done -> adj g' u w -> exists dw, In (w, dw) L /\ dw <= S du
}.

Lemma inv_step visited L done u d q :
  Inv visited L done ((u, d) :: q) ->
  let fr := news (connected_atoms g u) visited in
  Inv (rev fr ++ visited) (L ++ map (tag (S d)) fr) (done ++ [(u, d)]) (q ++ map (tag (S d)) fr).
Proof.
  intros [EL I0 IV IN INb IS IH IB IC] fr.
  assert (Hfr : forall a, In a fr <-> adj g u a /\ ~ In a blk /\ ~ In a (map fst L)).
  { intros a. unfold fr. rewrite news_In, connected_atoms_adj, IV. tauto. }
  assert (Hnew : forall p, In p (map (tag (S d)) fr) -> snd p = S d).
  { intros [a b] Hp. apply tag_In in Hp. cbn. tauto. }
  assert (Hbound : forall p, In p L -> snd p <= S d) by (intros p Hp; apply (IH p (u, d) Hp); now left).
  assert (Hdq : forall r, In r q -> d <= snd r).
  { pose proof IS as Hs. rewrite EL, map_app in Hs. apply SS_app_iff in Hs. destruct Hs as (_ & Hs & _).
    inversion Hs as [|? ? _ F]; subst. rewrite Forall_forall in F. intros r Hr. apply F, in_map, Hr. }
  assert (HuL : In (u, d) L) by (rewrite EL; apply in_elt).
  constructor.
  - rewrite EL, <- !app_assoc. reflexivity.
  - apply in_or_app. now left.
  - intros x. rewrite in_app_iff, <- in_rev, map_app, tag_fst, in_app_iff, IV. tauto.
  - rewrite map_app, tag_fst. apply NoDup_app. repeat split; [exact IN|apply news_NoDup|]. intros x Hx Hc. apply Hfr in Hc. tauto.
  - intros x. rewrite map_app, tag_fst, in_app_iff, Hfr. intros [Hx|Hx]; [now apply INb|tauto].
  - rewrite map_app. apply SS_app_iff. split; [exact IS|]. split.
    + apply SS_const with (S d). intros b Hb. apply in_map_iff in Hb. destruct Hb as (p & <- & Hp). now apply Hnew.
    + intros a b Ha Hb. apply in_map_iff in Ha, Hb. destruct Ha as [p [<- Hp]], Hb as [r [<- Hr]].
      rewrite (Hnew r Hr). now apply Hbound.
  - intros p r Hp Hr. apply in_app_or in Hp, Hr.
    assert (snd p <= S d) by (destruct Hp as [Hp|Hp]; [now apply Hbound|now rewrite (Hnew p Hp)]).
    destruct Hr as [Hr|Hr]; [apply Hdq in Hr|rewrite (Hnew r Hr)]; lia.
  - intros v dv Hin. apply in_app_or in Hin. destruct Hin as [Hin|Hin].
    + destruct (IB _ _ Hin) as [E|(u0 & d0 & E & Hu0 & A)]; [now left|right].
      exists u0, d0. split; [exact E|]. split; [apply in_or_app; now left|exact A].
    + apply tag_In in Hin. destruct Hin as [-> Hv]. apply Hfr in Hv. right. exists u, d.
      split; [reflexivity|]. split; [apply in_or_app; now left|].
      apply Hsup; [tauto| |tauto]. apply INb, in_map_fst. eauto.
  - intros x dx w Hx Hw. apply in_app_or in Hx. destruct Hx as [Hx|[E|[]]].
    + destruct (IC _ _ _ Hx Hw) as (dw & Hdw & Hle). exists dw. split; [apply in_or_app; now left|exact Hle].
    + injection E as <- <-. apply Hsub in Hw. destruct (in_dec Nat.eq_dec w (map fst L)) as [Hl|Hl].
      * apply in_map_fst in Hl. destruct Hl as [dw Hl]. exists dw. split; [apply in_or_app; now left|exact (Hbound _ Hl)].
      * exists (S d). split; [|lia]. apply in_or_app. right. apply tag_In. split; [reflexivity|]. apply Hfr. tauto.
Qed.

(* when the loop ends every labelled entry has been expanded *)
Theorem bfs_partial_correct : forall fuel visited L done queue out,
  Inv visited L done queue -> bfs fuel g visited queue = Some out -> exists v', Inv v' (L ++ out) (L ++ out) [].
Proof.
  assert (Hend : forall visited L done, Inv visited L done [] -> exists v', Inv v' (L ++ []) (L ++ []) []).
  { intros visited L done I. exists visited. destruct I as [E]. rewrite !app_nil_r in *. subst done.
    constructor; trivial. now rewrite app_nil_r. }
  induction fuel as [|fuel IH]; intros visited L done queue out I H;
    (destruct queue as [|[u d] q]; [injection H as <-; exact (Hend _ _ _ I)|]); [discriminate|].
  cbn [bfs] in H. destruct (bfs fuel g _ (q ++ _)) as [out'|] eqn:B; [|discriminate]. injection H as <-.
  rewrite app_assoc. eapply IH; [|exact B]. eapply inv_step; exact I.
Qed.

Theorem bfs_blk_correct fuel out : ~ In s blk ->
  bfs fuel g (s :: blk) [(s, 0)] = Some out ->
  let L := (s, 0) :: out in
  NoDup (map fst L) /\ (forall x, In x (map fst L) -> ~ In x blk) /\ StronglySorted le (map snd L) /\
  (forall v, reach g' s v <-> In v (map fst L)) /\
  (forall v d, In (v, d) L -> is_dist g' s v d).
Proof.
  intros Hsb H. assert (I : Inv (s :: blk) [(s, 0)] [] [(s, 0)]).
  { constructor; cbn; try tauto.
    - repeat constructor. tauto.
    - intros x [<-|[]]. exact Hsb.
    - repeat constructor.
    - intros p r [<-|[]] _. cbn. lia.
    - intros v d [E|[]]. now left. }
  destruct (bfs_partial_correct _ _ _ _ _ _ I H) as [v' [_ I0 _ IN INb IS _ IB IC]].
  split; [exact IN|]. split; [exact INb|]. split; [exact IS|].
  split; [exact (cert (adj g') s _ I0 IB IC)|exact (cert_dist (adj g') s _ I0 IN IB IC)].
Qed.
End Inv.

(* Fuel: each turn takes one queue entry and appends only atoms that then leave the fresh ones, so
   |queue| + |fresh| falls with every turn.  Proofs/MolEditFuel.v makes the same argument for the search inside
   remove_substituent (Model/MolEdit.v), a separate copy of this loop in the code. *)
Definition verts (g : graph) : list nat := flat_map (fun b => [fst b; snd b]) g.

Lemma verts_length g : length (verts g) = 2 * length g.
Proof. induction g as [|b g IH]; [reflexivity|]. cbn [verts flat_map app length] in *. unfold verts in IH. lia. Qed.

Lemma connected_atoms_verts g u x : In x (connected_atoms g u) -> In x (verts g).
Proof.
  intros H. apply connected_atoms_adj in H. unfold verts. apply in_flat_map.
  destruct H as [H|H]; [exists (u, x)|exists (x, u)]; (split; [exact H|]); simpl; tauto.
Qed.

Definition fresh (visited l : list nat) : list nat := filter (fun x => negb (mem x visited)) l.

Lemma fresh_In visited l x : In x (fresh visited l) <-> In x l /\ ~ In x visited.
Proof. unfold fresh. now rewrite filter_In, negb_true_iff, mem_false. Qed.

(* a scan moves each atom it reports out of the fresh ones *)
Lemma news_count l ns visited : NoDup l -> incl ns l ->
  length (fresh (rev (news ns visited) ++ visited) l) + length (news ns visited) <= length (fresh visited l).
Proof.
  intros Hl Hi. rewrite <- app_length. apply NoDup_incl_length.
  - apply NoDup_app. repeat split; [now apply NoDup_filter|apply news_NoDup|]. intros x Hx Hn. apply fresh_In in Hx.
    apply (proj2 Hx), in_or_app. left. now apply in_rev in Hn.
  - intros x Hx. apply in_app_or in Hx. apply fresh_In. destruct Hx as [Hx|Hx].
    + apply fresh_In in Hx. split; [tauto|]. intro Hv. apply (proj2 Hx), in_or_app. now right.
    + apply news_In in Hx. split; [apply Hi|]; tauto.
Qed.

Lemma bfs_fuel_enough_gen g l : NoDup l -> (forall u, incl (connected_atoms g u) l) ->
  forall fuel visited queue, length (fresh visited l) + length queue <= fuel -> bfs fuel g visited queue <> None.
Proof.
  intros Hnd Hi. induction fuel as [|fuel IH]; intros visited [|[u d] q] Hle; try discriminate; cbn [length] in Hle; [lia|].
  cbn [bfs]. pose proof (news_count l _ visited Hnd (Hi u)) as Hc.
  specialize (IH (rev (news (connected_atoms g u) visited) ++ visited) (q ++ map (tag (S d)) (news (connected_atoms g u) visited))).
  rewrite app_length, map_length in IH. destruct (bfs fuel g _ (q ++ _)); [discriminate|]. apply IH. lia.
Qed.

(* the fuel the model uses is always enough: a one-entry queue, any visited set *)
Theorem bfs_fuel_enough g visited p : bfs (bfs_fuel g) g visited [p] <> None.
Proof.
  set (l := nodup Nat.eq_dec (verts g)). assert (Hl : NoDup l) by apply NoDup_nodup.
  apply (bfs_fuel_enough_gen g l Hl).
  - intros u x Hx. apply nodup_In. eapply connected_atoms_verts; eauto.
  - pose proof (NoDup_incl_length (NoDup_filter _ Hl) (incl_filter _ l) : length (fresh visited l) <= _).
    pose proof (NoDup_incl_length Hl (fun x => proj1 (nodup_In Nat.eq_dec (verts g) x)) : length l <= _).
    rewrite verts_length in *. unfold bfs_fuel. cbn [length]. lia.
Qed.
