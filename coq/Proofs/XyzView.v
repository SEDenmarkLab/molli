(* C08: written objects that are VIEWS (a selection of a parent's atoms in selection order): what Props/C08.v uses
   about `select` and view sessions, and the parent on which rows taken in the parent's order go wrong. *)
From Coq Require Import List ZArith.
From Molli Require Import Model.Parse Model.XyzText Model.XyzView.
Import ListNotations.
Local Open Scope list_scope.

(* a selection is the parent's items looked up one by one *)
Lemma select_map_opt {A} sel (l : list A) : select sel l = map_opt (nth_error l) sel.
Proof. induction sel as [|i r IH]; [reflexivity|]. cbn [select map_opt]. now rewrite IH. Qed.

Lemma Forall2_nth_error {A B} (R : A -> B -> Prop) l l' : Forall2 R l l' ->
  forall j b, nth_error l' j = Some b -> exists a, nth_error l j = Some a /\ R a b.
Proof.
  induction 1 as [|a b l l' Hab _ IH]; intros [|j] b' Hj; try discriminate; simpl in *; [|now apply IH].
  injection Hj as <-. now exists a.
Qed.

(* the two sides of a view session have one entry per write *)
Lemma view_lengths syms vname sel steps : forall g,
  List.length (run_view syms vname sel g steps) = List.length (view_expect vname sel g steps).
Proof. induction steps as [|s steps IH]; intros g; [reflexivity|]. destruct s; cbn [run_view view_expect]; simpl; auto. Qed.

(* rows taken in the parent's order under atoms kept in selection order: the atoms read back carry other atoms'
   coordinates as soon as the selection is not ascending *)
Definition refute_parent : wgeom :=
  mk_wgeom [] [mk_watom 6 (false, 0%N) (false, 0%N) (false, 0%N); mk_watom 8 (false, 1210000%N) (false, 0%N) (false, 0%N);
               mk_watom 7 (true, 700000%N) (false, 1150000%N) (false, 0%N)].
