(* C19 (grid descriptors): lemmas about Model/Grid.v, all over Q (every float is a rational; rounding inside numpy/scipy
   is outside the model): one axis of rectangular_grid in closed form, the mesh, the arg-min behind nearest_atom_index,
   the index filter behind prune, aso / aif as conformer averages, and block-wise or single-point evaluation of a large
   grid.  Props/C19.v states the property theorems and assembles them from these. *)
From Coq Require Import List ZArith QArith Qround Lia ZifyBool Lqa FinFun.
From Molli Require Import Common.Field3 Common.FlatNth Model.Grid.
From Molli Require Import Common.ListFacts.
Import ListNotations.
Local Open Scope Q_scope.

Lemma floor_bounds (d s : Q) : 0 < s ->
  inject_Z (Qfloor (d / s)) * s <= d /\ d < (inject_Z (Qfloor (d / s)) + 1) * s.
Proof.
  intros Hs. pose proof (Qfloor_le (d / s)) as H1. pose proof (Qlt_floor (d / s)) as H2.
  rewrite inject_Z_plus in H2. change (inject_Z 1) with 1 in H2.
  assert (E : d == d / s * s) by (field; lra). set (x := d / s) in *. nra.
Qed.

Lemma lin_length (a st : Q) (n : nat) : forall k, length (lin a st k n) = n.
Proof. induction n as [|n IH]; intros k; simpl; [reflexivity | now rewrite IH]. Qed.

Lemma lin_nth (a st d : Q) (n : nat) : forall k i, (i < n)%nat ->
  nth i (lin a st k n) d = Qred (a + inject_Z (k + Z.of_nat i) * st).
Proof.
  induction n as [|n IH]; intros k [|i] Hi; try lia; simpl nth.
  - now rewrite Z.add_0_r.
  - rewrite IH by lia. do 4 f_equal. lia.
Qed.

Lemma linspace_length (a b : Q) (n : Z) : length (linspace a b n) = Z.to_nat n.
Proof.
  unfold linspace. destruct (Z.eqb_spec n 1) as [->|_]; [reflexivity | apply lin_length].
Qed.

(* np.linspace: point i is a + i * (b - a) / (n - 1); for n = 1 the quotient is x/0 = 0 in Q and i = 0 *)
Lemma linspace_nth (a b d : Q) (n : Z) (i : nat) : (i < Z.to_nat n)%nat ->
  nth i (linspace a b n) d == a + inject_Z (Z.of_nat i) * ((b - a) / inject_Z (n - 1)).
Proof.
  intros Hi. unfold linspace. destruct (Z.eqb_spec n 1) as [->|_].
  - replace i with O by lia. simpl. ring.
  - rewrite lin_nth by exact Hi. now rewrite !Qred_correct.
Qed.

Definition axis_pts (l r s : Q) : list Q := match axis l r s with Some xs => xs | None => [] end.

Section Axis.
Variables l r s : Q.
Hypotheses (Hs : 0 < s) (Hlr : l <= r).

Lemma axis_n_pos : (1 <= axis_n l r s)%Z.
Proof.
  unfold axis_n. assert (0 <= Qfloor ((r - l) / s))%Z; [|lia].
  change 0%Z with (Qfloor 0). apply Qfloor_resp_le, Qle_shift_div_l; lra.
Qed.

(* 0 <= o < spacing/2, and the span between the first and the last point is exactly (n-1) spacings *)
Lemma axis_off_bounds :
  0 <= axis_off l r s /\ axis_off l r s < s / 2 /\
  r - axis_off l r s - (l + axis_off l r s) == inject_Z (axis_n l r s - 1) * s.
Proof.
  unfold axis_off, axis_n. rewrite Z.add_simpl_r.
  destruct (floor_bounds (r - l) s Hs) as [H1 H2]. set (f := inject_Z _) in *.
  assert (s / 2 * 2 == s) by field.
  repeat split; [apply Qle_shift_div_l; lra | apply Qlt_shift_div_r; lra | field].
Qed.

Lemma axis_eq : axis l r s = Some (linspace (l + axis_off l r s) (r - axis_off l r s) (axis_n l r s)).
Proof. unfold axis. pose proof axis_n_pos. destruct (axis_n l r s <? 0)%Z eqn:E; [lia | reflexivity]. Qed.

Lemma axis_some : axis l r s = Some (axis_pts l r s).
Proof. unfold axis_pts. now rewrite axis_eq. Qed.

Lemma axis_length : length (axis_pts l r s) = Z.to_nat (axis_n l r s).
Proof. unfold axis_pts. rewrite axis_eq. apply linspace_length. Qed.

(* closed form of one axis: point i is  l + o + i * spacing *)
Lemma axis_nth (d : Q) (i : nat) : (i < Z.to_nat (axis_n l r s))%nat ->
  nth i (axis_pts l r s) d == l + axis_off l r s + inject_Z (Z.of_nat i) * s.
Proof.
  intros Hi. unfold axis_pts. rewrite axis_eq, linspace_nth by exact Hi.
  destruct i as [|i]; [simpl; ring|].
  rewrite (proj2 (proj2 axis_off_bounds)). field.
  change 0 with (inject_Z 0). rewrite inject_Z_injective. lia.
Qed.

Lemma axis_contained (x : Q) : In x (axis_pts l r s) -> l <= x /\ x <= r.
Proof.
  intros Hx. apply (In_nth _ _ 0) in Hx as [i [Hi <-]]. rewrite axis_length in Hi. rewrite axis_nth by exact Hi.
  destruct axis_off_bounds as [Ho [_ Hspan]].
  assert (H0 : 0 <= inject_Z (Z.of_nat i) <= inject_Z (axis_n l r s - 1)) by (rewrite <- (Zle_Qle 0), <- Zle_Qle; lia).
  nra.
Qed.

(* strictly increasing, hence without duplicates *)
Lemma axis_increasing (d : Q) (i j : nat) : (i < j)%nat -> (j < Z.to_nat (axis_n l r s))%nat ->
  nth i (axis_pts l r s) d < nth j (axis_pts l r s) d.
Proof.
  intros Hij Hj. rewrite !axis_nth by lia.
  assert (inject_Z (Z.of_nat i) < inject_Z (Z.of_nat j)) by (rewrite <- Zlt_Qlt; lia). nra.
Qed.

Lemma axis_NoDup : NoDup (axis_pts l r s).
Proof.
  apply (NoDup_nth _ 0). rewrite axis_length. intros i j Hi Hj E.
  destruct (Nat.lt_trichotomy i j) as [H|[H|H]]; [|exact H|];
    [pose proof (axis_increasing 0 i j H Hj) as L | pose proof (axis_increasing 0 j i H Hi) as L];
    rewrite E in L; destruct (Qlt_irrefl _ L).
Qed.
End Axis.

Lemma mesh_length (xs ys zs : list Q) : length (mesh xs ys zs) = (length xs * length ys * length zs)%nat.
Proof.
  rewrite <- Nat.mul_assoc, Nat.mul_shuffle3. repeat (apply flat_map_uniform_length; intros). apply map_length.
Qed.

Lemma in_mesh (xs ys zs : list Q) (x y z : Q) : In (x, y, z) (mesh xs ys zs) <-> In x xs /\ In y ys /\ In z zs.
Proof.
  split.
  - intros [y' [Hy [x' [Hx [z' [E Hz]]%in_map_iff]]%in_flat_map]]%in_flat_map. injection E as -> -> ->. auto.
  - intros [Hx [Hy Hz]]. apply in_flat_map. exists y. split; [exact Hy|]. apply in_flat_map. exists x. split; [exact Hx|].
    apply in_map_iff. exists z. auto.
Qed.

Lemma mesh_NoDup (xs ys zs : list Q) : NoDup xs -> NoDup ys -> NoDup zs -> NoDup (mesh xs ys zs).
Proof.
  intros Hx Hy Hz. apply (NoDup_flat_map _ (fun p => snd (fst p))); [exact Hy | intros y _ |].
  - apply (NoDup_flat_map _ (fun p => fst (fst p))); [exact Hx | intros x _ |].
    + apply FinFun.Injective_map_NoDup; [|exact Hz]. intros a b E. now injection E.
    + now intros x p [z [<- _]]%in_map_iff.
  - now intros y p [x [_ [z [<- _]]%in_map_iff]]%in_flat_map.
Qed.

(* order: y slowest, z fastest *)
Lemma mesh_nth (xs ys zs : list Q) (i j k : nat) : (i < length xs)%nat -> (j < length ys)%nat -> (k < length zs)%nat ->
  nth ((j * length xs + i) * length zs + k) (mesh xs ys zs) qvz = (nth i xs 0, nth j ys 0, nth k zs 0).
Proof.
  intros Hi Hj Hk. unfold mesh.
  replace ((j * length xs + i) * length zs + k)%nat with (j * (length xs * length zs) + (i * length zs + k))%nat by lia.
  rewrite (flat_map_uniform_nth _ (length xs * length zs)%nat 0); [| |exact Hj|nia].
  - now apply (table_nth (fun x z => (x, nth j ys 0, z))).
  - intros y _. apply flat_map_uniform_length. intros; apply map_length.
Qed.

(* the padded box is not inside out: on every axis lower corner - padding <= upper corner + padding *)
Definition box_ok (r1 r2 : qv) (pad : Q) : Prop :=
  let '(a1, a2, a3) := r1 in let '(b1, b2, b3) := r2 in
  a1 - pad <= b1 + pad /\ a2 - pad <= b2 + pad /\ a3 - pad <= b3 + pad.

Definition grid_axes (r1 r2 : qv) (pad s : Q) : list Q * list Q * list Q :=
  let '(a1, a2, a3) := r1 in let '(b1, b2, b3) := r2 in
  (axis_pts (a1 - pad) (b1 + pad) s, axis_pts (a2 - pad) (b2 + pad) s, axis_pts (a3 - pad) (b3 + pad) s).

Lemma rectangular_grid_some (r1 r2 : qv) (pad s : Q) : 0 < s -> box_ok r1 r2 pad ->
  rectangular_grid r1 r2 pad s = Some (let '(xs, ys, zs) := grid_axes r1 r2 pad s in mesh xs ys zs).
Proof.
  destruct r1 as [[a1 a2] a3], r2 as [[b1 b2] b3]. intros Hs [H1 [H2 H3]].
  unfold rectangular_grid, grid_axes. now rewrite !axis_some.
Qed.

Lemma d2_plain (a g : qv) :
  d2 a g == (let '(a1, a2, a3) := a in let '(g1, g2, g3) := g in
             (a1 - g1) * (a1 - g1) + (a2 - g2) * (a2 - g2) + (a3 - g3) * (a3 - g3)).
Proof.
  destruct a as [[a1 a2] a3], g as [[g1 g2] g3].
  cbv [d2 dist2 norm2 dot vsub QOps fadd fsub fmul]. now rewrite !Qred_correct.
Qed.

Lemma Qsq_nonneg (x : Q) : 0 <= x * x.
Proof. nra. Qed.

Lemma d2_nonneg (a g : qv) : 0 <= d2 a g.
Proof.
  rewrite d2_plain. destruct a as [[a1 a2] a3], g as [[g1 g2] g3].
  pose proof (Qsq_nonneg (a1 - g1)). pose proof (Qsq_nonneg (a2 - g2)). pose proof (Qsq_nonneg (a3 - g3)). lra.
Qed.

Lemma Qle_bool_spec (x y : Q) : BoolSpec (x <= y) (y < x) (Qle_bool x y).
Proof.
  destruct (Qle_bool x y) eqn:E; constructor; [now apply Qle_bool_iff|].
  apply Qnot_le_lt. rewrite <- Qle_bool_iff. congruence.
Qed.

Lemma forallb_Qle {A} (f h : A -> Q) (l : list A) :
  forallb (fun a => Qle_bool (f a) (h a)) l = true <-> forall a, In a l -> f a <= h a.
Proof. split; intros H; [intros a Ha; apply Qle_bool_iff, (proj1 (forallb_forall _ l) H a Ha) | apply forallb_forall; intros a Ha; apply Qle_bool_iff, H, Ha]. Qed.

(* what nearest_atom_index promises for one grid point: -1 when every atom is beyond the cut-off, otherwise the index
   of an atom within the cut-off that no other atom is closer than (ties may name any of the closest) *)
Definition nearest_spec (atoms : list qv) (cut : Q) (g : qv) (r : Z) : Prop :=
  (r = (-1)%Z /\ forall a, In a atoms -> cut * cut < d2 a g) \/
  (exists i, r = Z.of_nat i /\ (i < length atoms)%nat /\ d2 (nth i atoms qvz) g <= cut * cut /\
             forall a, In a atoms -> d2 (nth i atoms qvz) g <= d2 a g).

Section Nearest.
Variables (atoms : list qv) (cut : Q) (g : qv).

Lemma argmin_spec :
  match argmin g atoms with
  | None => atoms = []
  | Some (i, d) => (i < length atoms)%nat /\ d = d2 (nth i atoms qvz) g /\ forall a, In a atoms -> d <= d2 a g
  end.
Proof.
  induction atoms as [|a r IH]; simpl; [reflexivity|].
  destruct (argmin g r) as [[i d]|].
  - destruct IH as [Hi [Hd Hmin]].
    (* either the head or the old minimum: index by lia, value by definition, minimality from the comparison *)
    destruct (Qle_bool_spec (d2 a g) d) as [E|L]; (split; [lia|]); (split; [easy|]); intros b [<-|Hb%Hmin]; lra.
  - subst r. split; [lia|]. split; [reflexivity|]. intros b [<-|[]]. lra.
Qed.

Theorem nearest_correct : nearest_spec atoms cut g (nearest atoms cut g).
Proof.
  unfold nearest, nearest_spec. pose proof argmin_spec as H.
  destruct (argmin g atoms) as [[i d]|].
  - destruct H as [Hi [-> Hmin]]. destruct (Qle_bool_spec (d2 (nth i atoms qvz) g) (cut * cut)) as [E|L].
    + right. exists i. auto.
    + left. split; [reflexivity|]. intros a Ha%Hmin. lra.
  - rewrite H. left. split; [reflexivity|]. intros a [].
Qed.

End Nearest.

Lemma filter_idx_from_spec {A} (p : A -> bool) (d : A) (l : list A) : forall (k i : Z),
  In i (filter_idx_from p k l) <-> exists j, i = (k + Z.of_nat j)%Z /\ (j < length l)%nat /\ p (nth j l d) = true.
Proof.
  induction l as [|x l IH]; intros k i; simpl; [split; [intros [] | intros [j [_ [H _]]]; inversion H]|].
  (* membership in the tail, with positions counted from the head *)
  assert (T : In i (filter_idx_from p (k + 1) l) <->
              exists j, i = (k + Z.of_nat (S j))%Z /\ (j < length l)%nat /\ p (nth j l d) = true).
  { assert (Z1 : forall j, (k + 1 + Z.of_nat j = k + Z.of_nat (S j))%Z) by (intros; lia).
    rewrite IH. split; intros [j [-> H]]; exists j; (split; [|exact H]); [|symmetry]; apply Z1. }
  split.
  - intros H. assert (H' : i = k /\ p x = true \/ In i (filter_idx_from p (k + 1) l)) by (destruct (p x); [destruct H as [<-|H]|]; auto).
    destruct H' as [[-> E]|[j [-> [Hj Hp]]]%T]; [exists O; rewrite Z.add_0_r | exists (S j)]; auto with arith.
  - intros [[|j] [-> [Hj Hp]]].
    + rewrite Hp, Z.add_0_r. now left.
    + assert (H : In (k + Z.of_nat (S j))%Z (filter_idx_from p (k + 1) l)) by (apply T; exists j; auto with arith).
      destruct (p x); [right|]; exact H.
Qed.

Lemma filter_idx_from_increasing {A} (p : A -> bool) (l : list A) : forall k lo, (lo <= k)%Z ->
  increasing_from lo (filter_idx_from p k l) = true.
Proof.
  induction l as [|x l IH]; intros k lo Hk; simpl; [reflexivity|].
  destruct (p x); simpl; rewrite IH; lia.
Qed.

Lemma within_iff (atoms : list qv) (t : Q) (g : qv) : within atoms t g = true <-> exists a, In a atoms /\ d2 a g <= t.
Proof. unfold within. rewrite existsb_exists. now setoid_rewrite Qle_bool_iff. Qed.

Lemma memZ_iff (x : Z) (l : list Z) : memZ x l = true <-> In x l.
Proof.
  induction l as [|y l IH]; simpl; [split; [discriminate | intros []]|].
  rewrite orb_true_iff, IH, Z.eqb_eq. split; intros [H|H]; auto.
Qed.

Lemma combine_seq_nth {A} (d : A) (l : list A) : forall k j, (j < length l)%nat ->
  In (Z.of_nat (k + j), nth j l d) (combine (map Z.of_nat (seq k (length l))) l).
Proof.
  induction l as [|x l IH]; intros k [|j] Hj; simpl in *; try lia.
  - left. now rewrite Nat.add_0_r.
  - right. rewrite <- Nat.add_succ_comm. apply IH. lia.
Qed.

Lemma inside_iff (atoms : list qv) (radii : list Q) (g : qv) :
  inside atoms radii g = true <-> exists a r, In (a, r) (combine atoms radii) /\ d2 a g <= r * r.
Proof.
  unfold inside. rewrite existsb_exists. setoid_rewrite Qle_bool_iff.
  split; [intros [[a r] H]; exists a, r | intros [a [r H]]; exists (a, r)]; exact H.
Qed.

Lemma qsum_plain (l : list Q) : qsum l == fold_right Qplus 0 l.
Proof. induction l as [|x l IH]; cbn [qsum fold_right]; [reflexivity|]. now rewrite Qred_correct, <- IH. Qed.

(* sum_c w_c * x_c over the common prefix: the numerator of the weighted np.average *)
Fixpoint dotw (w x : list Q) : Q := match w, x with a :: w', b :: x' => a * b + dotw w' x' | _, _ => 0 end.
Lemma qsum_zipmul (w x : list Q) : qsum (zipmul w x) == dotw w x.
Proof.
  revert x. induction w as [|a w IH]; intros [|b x]; cbn [zipmul dotw qsum fold_right]; try reflexivity.
  now rewrite !Qred_correct, <- IH.
Qed.

(* np.average: the plain mean, resp. sum_c w_c x_c / sum_c w_c *)
Theorem average_spec (w : option (list Q)) (xs : list Q) :
  average w xs == match w with
                  | None => fold_right Qplus 0 xs / inject_Z (Z.of_nat (length xs))
                  | Some ws => dotw ws xs / fold_right Qplus 0 ws
                  end.
Proof. destruct w as [ws|]; simpl; now rewrite ?qsum_zipmul, qsum_plain. Qed.

Lemma sum_b2q {A} (f : A -> bool) (l : list A) :
  fold_right Qplus 0 (map (fun x => b2q (f x)) l) == inject_Z (Z.of_nat (length (filter f l))).
Proof.
  induction l as [|x l IH]; cbn [map fold_right filter]; [reflexivity|]. rewrite IH.
  destruct (f x); cbn [b2q length]; [|ring]. rewrite Nat2Z.inj_succ, <- Z.add_1_l, inject_Z_plus. reflexivity.
Qed.

Theorem aso_length (ens : list (list qv)) (radii : list Q) (w : option (list Q)) (grid : list qv) :
  length (aso ens radii w grid) = length grid.
Proof. apply map_length. Qed.

Theorem aso_nth (ens : list (list qv)) (radii : list Q) (w : option (list Q)) (grid : list qv) (k : nat) :
  (k < length grid)%nat ->
  nth k (aso ens radii w grid) 0 = average w (map (fun atoms => b2q (inside atoms radii (nth k grid qvz))) ens).
Proof. apply (map_nth_lt (fun g => average w (map (fun atoms => b2q (inside atoms radii g)) ens))). Qed.

Lemma aif_from_length ens radii values idx w (grid : list qv) : forall k0, length (aif_from ens radii values idx w k0 grid) = length grid.
Proof. induction grid as [|g r IH]; intros k0; simpl; [reflexivity | now rewrite IH]. Qed.

Lemma aif_from_nth ens radii values idx w (grid : list qv) : forall k0 k, (k < length grid)%nat ->
  nth k (aif_from ens radii values idx w k0 grid) 0 = average w (field_rows ens radii values idx (k0 + k) (nth k grid qvz)).
Proof.
  induction grid as [|g r IH]; intros k0 [|k] Hk; simpl in *; try lia.
  - now rewrite Nat.add_0_r.
  - rewrite IH by lia. now rewrite Nat.add_succ_comm.
Qed.

(* conformer c contributes field_value of ITS atoms, values and index row *)
Lemma field_rows_nth (radii : list Q) (k : nat) (g : qv) (ens : list (list qv)) : forall (values : list (list Q)) (idx : list (list Z)) (c : nat),
  (c < length ens)%nat -> (c < length values)%nat -> (c < length idx)%nat ->
  nth c (field_rows ens radii values idx k g) 0 =
  field_value (nth c ens []) radii (nth c values []) (nth k (nth c idx []) (-1)%Z) g.
Proof.
  induction ens as [|atoms ens IH]. intros values idx c H1; inversion H1.
  intros [|v values]. intros idx c _ H2; inversion H2.
  intros [|ix idx]. intros c _ _ H3; inversion H3.
  intros [|c] H1 H2 H3. reflexivity.
  apply (IH values idx c); now apply Nat.succ_lt_mono.
Qed.

Lemma field_rows_length (radii : list Q) (k : nat) (g : qv) (ens : list (list qv)) : forall (values : list (list Q)) (idx : list (list Z)),
  length values = length ens -> length idx = length ens -> length (field_rows ens radii values idx k g) = length ens.
Proof.
  induction ens as [|atoms ens IH]; intros [|v values] [|ix idx] H1 H2; try discriminate; [reflexivity|].
  simpl. f_equal. apply IH; [now injection H1 | now injection H2].
Qed.

(* With the cut-off at least every radius, a point inside the union always has a named nearest atom: the value is
   the value (partial charge) of a closest atom inside the van der Waals union and 0 outside. *)
Theorem field_value_spec (atoms : list qv) (radii values : list Q) (cut : Q) (g : qv) (r : Z) :
  (forall a rad, In (a, rad) (combine atoms radii) -> 0 <= rad /\ rad <= cut) ->
  nearest_spec atoms cut g r ->
  field_value atoms radii values r g = (if inside atoms radii g then nth (Z.to_nat r) values 0 else 0) /\
  (inside atoms radii g = true -> (0 <= r)%Z).
Proof.
  intros Hrad Hn. unfold field_value.
  destruct (inside atoms radii g) eqn:E; [|easy].
  apply inside_iff in E as [a [rad [Hin Hd]]]. destruct (Hrad a rad Hin) as [H0 H1].
  destruct Hn as [[_ Hfar]|[i [-> _]]].
  - specialize (Hfar a (in_combine_l _ _ _ _ Hin)). nra.
  - replace (0 <=? Z.of_nat i)%Z with true by lia. split; [reflexivity | lia].
Qed.

(* np.linspace raises ValueError for a negative number of samples (modelled as None); zero samples give the empty axis *)
Lemma axis_none (l r s : Q) : axis l r s = None <-> (axis_n l r s < 0)%Z.
Proof. unfold axis. destruct (axis_n l r s <? 0)%Z eqn:E; split; intros H; try discriminate; try reflexivity; lia. Qed.

Lemma chunks_fuel_nil {A} (fuel step : nat) : @chunks_fuel A fuel step [] = [].
Proof. destruct fuel; reflexivity. Qed.

(* the blocks cover the list; there are ceil(length / step) of them: the partial last block counts; none is empty
   or longer than step *)
Lemma chunks_fuel_spec {A} (step : nat) : (0 < step)%nat ->
  forall fuel (l : list A), (length l <= fuel)%nat ->
  concat (chunks_fuel fuel step l) = l /\
  length (chunks_fuel fuel step l) = ((length l + (step - 1)) / step)%nat /\
  Forall (fun b => b <> [] /\ (length b <= step)%nat) (chunks_fuel fuel step l).
Proof.
  intros Hs. induction fuel as [|f IH]; intros [|x l'] Hl; try (simpl in Hl; lia);
    try (repeat split; [symmetry; apply Nat.div_small; simpl; lia | constructor]).
  destruct (IH (skipn step (x :: l'))) as [E [N B]]; [rewrite skipn_length; cbn [length] in *; lia|].
  cbn [chunks_fuel concat length]. rewrite E, N, skipn_length. cbn [length]. set (n := S (length l')).
  split; [apply firstn_skipn|]. split.
  - destruct (Nat.le_gt_cases n step) as [Hle|Hgt].
    + replace (n - step)%nat with O by lia. rewrite Nat.div_small by lia.
      apply (Nat.div_unique _ _ 1 (n - 1)); lia.
    + replace (n + (step - 1))%nat with ((n - step + (step - 1)) + 1 * step)%nat by lia.
      rewrite Nat.div_add by lia. lia.
  - constructor; [|exact B]. split; [destruct step; [lia | discriminate] | apply firstn_le_length].
Qed.

Theorem chunks_concat {A} (step : nat) (l : list A) : (0 < step)%nat -> concat (chunks step l) = l.
Proof. intros Hs. now apply chunks_fuel_spec. Qed.

(* every descriptor distributes over concatenation of grids: aso and nearest are maps ... *)
Lemma aso_blocks_concat ens radii w (blocks : list (list qv)) : aso_blocks ens radii w blocks = aso ens radii w (concat blocks).
Proof. apply flat_map_map_concat. Qed.

Lemma nearest_blocks_concat atoms cut (blocks : list (list qv)) :
  nearest_blocks atoms cut blocks = map (nearest atoms cut) (concat blocks).
Proof. apply flat_map_map_concat. Qed.

(* ... prune and the indicator field carry the position of the block in the grid *)
Lemma filter_idx_from_app {A} (p : A -> bool) (l1 l2 : list A) : forall i,
  filter_idx_from p i (l1 ++ l2) = filter_idx_from p i l1 ++ filter_idx_from p (i + Z.of_nat (length l1)) l2.
Proof.
  induction l1 as [|x l1 IH]; intros i; [simpl; now rewrite Z.add_0_r|].
  cbn [app filter_idx_from length]. rewrite IH, <- Z.add_assoc, Z.add_1_l, <- Nat2Z.inj_succ. now destruct (p x).
Qed.

Lemma prune_blocks_concat (q : qv -> bool) (blocks : list (list qv)) : forall off,
  prune_blocks q off blocks = filter_idx_from q off (concat blocks).
Proof.
  induction blocks as [|b r IH]; intros off; [reflexivity|].
  cbn [prune_blocks concat]. now rewrite filter_idx_from_app, IH.
Qed.

Lemma aif_from_app ens radii values idx w (g1 g2 : list qv) : forall k,
  aif_from ens radii values idx w k (g1 ++ g2) =
  aif_from ens radii values idx w k g1 ++ aif_from ens radii values idx w (k + length g1) g2.
Proof.
  induction g1 as [|g g1 IH]; intros k; [simpl; now rewrite Nat.add_0_r|].
  cbn [app aif_from length]. now rewrite IH, Nat.add_succ_comm.
Qed.

Lemma aif_blocks_concat ens radii values idx w (blocks : list (list qv)) : forall k,
  aif_blocks ens radii values idx w k blocks = aif_from ens radii values idx w k (concat blocks).
Proof.
  induction blocks as [|b r IH]; intros k; [reflexivity|].
  cbn [aif_blocks concat]. now rewrite aif_from_app, IH.
Qed.

Lemma mesh_at_correct (xs ys zs : list Q) (n : nat) : (n < length (mesh xs ys zs))%nat ->
  mesh_at xs ys zs (Z.of_nat n) = Some (nth n (mesh xs ys zs) qvz).
Proof.
  rewrite mesh_length. intros Hn. unfold mesh_at.
  assert (Hz : length zs <> O) by nia. assert (Hx : length xs <> O) by nia.
  replace (_ && _)%bool with true by nia.
  rewrite <- !Nat2Z.inj_div, <- !Nat2Z.inj_mod, !Nat2Z.id.
  (* n = (j * nx + i) * nz + k with k = n mod nz, i = (n / nz) mod nx, j = n / nz / nx *)
  rewrite <- mesh_nth.
  - now rewrite (Nat.mul_comm _ (length xs)), <- Nat.div_mod_eq, Nat.mul_comm, <- Nat.div_mod_eq.
  - apply Nat.mod_upper_bound, Hx.
  - repeat apply Nat.div_lt_upper_bound; trivial. nia.
  - apply Nat.mod_upper_bound, Hz.
Qed.

