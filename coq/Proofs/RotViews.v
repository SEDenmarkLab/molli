(* C11, Model/RotViews.v: what one edit, a whole session of edits, and a translate / transform through a collected
   conformer handle do to the ensemble. *)
From Coq Require Import Reals List.
From Molli Require Import Common.Field3 Common.Field3R Model.Rot Model.RotEns Model.RotViews Proofs.Rot Proofs.RotMotion.
Import ListNotations.
Local Open Scope R_scope.

(* an edit through the handle taken for conformer k: conformer k gets f, every other conformer is untouched *)
Theorem view_apply_frame (k : nat) (f : list vecR -> list vecR) (E : list (list vecR)) :
  length (view_apply k f E) = length E /\
  forall c, (c < length E)%nat -> nth c (view_apply k f E) [] = if Nat.eqb k c then f (nth c E []) else nth c E [].
Proof.
  split; [apply update_rows_length|]. intros c Hc. unfold view_apply. now apply update_rows_nth.
Qed.

(* a whole session (handles collected first, edits in any order, any number of other handles produced in between):
   conformer c ends up as the edits whose handle was taken for c, applied in order, to conformer c -- nothing else *)
Theorem view_edits_per_conformer (edits : list (nat * (list vecR -> list vecR))) :
  forall (E : list (list vecR)) (c : nat), (c < length E)%nat ->
  length (view_edits edits E) = length E /\
  nth c (view_edits edits E) [] = fold_left (fun X f => f X) (edits_on c edits) (nth c E []).
Proof.
  induction edits as [|[k f] r IH]; intros E c Hc; [split; reflexivity|].
  destruct (view_apply_frame k f E) as [HL HN].
  unfold view_edits, edits_on in *. cbn [fold_left fst snd filter].
  destruct (IH (view_apply k f E) c) as [IL IN]; [rewrite HL; exact Hc|].
  split; [now rewrite IL, HL|]. rewrite IN, HN by exact Hc.
  destruct (Nat.eqb k c); reflexivity.
Qed.

Lemma edits_on_none (edits : list (nat * (list vecR -> list vecR))) (c : nat) :
  (forall e, In e edits -> fst e <> c) -> edits_on c edits = [].
Proof.
  unfold edits_on. induction edits as [|e r IH]; intros Hno; [reflexivity|]. cbn [filter].
  destruct (Nat.eqb (fst e) c) eqn:Ek.
  - apply Nat.eqb_eq in Ek. exfalso. apply (Hno e); [now left | exact Ek].
  - apply IH. intros e' He'. apply Hno. now right.
Qed.
(* translate / transform through the handle of conformer k, on the conformer itself (fw) or on a substructure of it
   (fs, by selector): within conformer k the selected rows move rigidly and the others stay; every other conformer is
   untouched *)
Theorem view_edit_effect (k : nat) (idx : option (list nat)) (fw : list vecR -> list vecR)
        (fs : (nat -> bool) -> list vecR -> list vecR) (E : list (list vecR)) :
  (forall X, same_shape X (fw X)) ->
  (forall sel X, moved_rigidly sel X (fs sel X)) ->
  (k < length E)%nat ->
  let sel i := match idx with None => true | Some l => in_idx l i end in
  let E' := view_apply k (match idx with None => fw | Some l => fs (in_idx l) end) E in
  length E' = length E /\
  (forall c, (c < length E)%nat -> c <> k -> nth c E' [] = nth c E []) /\
  moved_rigidly sel (nth k E []) (nth k E' []).
Proof.
  intros Hw Hs Hk sel E'. destruct (view_apply_frame k (match idx with None => fw | Some l => fs (in_idx l) end) E) as [HL HN].
  split; [exact HL|]. split.
  - intros c Hc Hne. unfold E'. rewrite HN by exact Hc. destruct (Nat.eqb_spec k c); [congruence | reflexivity].
  - unfold E'. rewrite HN, Nat.eqb_refl by exact Hk. destruct idx as [l|]; cbn [sel]; [apply Hs|].
    split; [|discriminate]. apply (same_shape_on_impl _ (fun _ => True)); [trivial | apply Hw].
Qed.
