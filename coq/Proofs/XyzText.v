(* C08 and the xyz half of C10, in two parts.  First: what the xyz WRITER model emits is well formed for the reader
   (`write_xyz_wf`, so Proofs/Parse.v applies); hence the round trip and the damage theorems on written texts.
   Second, from `sevalR` on: the unit-scaling law over R; only this part needs Reals, which is required there. *)
From Coq Require Import List Bool Arith NArith ZArith QArith Ascii String Lia.
From Molli Require Import Common.ParseStr Common.ParseStrFacts Common.ListFacts Model.Parse Model.XyzText Proofs.Parse.
Import ListNotations.
Local Open Scope char_scope.
Local Open Scope list_scope.

(* the conditions on the element table, decided by computation on Gen/XyzElements.v (C08_vocabulary) *)
Definition tokb (s : str) : bool := match s with [] => false | _ => forallb nonws s end.
Lemma tokb_tok s : tokb s = true -> tok s.
Proof. destruct s; [discriminate|]. intros H. split; [discriminate|exact H]. Qed.

Definition optZ_eqb (a b : option Z) : bool :=
  match a, b with Some x, Some y => (x =? y)%Z | None, None => true | _, _ => false end.

(* every symbol is one token, is not the dummy marker "*", and Element.get(symbol) gives the element back *)
Definition sym_ok (names : list (str * Z)) (p : Z * str) : bool :=
  tokb (snd p) && negb (str_eqb (snd p) star) && optZ_eqb (elem_of_name names (capitalize (snd p))) (Some (fst p)).
Definition vocab_ok (names : list (str * Z)) (syms : list (Z * str)) : bool := forallb (sym_ok names) syms.

Lemma assoc_Z_in {B} z (t : list (Z * B)) v : assoc_Z z t = Some v -> In (z, v) t.
Proof.
  induction t as [|[k w] t IH]; [discriminate|]. simpl. destruct (Z.eqb_spec z k) as [->|Hne].
  - intros H. injection H as ->. now left.
  - intros H. right. now apply IH.
Qed.
Lemma vocab_ok_sym names syms z s : vocab_ok names syms = true -> symbol_of syms z = Some s ->
  tok s /\ xyz_elem (elem_of_name names) s = Some z.
Proof.
  intros Hv Hs. apply assoc_Z_in in Hs. unfold vocab_ok in Hv. rewrite forallb_forall in Hv. apply Hv in Hs.
  unfold sym_ok in Hs. cbn [fst snd] in Hs. rewrite !andb_true_iff, negb_true_iff in Hs. destruct Hs as [[H1 H2] H3].
  split; [now apply tokb_tok|]. unfold xyz_elem. rewrite H2.
  destruct (elem_of_name names (capitalize s)) as [z'|]; [|discriminate]. apply Z.eqb_eq in H3. now subst.
Qed.

Lemma map_opt_Forall2 {A B} (f : A -> option B) l : forall r, map_opt f l = Some r -> Forall2 (fun y x => f x = Some y) r l.
Proof.
  induction l as [|x l IH]; intros r H; simpl in H; [injection H as <-; constructor|].
  destruct (f x) eqn:E; [|discriminate]. destruct (map_opt f l); [|discriminate]. injection H as <-. constructor; auto.
Qed.
Lemma map_opt_total {A B} (f : A -> option B) l : Forall (fun x => f x <> None) l -> map_opt f l <> None.
Proof.
  induction 1 as [|x l Hx _ IH]; simpl; [discriminate|]. destruct (f x); [|contradiction].
  destruct (map_opt f l); [discriminate|contradiction].
Qed.

Lemma split_ljust w t s : tok t -> split (ljust w t ++ " " :: s) = t :: split s.
Proof.
  intros Ht. unfold ljust. rewrite <- app_assoc.
  destruct (w - List.length t)%nat as [|k]; simpl; rewrite split_tok_sep by trivial; [reflexivity|].
  now rewrite split_ws by apply blanks_ws.
Qed.
Lemma split_rjust w t s : tok t -> split (rjust w t ++ " " :: s) = t :: split s.
Proof. intros Ht. unfold rjust. rewrite <- app_assoc, split_ws by apply blanks_ws. now apply split_tok_sep. Qed.
Lemma split_rjust_end w t : tok t -> split (rjust w t) = [t].
Proof. intros Ht. unfold rjust. rewrite split_ws by apply blanks_ws. now apply split_tok_end. Qed.

Lemma atom_line_tokens sym a : tok sym ->
  split (atom_line sym a) = [sym; print_dec6 (fst (wa_x a)) (snd (wa_x a)); print_dec6 (fst (wa_y a)) (snd (wa_y a));
                             print_dec6 (fst (wa_z a)) (snd (wa_z a))].
Proof.
  intros Hs. unfold atom_line, fmt12. now rewrite split_ljust, !split_rjust, split_rjust_end by auto using print_dec6_tok.
Qed.

Lemma xyz_atom_line sym a : tok sym ->
  xyz_atom (atom_line sym a) = Some (mk_xatom sym (dec_val (wa_x a)) (dec_val (wa_y a)) (dec_val (wa_z a))).
Proof. intros Hs. unfold xyz_atom. now rewrite atom_line_tokens, !parse_float_print_dec6. Qed.

Lemma write_atom_some syms a l : write_atom syms a = Some l ->
  exists s, symbol_of syms (wa_elem a) = Some s /\ l = atom_line s a.
Proof. unfold write_atom. destruct (symbol_of syms (wa_elem a)) as [s|]; [|discriminate]. intros H. injection H as <-. now exists s. Qed.
Lemma write_atoms_wf names syms atoms ls : vocab_ok names syms = true -> map_opt (write_atom syms) atoms = Some ls ->
  exists xs, Forall2 (fun l a => xyz_atom l = Some a) ls xs /\
             map_opt (fun a => xyz_elem (elem_of_name names) (xa_sym a)) xs = Some (map wa_elem atoms) /\
             map (fun a => (xa_x a, xa_y a, xa_z a)) xs =
             map (fun a => (dec_val (wa_x a), dec_val (wa_y a), dec_val (wa_z a))) atoms.
Proof.
  intros Hv H. apply map_opt_Forall2 in H. induction H as [|l a ls atoms Ha _ (xs & H1 & H3 & H4)].
  - exists []. repeat split; constructor.
  - apply write_atom_some in Ha. destruct Ha as (s & Es & ->). destruct (vocab_ok_sym _ _ _ _ Hv Es) as [Ht He].
    eexists (_ :: xs). split; [constructor; [now apply xyz_atom_line|exact H1]|]. simpl. now rewrite He, H3, H4.
Qed.

Lemma write_geom_wf (P : str -> Prop) names syms g ls : vocab_ok names syms = true -> P (wg_name g) ->
  write_geom syms g = Some ls ->
  exists b, xwf P b ls /\ xyz_build true (elem_of_name names) b = Ok (geom_mol g).
Proof.
  intros Hv HP H. unfold write_geom in H. destruct (map_opt (write_atom syms) (wg_atoms g)) as [als|] eqn:E; [|discriminate].
  injection H as <-. destruct (write_atoms_wf names syms _ als Hv E) as (xs & H1 & H3 & H4).
  exists (mk_xblock (Z.of_nat (List.length (wg_atoms g))) (strip (wg_name g)) xs). split.
  - constructor; [now rewrite parse_int_print_N, nat_N_Z| |exact H1|exact HP].
    now rewrite <- (Forall2_length H1), (map_opt_length _ _ _ E).
  - unfold xyz_build. cbn [xb_n xb_atoms]. rewrite H3, H4, andb_false_r.
    now destruct (Z.ltb_spec (Z.of_nat (List.length (wg_atoms g))) 0); [lia|].
Qed.

Lemma write_xyz_wf (P : str -> Prop) names syms gs ls : vocab_ok names syms = true -> Forall (fun g => P (wg_name g)) gs ->
  write_xyz syms gs = Some ls ->
  exists bs, xwf_text P bs ls /\ all_ok (map (xyz_build true (elem_of_name names)) bs) = Ok (map geom_mol gs).
Proof.
  intros Hv HP H. unfold write_xyz in H. destruct (map_opt (write_geom syms) gs) as [lss|] eqn:E; [|discriminate].
  injection H as <-. apply map_opt_Forall2 in E. induction E as [|l g lss gs Hg _ IH].
  - exists []. split; constructor.
  - inversion HP as [|? ? Pg Pgs]; subst. destruct (IH Pgs) as (bs & H3 & H4).
    destruct (write_geom_wf P names syms g l Hv Pg Hg) as (b & H5 & H6).
    exists (b :: bs). split; [now constructor|]. simpl. now rewrite H6, H4.
Qed.

Lemma write_xyz_total syms gs :
  Forall (fun g => Forall (fun a => symbol_of syms (wa_elem a) <> None) (wg_atoms g)) gs -> write_xyz syms gs <> None.
Proof.
  intros H. unfold write_xyz. destruct (map_opt (write_geom syms) gs) eqn:E; [discriminate|]. exfalso. revert E.
  apply map_opt_total. eapply Forall_impl; [|exact H]. intros g Hg. unfold write_geom.
  destruct (map_opt (write_atom syms) (wg_atoms g)) eqn:E; [discriminate|]. exfalso. revert E.
  apply map_opt_total. eapply Forall_impl; [|exact Hg]. intros a Ha. cbn beta in Ha. unfold write_atom.
  now destruct (symbol_of syms (wa_elem a)).
Qed.

Lemma any_names gs : Forall (fun g => any_comment (wg_name g)) gs.
Proof. apply Forall_forall. intros; exact I. Qed.

Theorem xyz_roundtrip names syms gs ls : vocab_ok names syms = true -> write_xyz syms gs = Some ls ->
  load_xyz names ls = Ok (map geom_mol gs).
Proof.
  intros Hv H. destruct (write_xyz_wf any_comment names syms gs ls Hv (any_names gs) H) as (bs & H1 & H2).
  unfold load_xyz, load_xyz_lines, res_bind. now rewrite (read_xyz_wf _ bs ls H1).
Qed.

(* one entry of a session: if something was written, the expected molecules exist and the text reads back as them *)
Definition reads_back names (out : option (list str)) (exp : option (list mol)) : Prop :=
  forall ls, out = Some ls -> exists ms, exp = Some ms /\ load_xyz names ls = Ok ms.
(* a write of these geometries, or no write at all, reads back as them: the step of every session theorem *)
Lemma write_reads_back names syms (og : option (list wgeom)) : vocab_ok names syms = true ->
  reads_back names (match og with Some gs => write_xyz syms gs | None => None end) (option_map (map geom_mol) og).
Proof.
  intros Hv ls H. destruct og as [gs|]; [|discriminate]. eexists. split; [reflexivity|]. now apply (xyz_roundtrip names syms).
Qed.

Lemma frame_elems e f : List.length f = List.length (we_elems e) -> m_elems (geom_mol (frame_geom e f)) = we_elems e.
Proof.
  intros H. unfold geom_mol, frame_geom. cbn [m_elems wg_atoms]. rewrite map_map. cbn [wa_elem].
  revert f H. induction (we_elems e) as [|z zs IH]; intros f H; [reflexivity|].
  destruct f as [|p f]; [discriminate|]. simpl. f_equal. apply IH. simpl in H. lia.
Qed.

(* damaged written texts: the instances of the Proofs/Parse.v theorems that Props/C10.v states *)
Definition name_ok (g : wgeom) : Prop := parse_int (wg_name g) = None.

Theorem written_xyz_truncated names syms gs ls : vocab_ok names syms = true -> write_xyz syms gs = Some ls -> forall k,
  (exists e, load_xyz names (firstn k ls) = Err e) \/ (exists j, load_xyz names (firstn k ls) = Ok (firstn j (map geom_mol gs))).
Proof.
  intros Hv H. destruct (write_xyz_wf any_comment names syms gs ls Hv (any_names gs) H) as (bs & H1 & _).
  apply (load_xyz_truncated any_comment true _ bs ls _ H1). now apply (xyz_roundtrip names syms).
Qed.
Theorem written_xyz_deleted names syms gs ls i : vocab_ok names syms = true -> Forall name_ok gs ->
  write_xyz syms gs = Some ls -> (i < List.length ls)%nat -> exists e, load_xyz names (del_nth i ls) = Err e.
Proof.
  intros Hv Hn H Hi. destruct (write_xyz_wf comment_ok names syms gs ls Hv Hn H) as (bs & H1 & _).
  now apply (load_xyz_deleted true _ bs).
Qed.
Theorem written_xyz_duplicated names syms gs ls i : vocab_ok names syms = true -> Forall name_ok gs ->
  write_xyz syms gs = Some ls -> (i < List.length ls)%nat -> exists e, load_xyz names (dup_nth i ls) = Err e.
Proof.
  intros Hv Hn H Hi. destruct (write_xyz_wf comment_ok names syms gs ls Hv Hn H) as (bs & H1 & _).
  now apply (load_xyz_duplicated true _ bs).
Qed.

From Coq Require Import Reals Qreals Lra.
Local Open Scope R_scope.

Definition sevalR : sexpr -> R -> R := seval Rmult Rdiv Q2R.
Definition read_coordR : sexpr -> bool -> R -> R -> R := read_coord Rmult Rdiv Q2R.

Lemma Q2R_Qred q : Q2R (Qred q) = Q2R q.
Proof. apply Qeq_eqR. apply Qred_correct. Qed.
Lemma Q2R_one : Q2R 1 = 1.
Proof. unfold Q2R. simpl. lra. Qed.
Lemma Q2R_nonzero q : ~ (q == 0)%Q -> Q2R q <> 0.
Proof. intros H E. apply H, eqR_Qeq. rewrite E. unfold Q2R. simpl. lra. Qed.
Lemma Qeq_bool_false_neq a b : Qeq_bool a b = false -> ~ (a == b)%Q.
Proof. intros H E. apply Qeq_bool_iff in E. congruence. Qed.

(* the normal form is the value: e evaluates to k v^a / v^b *)
Lemma snorm_sound e v : v <> 0 ->
  match snorm e with Some (k, a, b) => sevalR e v = Q2R k * v ^ a / v ^ b | None => True end.
Proof.
  intros Hv. pose proof (pow_nonzero v) as Hp. unfold sevalR.
  induction e as [|q|x IHx y IHy|x IHx y IHy|x IHx]; cbn [snorm seval].
  - rewrite Q2R_one. simpl. field.
  - simpl. field.
  - destruct (snorm x) as [[[k1 a1] b1]|]; [|exact I]. destruct (snorm y) as [[[k2 a2] b2]|]; [|exact I].
    rewrite IHx, IHy, Q2R_Qred, Q2R_mult, !pow_add. field. auto.
  - destruct (snorm x) as [[[k1 a1] b1]|]; [|exact I]. destruct (snorm y) as [[[k2 a2] b2]|]; [|exact I].
    destruct (Qeq_bool k2 0) eqn:Ek; [exact I|]. apply Qeq_bool_false_neq in Ek.
    rewrite IHx, IHy, Q2R_Qred, Q2R_div, !pow_add by exact Ek. field. auto using Q2R_nonzero.
  - destruct (snorm x) as [[[k1 a1] b1]|]; [|exact I]. destruct (Qeq_bool k1 0) eqn:Ek; [exact I|].
    apply Qeq_bool_false_neq in Ek. rewrite IHx, Q2R_Qred, Q2R_div, Q2R_one by exact Ek. field. auto using Q2R_nonzero.
Qed.

(* the extracted expression is 1/value: scaling by it undoes "expressed in that unit" *)
Lemma scale_ok_inverse e v : scale_ok e = true -> v <> 0 -> sevalR e v * v = 1.
Proof.
  unfold scale_ok. intros H Hv. pose proof (snorm_sound e v Hv) as S. destruct (snorm e) as [[[k a] b]|]; [|discriminate].
  apply andb_prop in H. destruct H as [Hk Hb]. apply Qeq_bool_iff in Hk. apply Nat.eqb_eq in Hb. subst b.
  rewrite S, (Qeq_eqR _ _ Hk), Q2R_one. simpl. field. auto using pow_nonzero.
Qed.

(* a coordinate c (Angstrom) written in the unit of the row (c * units-per-Angstrom) is read back as c *)
Theorem units_law e (r : unit_row) : row_ok e r = true -> forall c : R,
  read_coordR e (snd r) (Q2R (snd (fst r))) (Q2R (snd (fst r)) * c) = c.
Proof.
  destruct r as [[nm v] ang]. unfold row_ok, read_coordR, read_coord. simpl. intros H c. destruct ang.
  - apply Qeq_bool_iff in H. rewrite (Qeq_eqR _ _ H), Q2R_one. ring.
  - apply andb_prop in H. destruct H as [Hs Hv]. apply negb_true_iff, Qeq_bool_false_neq, Q2R_nonzero in Hv.
    rewrite <- Rmult_assoc. fold (sevalR e (Q2R v)). rewrite (scale_ok_inverse e _ Hs Hv). ring.
Qed.
