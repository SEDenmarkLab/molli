(* C03: ANY NUMBER of crashing sessions in a row.  Each session reopens the file for append (which cuts a torn
   tail back), writes the blocks of its puts and dies after an arbitrary number of bytes; the next session
   starts from whatever bytes that left.  The bytes are the model's own (open_ on the real crash bytes), not
   a re-idealised image: chain iterates  f |-> fst (open_ (f ++ firstn n (blocks ps)) h0 MA). *)
From Coq Require Import NArith List.
Import ListNotations.
Open Scope N_scope.
From Molli Require Import Model.UKV Proofs.UKVBase Proofs.UKV.

(* one crashing session on the file f: recovery by a fresh handle opened for append happens at the START of the
   next session, so the bytes a session leaves are  (recovered f) ++ firstn n (blocks ps) *)
Definition die_after (f : bytes) (ps : list kv) (n : nat) : bytes := f ++ firstn n (blocks ps).
Definition recover (f : bytes) : bytes := fst (open_ f h0 MA).

Fixpoint chain (f : bytes) (ss : list (list kv * nat)) : bytes :=
  match ss with
  | [] => f
  | (ps, n) :: ss' => chain (recover (die_after f ps n)) ss'
  end.

(* the records a chain of crashes leaves visible: per session the puts wholly inside its first n bytes *)
Fixpoint chain_records (rs : list kv) (ss : list (list kv * nat)) : list kv :=
  match ss with
  | [] => rs
  | (ps, n) :: ss' => chain_records (rs ++ complete n ps) ss'
  end.

Definition all_puts (ss : list (list kv * nat)) : list kv := concat (map fst ss).

Lemma chain_cons H rs ps n ss :
  chain (H ++ blocks rs) ((ps, n) :: ss) = chain (fst (open_ (crash_image H rs ps n) h0 MA)) ss.
Proof. simpl. unfold recover, die_after, crash_image. rewrite <- app_assoc. reflexivity. Qed.

Lemma chain_records_prefix rs ss : exists qs, chain_records rs ss = rs ++ qs.
Proof.
  revert rs. induction ss as [|[ps n] ss IH]; intros rs; simpl.
  - apply ext_refl.
  - destruct (IH (rs ++ complete n ps)) as [qs E]. exists (complete n ps ++ qs). rewrite E, app_assoc. reflexivity.
Qed.

(* what one session needs of the hypotheses about the whole chain: they hold of committed ++ its own puts, and
   pass on to committed ++ complete ++ the later sessions' puts *)
Lemma chain_step_hyps rs ps n rest :
  Forall wfkv (rs ++ ps ++ rest) -> NoDup (map fst (rs ++ ps ++ rest)) ->
  (Forall wfkv (rs ++ ps) /\ NoDup (map fst (rs ++ ps))) /\
  (Forall wfkv ((rs ++ complete n ps) ++ rest) /\ NoDup (map fst ((rs ++ complete n ps) ++ rest))).
Proof.
  intros Hwf Hnd. split; [|apply complete_keeps; assumption].
  rewrite app_assoc in Hwf, Hnd. rewrite map_app in Hnd.
  split; [apply Forall_app in Hwf; apply Hwf|apply NoDup_app_l in Hnd; exact Hnd].
Qed.

Theorem crash_chain H : forall ss rs,
  hdr_ok H -> Forall wfkv (rs ++ all_puts ss) -> NoDup (map fst (rs ++ all_puts ss)) ->
  chain (H ++ blocks rs) ss = H ++ blocks (chain_records rs ss)
  /\ Forall wfkv (chain_records rs ss) /\ NoDup (map fst (chain_records rs ss)).
Proof.
  induction ss as [|[ps n] ss IH]; intros rs Hok Hwf Hnd.
  - unfold all_puts in *. simpl in *. rewrite app_nil_r in *. auto.
  - destruct (chain_step_hyps rs ps n (all_puts ss) Hwf Hnd) as [[Hwf1 Hnd1] [Hwf' Hnd']].
    destruct (crash_reopen H rs ps n h0 MA Hok Hwf1 Hnd1 (snap_h0 H rs) eq_refl) as [h' [E _]].
    rewrite chain_cons, E. apply IH; assumption.
Qed.
