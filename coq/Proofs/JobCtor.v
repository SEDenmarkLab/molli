(* C17 -- facts about Model/JobCtor.v: what the lookup finds, one constructor step as a run of Model/Job.v on its
   elaboration, the driver table after a constructor call, and the witness against the per-class memo. *)
From Coq Require Import List Bool NArith String.
Import ListNotations.
From Molli Require Import Model.Job Model.JobCtor Proofs.Job.
Local Open Scope string_scope.

Lemma which_abs w n : has_slash n = true -> which w n = if is_exe w n then Some n else None.
Proof. intro H. unfold which. now rewrite H. Qed.

Lemma find_split {A} (f : A -> bool) l x : find f l = Some x ->
  exists l1 l2, l = (l1 ++ x :: l2)%list /\ f x = true /\ forall y, In y l1 -> f y = false.
Proof.
  induction l as [|a r IH]; simpl; [discriminate|].
  destruct (f a) eqn:E; intro H.
  - injection H as <-. exists [], r. repeat split; [exact E|intros y []].
  - destruct (IH H) as (l1 & l2 & -> & Hx & Hl). exists (a :: l1), l2. repeat split; [exact Hx|].
    intros y [<-|Hy]; [exact E|now apply Hl].
Qed.

(* a bare name resolves to the FIRST directory of PATH that holds an executable of that name *)
Lemma which_bare w n p : has_slash n = false -> which w n = Some p ->
  exists l1 d l2, w_path w = (l1 ++ d :: l2)%list /\ p = join d n /\ is_exe w p = true
                  /\ forall d', In d' l1 -> is_exe w (join d' n) = false.
Proof.
  intros Hs H. unfold which in H. rewrite Hs in H.
  destruct (find (fun d => is_exe w (join d n)) (w_path w)) as [d|] eqn:E; [|discriminate].
  injection H as <-. destruct (find_split _ _ _ E) as (l1 & l2 & Hp & Hx & Hl).
  exists l1, d, l2. repeat split; assumption.
Qed.

(* whatever is located is an executable file of the world *)
Lemma which_exe w n p : which w n = Some p -> is_exe w p = true.
Proof.
  destruct (has_slash n) eqn:Hs; intro H.
  - rewrite (which_abs w n Hs) in H. destruct (is_exe w n) eqn:E; [|discriminate]. now injection H as <-.
  - destruct (which_bare w n p Hs H) as (_ & _ & _ & _ & _ & Hx & _). exact Hx.
Qed.

(* with the lookup off nothing is looked up: the constructor is the same function whatever `which` does *)
Lemma construct_without_lookup look1 look2 dflt a : a_check a = false ->
  construct_with look1 dflt a = construct_with look2 dflt a.
Proof. intro Hc. unfold construct_with. now rewrite Hc. Qed.

Lemma elab_app w cl evs1 evs2 : elab w cl (evs1 ++ evs2) = (elab w cl evs1 ++ elab w cl evs2)%list.
Proof. apply flat_map_app. Qed.

Lemma elab_cons w cl ev r : elab w cl (ev :: r) = (elab1 w cl ev ++ elab w cl r)%list.
Proof. reflexivity. Qed.

Lemma cstep_fresh_elab w cl st ev :
  let r := brun MCopy (cs_b st) (elab1 w cl ev) in
  cs_b (fst (cstep LFresh w cl st ev)) = fst r /\ b_obs [snd (cstep LFresh w cl st ev)] = snd r
  /\ cs_memo (fst (cstep LFresh w cl st ev)) = cs_memo st.
Proof.
  destruct ev as [i k a|e]; cbn [cstep elab1].
  - destruct (nget k cl) as [[dflt cattrs]|]; [|now repeat split].
    change (construct_with (look_m LFresh w (cs_memo st) k) dflt a) with (construct w dflt a).
    now destruct (construct w dflt a).
  - cbn. now destruct (bstep MCopy (cs_b st) e).
Qed.

(* the event (re)defines the attributes of driver i: Proofs.Job.redefines, under the name the C17 statements use *)
Definition sets (i : N) (ev : bevent) : bool :=
  match ev with BCreate j _ _ | BSet j _ => N.eqb i j | _ => false end.
Definition retouches (i : N) (ev : cevent) : bool :=
  match ev with CNew j _ _ => N.eqb i j | CEv e => sets i e end.

Lemma brun_keeps_driver i evs st : forallb (fun ev => negb (sets i ev)) evs = true ->
  nget i (bs_drivers (fst (brun MCopy st evs))) = nget i (bs_drivers st).
Proof.
  apply (brun_preserves MCopy (fun st => nget i (bs_drivers st))). intros st0 ev H. apply negb_true_iff in H.
  now apply bstep_driver_frame.
Qed.

Lemma elab_keeps w cl i evs : forallb (fun ev => negb (retouches i ev)) evs = true ->
  forallb (fun ev => negb (sets i ev)) (elab w cl evs) = true.
Proof.
  induction evs as [|ev r IH]; intro Hall; [reflexivity|].
  simpl in Hall. apply andb_true_iff in Hall as [H1 H2].
  rewrite elab_cons, forallb_app, (IH H2), andb_true_r. destruct ev as [j k a|e]; cbn [elab1 retouches] in *.
  - destruct (nget k cl) as [[dflt cattrs]|]; [|reflexivity]. destruct (construct w dflt a); cbn; now rewrite ?H1.
  - cbn. now rewrite H1.
Qed.

(* the driver table after `... ; d_i = Class_k(args) ; <anything that does not re-create or reassign d_i>` *)
Lemma ctor_driver_entry w cl decl evs1 i k a dflt cattrs s evs2 :
  nget k cl = Some (dflt, cattrs) -> construct w dflt a = COk s ->
  forallb (fun ev => negb (retouches i ev)) evs2 = true ->
  nget i (bs_drivers (fst (brun MCopy (binit decl) (elab w cl (evs1 ++ CNew i k a :: evs2))))) = Some (cattrs, s).
Proof.
  intros Hk Hc Hall.
  change (CNew i k a :: evs2) with ([CNew i k a] ++ evs2)%list.
  rewrite !elab_app, !brun_app_fst, (brun_keeps_driver i _ _ (elab_keeps w cl i evs2 Hall)).
  unfold elab. cbn [flat_map elab1]. rewrite Hk, Hc. cbn. apply nget_nset_same.
Qed.

(* two instances of ONE class with different executables, both on PATH: the memoising variant hands the first one's
   program to the second instance, and lets a third instance with an unreachable executable through *)
Definition memo_world : world := mk_world ["/W/d1"; "/W/d2"] ["/W/d1/tool"; "/W/d2/tool"; "/W/d2/beta"].
Definition memo_witness : list cevent :=
  [CNew 0 0 (mk_cargs (Some "tool") (Some 4%N) None None true true);
   CNew 1 0 (mk_cargs (Some "beta") (Some 2%N) None None true true);
   CNew 2 0 (mk_cargs (Some "/W/nowhere/x") None None None true true);
   CEv (BUse 1); CEv (BUse 0)].
(* histories whose constructor calls all switch the lookup off (check_exe=False) cannot tell the memoising variant
   from the code -- which is why driver histories built that way do not test the lookup *)
Definition lookup_off (ev : cevent) : bool :=
  match ev with CNew _ _ a => negb (a_check a) | CEv _ => true end.
