(* The code IS the model: the method bodies of molli/storage/ukvfile.py, translated on every run into terms of
   Model/MiniPy.v (Gen/UKVCode.v), run exactly as the hand-written functions of Model/UKV.v say -- for EVERY object
   state and EVERY file content, not for the sampled histories of the differential tie. *)
From Coq Require Import NArith Arith List Bool String Lia ZifyNat ZifyN.
Import ListNotations.
From Molli Require Import Model.UKV Model.MiniPy Gen.UKVCode Proofs.UKVBase Proofs.MiniPyFrame.
Open Scope N_scope.
Lemma skipn_add {A} (l : list A) : forall a b, skipn a (skipn b l) = skipn (b + a) l.
Proof. induction l as [|x l IH]; intros a b; [rewrite !skipn_nil; reflexivity|]. destruct b; [reflexivity|]. simpl. apply IH. Qed.

Lemma write_at_pre (pre t b : bytes) : write_at (pre ++ t) (len pre) b = (pre ++ b ++ skipn (List.length b) t)%list.
Proof.
  unfold write_at. rewrite firstn_len_app, N2Nat.inj_add, <- skipn_add, skipn_len_app.
  replace (N.to_nat (len pre) - List.length (pre ++ t))%nat with 0%nat by (rewrite app_length; unfold len; lia).
  unfold len. rewrite Nat2N.id. reflexivity.
Qed.

Lemma write_at_app (f : bytes) (e : N) (a b : bytes) :
  write_at (write_at f e a) (e + len a) b = write_at f e (a ++ b).
Proof.
  set (pre := (firstn (N.to_nat e) f ++ repeat 0 (N.to_nat e - List.length f))%list).
  assert (Lp : len pre = e) by (unfold pre, len; rewrite app_length, firstn_length, repeat_length; lia).
  assert (W : forall c, write_at f e c = (pre ++ c ++ skipn (N.to_nat (e + len c)) f)%list)
    by (intro; unfold write_at, pre; rewrite <- app_assoc; reflexivity).
  rewrite !W, app_assoc, <- Lp, <- !len_app, write_at_pre, skipn_add, <- !app_assoc.
  do 4 f_equal. unfold len. rewrite !app_length. lia.
Qed.

Open Scope string_scope.
Open Scope N_scope.

Lemma lookup_set_same e x v : lookup_env (set_env e x v) x = Some v.
Proof. unfold lookup_env, set_env. rewrite String.eqb_refl. reflexivity. Qed.
Lemma lookup_set_other e x y v : x <> y -> lookup_env (set_env e x v) y = lookup_env e y.
Proof. intros N. apply set_env_other, String.eqb_neq, N. Qed.

Definition vopt_bytes (o : option bytes) : val := match o with Some k => VBytes k | None => VNone end.
Definition vopt_int (o : option N) : val := match o with Some k => VInt k | None => VNone end.

(* the state s of a UKVFile object (its data attributes, its stream) represents the model handle h: the relation every
   theorem about the translated methods is stated over *)
Record Rep (s : state) (h : handle) : Prop := {
  rep_toc : lookup_env (attrs s) "_toc" = Some (VToc (toc h));
  rep_last : lookup_env (attrs s) "_last" = Some (vopt_bytes (last h));
  rep_eof : lookup_env (attrs s) "_eof" = Some (vopt_int (eof h));
  rep_closed : lookup_env (attrs s) "_closed" = Some (VBool (closed h));
  rep_stream : closed h = false -> s_closed (strm s) = false /\ s_wr (strm s) = match md h with MA => true | MR => false end;
  rep_eof_some : closed h = false -> eof h <> None      (* an open handle has mapped its file *)
}.

Definition out_of_res (r : UKV.res) : outcome :=
  match r with
  | ROk => ONormal
  | RVal v => OReturn (VBytes v)
  | RErr EUnsupported => ORaise XUnsupported
  | RErr EKey => ORaise XKey
  | RErr EStruct => ORaise XStruct
  | _ => ORaise XOther
  end.

(* these stay folded under [simpl], here and in every file that imports this one: symbolic execution must not compute
   with lengths, offsets and lookups *)
Arguments write_at : simpl never.
Arguments sub : simpl never.
Arguments lookup : simpl never.
Arguments update : simpl never.
Arguments len : simpl never.
Arguments N.add : simpl never.
Arguments N.ltb : simpl never.
Arguments be32 : simpl never.
Arguments lookup_env : simpl never.
Arguments set_env : simpl never.

(* Symbolic execution goes one statement at a time: [exec_seq] runs the first statement of a sequence and leaves the rest
   folded, so that [simpl] only ever normalises one statement, on a state whose lookups [rw] (rewriting with what is known
   of the state) can decide.  Run on a whole program, [simpl] would normalise the continuation under every match it cannot
   decide yet, once per constructor of [val]. *)
Lemma exec_seq fuel a b s s1 : exec fuel a s = (s1, ONormal) -> exec fuel (SSeq a b) s = exec fuel b s1.
Proof. intros E. cbn [exec]. rewrite E. reflexivity. Qed.
Lemma exec_seq_stop fuel a b s s1 o : exec fuel a s = (s1, o) -> o <> ONormal -> exec fuel (SSeq a b) s = (s1, o).
Proof. intros E N. cbn [exec]. rewrite E. destruct o; congruence. Qed.

Ltac lookups := repeat (first [rewrite lookup_set_same | rewrite lookup_set_other by discriminate]).
Ltac run_stmt rw := repeat (progress (simpl; lookups; rw)).
Ltac step_seq rw := erewrite exec_seq by (run_stmt rw; reflexivity).
Ltac stop_seq rw := erewrite exec_seq_stop by (run_stmt rw; first [reflexivity | discriminate]).

Theorem get_code fuel s h k :
  Rep s h -> lookup_env (locals s) "key" = Some (VBytes k) ->
  let '(s', o) := exec fuel get_prog s in
  file s' = file s /\ attrs s' = attrs s /\ s_wr (strm s') = s_wr (strm s) /\ s_closed (strm s') = s_closed (strm s) /\
  o = out_of_res (get (file s) h k).
Proof.
  intros [Rt Rl Re Rc Rs Rn] L. unfold get_prog, get.
  destruct (closed h); [stop_seq ltac:(rewrite ?Rc); repeat split; reflexivity|].
  destruct (Rs eq_refl) as [Hc Hw]. step_seq ltac:(rewrite ?Rc).
  destruct (lookup (toc h) k) as [r|] eqn:El; [|stop_seq ltac:(rewrite ?Rt, ?L, ?El); repeat split; reflexivity].
  repeat step_seq ltac:(rewrite ?Rt, ?L, ?El, ?Hc). run_stmt idtac. rewrite Hc.
  repeat split. unfold r_posv. do 3 f_equal. lia.
Qed.

Theorem put_code fuel s h k v :
  Rep s h -> lookup_env (locals s) "key" = Some (VBytes k) -> lookup_env (locals s) "value" = Some (VBytes v) ->
  let '(s', o) := exec fuel put_prog s in
  let '(f', h', r) := put (file s) h k v in
  file s' = f' /\ Rep s' h' /\ o = out_of_res r.
Proof.
  intros R Lk Lv. pose proof R as [Rt Rl Re Rc Rs Rn]. unfold put_prog, put, enc_block.
  destruct (closed h) eqn:Ec; [stop_seq ltac:(rewrite ?Rc); simpl; auto|].
  destruct (Rs eq_refl) as [Hc Hw].
  destruct (md h) eqn:Em; [stop_seq ltac:(rewrite ?Rc, ?Hc, ?Hw); simpl; auto|]. step_seq ltac:(rewrite ?Rc, ?Hc, ?Hw).
  destruct (lookup (toc h) k) eqn:El; [stop_seq ltac:(rewrite ?Lk, ?Rt, ?El); simpl; auto|]. step_seq ltac:(rewrite ?Lk, ?Rt, ?El).
  destruct ((len k <? 256) && (len v <? 4294967296)) eqn:Ew;
    [|stop_seq ltac:(rewrite ?Lk, ?Lv; unfold pack_blk; rewrite ?Ew); simpl; auto].
  destruct (eof h) as [e|] eqn:Ee; [|destruct (Rn eq_refl eq_refl)].
  repeat step_seq ltac:(rewrite ?Lk, ?Lv, ?Rt, ?Re, ?Hc, ?Hw; unfold pack_blk; rewrite ?Ew).
  (* however many writes the source uses, together they are one write of the encoded block *)
  run_stmt ltac:(rewrite ?Hc). rewrite ?write_at_app, <- ?app_assoc.
  split; [reflexivity|split; [|reflexivity]].
  constructor; simpl; lookups; auto; try discriminate.
  all: do 2 f_equal; rewrite ?len_app, len_encb; change (len (len k :: be32 (len v))) with 5; lia.
Qed.

(* close(): the stream is closed, the handle is marked closed; "x"/"w" (creation modes, not modelled) become "a" *)
Theorem close_code fuel s h :
  Rep s h -> (lookup_env (attrs s) "mode" = Some (VStr "r") \/ lookup_env (attrs s) "mode" = Some (VStr "a")) ->
  let '(s', o) := exec fuel close_prog s in
  file s' = file s /\ Rep s' (close_ h) /\ o = ONormal /\ lookup_env (attrs s') "mode" = lookup_env (attrs s) "mode".
Proof.
  intros [Rt Rl Re Rc Rs Rn] M. unfold close_prog. repeat step_seq idtac.
  destruct M as [M|M]; run_stmt ltac:(rewrite ?M); (split; [reflexivity|split; [|split; reflexivity]]);
    (constructor; simpl; lookups; auto; discriminate).
Qed.

Theorem keys_code s h : Rep s h -> eval s keys_expr = Val (VToc (toc h)).
Proof. intros R. unfold keys_expr. cbn. rewrite (rep_toc _ _ R). reflexivity. Qed.

(* the loop of map_blocks (and, below, its shortcut test) is fetched from the generated term, not written down: the lemmas
   are then about whatever the translator emitted, and condition and body stay abstract names while the rest is executed *)
Fixpoint find_while (c : stmt) : option (stmt * string * stmt) :=
  match c with
  | SWhile a x b => Some (a, x, b)
  | SSeq a b | SIf _ a b => match find_while a with Some r => Some r | None => find_while b end
  | SCall _ a | SCallRet _ a => find_while a
  | STryElse a b c0 => match find_while a with Some r => Some r | None => match find_while b with Some r => Some r | None => find_while c0 end end
  | _ => None
  end.

Lemma sub_rest f p (pre rest : bytes) n :
  skipn (N.to_nat p) f = (pre ++ rest)%list -> sub f (p + len pre) n = firstn (N.to_nat n) rest.
Proof. intros H. unfold sub. rewrite N2Nat.inj_add, <- skipn_add, H, skipn_len_app. reflexivity. Qed.

(* the state at the head of the scanning loop; L0, L1, L2 (and L3) are the translator's alpha-normalised locals of
   map_blocks: size, pos, key (and blk_header) *)
Record LoopSt (f : bytes) (w : bool) (p : N) (t : toc_t) (lk : option bytes) (s : state) : Prop := {
  ls_file : file s = f;
  ls_strm : strm s = mks p w false;
  ls_toc : lookup_env (attrs s) "_toc" = Some (VToc t);
  ls_pos : lookup_env (locals s) "L1" = Some (VInt p);
  ls_size : lookup_env (locals s) "L0" = Some (VInt (len f));
  ls_key : lookup_env (locals s) "L2" = Some (vopt_bytes lk)
}.

(* what the loop leaves, r being what [scan] returns; at0: the attributes before the loop *)
Definition scanned (f : bytes) (w : bool) (at0 : env) (r : toc_t * option bytes * N) (s' : state) : Prop :=
  let '(t', lk', p') := r in
  file s' = f /\ s_wr (strm s') = w /\ s_closed (strm s') = false /\
  lookup_env (attrs s') "_toc" = Some (VToc t') /\
  (forall x, x <> "_toc" -> lookup_env (attrs s') x = lookup_env at0 x) /\
  lookup_env (locals s') "L1" = Some (VInt p') /\ lookup_env (locals s') "L0" = Some (VInt (len f)) /\
  lookup_env (locals s') "L2" = Some (vopt_bytes lk').

Lemma wloop_scan fuel cnd body f w at0 :
  find_while map_blocks_prog = Some (cnd, "L3", body) ->
  forall n rem p t lk s,
  (List.length rem < n)%nat -> rem = skipn (N.to_nat p) f -> LoopSt f w p t lk s ->
  (forall x, x <> "_toc" -> lookup_env (attrs s) x = lookup_env at0 x) ->
  exists s', wloop (exec fuel cnd) (exec fuel body) "L3" n s = (s', ONormal) /\ scanned f w at0 (scan n rem p t lk) s'.
Proof.
  intros Hw. cbv in Hw. injection Hw as Hcnd Hbody.
  induction n as [|n IH]; intros rem p t lk s Hn Hrem [Lf Ls Lt Lp Lz Lk] Hat; [lia|].
  (* with the stream spelled out, whether it is closed is decided by computation at every statement *)
  destruct s as [f0 st at_ lo]. simpl in Lf, Ls, Lt, Lp, Lz, Lk, Hat. subst f0 st.
  cbn [wloop scan].
  (* the condition reads five bytes and unpacks them *)
  destruct rem as [|kl [|a [|b [|c [|d rest]]]]].
  (* fewer than five bytes are left: nothing to unpack, the loop ends where it stands *)
  1-5: eexists; split;
    [rewrite <- Hcnd at 1; step_seq ltac:(unfold sub; rewrite <- ?Hrem); run_stmt idtac; reflexivity
    |repeat split; simpl; lookups; auto].
  assert (Lf' : len f = p + 5 + len rest)
    by (apply (f_equal (@List.length N)) in Hrem; rewrite skipn_length in Hrem; simpl in Hrem; unfold len; lia).
  destruct (kl + rd32 a b c d <=? len rest) eqn:Ec.
  - (* the block lies inside the file: the body enters it in the table, and the loop goes on behind it *)
    pose proof (fun n => sub_rest f p [kl; a; b; c; d] rest n (eq_sym Hrem)) as Hsub.
    apply N.leb_le in Ec. assert (Eg : (len f <? p + 5 + kl + rd32 a b c d) = false) by (apply N.ltb_ge; lia).
    edestruct IH as [s' [E' R']]; cycle 4.
    + exists s'. split; [|exact R'].
      rewrite <- Hcnd at 1. step_seq ltac:(unfold sub; rewrite <- ?Hrem). run_stmt idtac.
      rewrite <- Hbody at 1.
      repeat step_seq ltac:(rewrite ?Lp, ?Lz, ?Lt, ?Eg, ?Hsub). run_stmt idtac. exact E'.
    + rewrite skipn_length. simpl in Hn. lia.
    + replace rest with (skipn 5 (skipn (N.to_nat p) f)) by (rewrite <- Hrem; reflexivity).
      rewrite !skipn_add. f_equal. lia.
    + constructor; simpl; lookups; auto.
      * simpl. f_equal. unfold len in *. rewrite firstn_length. simpl. lia.
      * do 2 f_equal. lia.
    + intros x Hx. simpl. rewrite lookup_set_other by congruence. auto.
  - (* the block runs past the end of the file (a torn tail): the body breaks out, the loop ends where it stands *)
    apply N.leb_gt in Ec. assert (Eg : (len f <? p + 5 + kl + rd32 a b c d) = true) by (apply N.ltb_lt; lia).
    eexists; split;
      [rewrite <- Hcnd at 1; step_seq ltac:(unfold sub; rewrite <- ?Hrem); run_stmt idtac;
       rewrite <- Hbody at 1; repeat step_seq ltac:(rewrite ?Lp, ?Lz); stop_seq ltac:(rewrite ?Lp, ?Lz, ?Eg); reflexivity
      |repeat split; simpl; lookups; auto].
Qed.

Lemma scan_fuel : forall n m rem p t lk, (List.length rem < n)%nat -> (List.length rem < m)%nat -> scan n rem p t lk = scan m rem p t lk.
Proof.
  induction n as [|n IH]; intros m rem p t lk Hn Hm; [lia|]. destruct m as [|m]; [lia|].
  cbn [scan]. destruct rem as [|kl [|a [|b [|c [|d rest]]]]]; try reflexivity.
  destruct (kl + rd32 a b c d <=? len rest); [|reflexivity].
  apply IH; rewrite skipn_length; simpl in *; lia.
Qed.

(* the object state while map_blocks runs (the handle is being opened: _closed may still be true) *)
Record Obj (s : state) (h : handle) (h2v b0v : bytes) : Prop := {
  ob_toc : lookup_env (attrs s) "_toc" = Some (VToc (toc h));
  ob_last : lookup_env (attrs s) "_last" = Some (vopt_bytes (last h));
  ob_eof : lookup_env (attrs s) "_eof" = Some (vopt_int (eof h));
  ob_h2 : lookup_env (attrs s) "h2" = Some (VBytes h2v);
  ob_b0 : lookup_env (attrs s) "b0" = Some (VBytes b0v);
  ob_bof : 32 + len b0v + len h2v = bof_of (file s);
  ob_last_in : forall k, last h = Some k -> lookup (toc h) k <> None;
  ob_strm : s_closed (strm s) = false /\ s_wr (strm s) = match md h with MA => true | MR => false end
}.

Fixpoint find_if (c : stmt) : option (expr * stmt * stmt) :=
  match c with
  | SIf e a b => Some (e, a, b)
  | SSeq a b => match find_if a with Some r => Some r | None => find_if b end
  | _ => None
  end.

(* one level of [eval] at a time, for an expression too deep to normalise with its lookups undecided *)
Lemma eval_and s a b : eval s (EAnd a b) = match eval s a with Val x => if truthy x then eval s b else Val x | Exn z => Exn z end.
Proof. reflexivity. Qed.
Lemma eval_eq s a b x y : eval s a = Val x -> eval s b = Val y -> eval s (EEq a b) = Val (VBool (val_eqb x y)).
Proof. intros Ha Hb. simpl. rewrite Ha, Hb. reflexivity. Qed.
Lemma eval_ifexp s c a b x : eval s c = Val x -> eval s (EIfExp c a b) = if truthy x then eval s a else eval s b.
Proof. intros Hc. simpl. rewrite Hc. reflexivity. Qed.
Lemma eval_add_int s a b x y : eval s a = Val (VInt x) -> eval s b = Val (VInt y) -> eval s (EAdd a b) = Val (VInt (x + y)).
Proof. intros Ha Hb. simpl. rewrite Ha, Hb. reflexivity. Qed.

(* the "nothing changed since I last looked" test of map_blocks is the model's [shortcut] *)
Lemma shortcut_eval cond a b s h h2v b0v :
  find_if map_blocks_prog = Some (cond, a, b) ->
  Obj s h h2v b0v -> lookup_env (locals s) "L0" = Some (VInt (len (file s))) ->
  eval s cond = Val (VBool (shortcut (file s) h)).
Proof.
  intros Hc [Ot Ol Oe O2 O0 Ob Oin _] Hz. cbv in Hc. injection Hc as <- _ _. unfold shortcut.
  rewrite eval_and, (eval_eq s _ _ (vopt_int (eof h)) (VInt (len (file s)))) by (simpl; rewrite ?Oe, ?Hz; reflexivity).
  destruct (eof h) as [e|]; [|reflexivity]. cbn [truthy val_eqb vopt_int]. destruct (e =? len (file s)); [|reflexivity].
  destruct (last h) as [k|]; [destruct (lookup (toc h) k) as [r|] eqn:Er; [|destruct (Oin k eq_refl Er)]|];
    (erewrite eval_eq; cycle 1;
     [simpl; rewrite Oe; reflexivity
     |erewrite eval_ifexp by (simpl; rewrite Ol; reflexivity); cbn [truthy];
      repeat erewrite eval_add_int by (simpl; rewrite ?Ot, ?Ol, ?O0, ?O2; simpl; rewrite ?Er; reflexivity); reflexivity
     |simpl; unfold r_end; rewrite <- ?Ob, ?N.add_assoc; reflexivity]).
Qed.

Arguments scan : simpl never.

Theorem map_blocks_code fuel s h h2v b0v :
  (List.length (file s) < fuel)%nat -> Obj s h h2v b0v ->
  let '(s', o) := exec fuel map_blocks_prog s in
  let '(f', h') := map_blocks (file s) h in
  file s' = f' /\ (o = ONormal \/ o = OReturn VNone) /\
  lookup_env (attrs s') "_toc" = Some (VToc (toc h')) /\ lookup_env (attrs s') "_last" = Some (vopt_bytes (last h')) /\
  lookup_env (attrs s') "_eof" = Some (vopt_int (eof h')) /\
  (forall x, x <> "_toc" -> x <> "_last" -> x <> "_eof" -> lookup_env (attrs s') x = lookup_env (attrs s) x) /\
  s_closed (strm s') = false /\ s_wr (strm s') = s_wr (strm s) /\ md h' = md h /\ closed h' = closed h.
Proof.
  intros Hfuel O. pose proof O as [Ot Ol Oe O2 O0 Ob Oin [Oc Ow]].
  destruct (find_if map_blocks_prog) as [[[cond ca] cb]|] eqn:Hif; [|discriminate].
  destruct (find_while map_blocks_prog) as [[[wc wx] wb]|] eqn:Hwh; [|discriminate].
  (* the test and the loop stay folded in the program text *)
  pose proof Hif as Hif'. cbv in Hif'. injection Hif' as Hcond _ _.
  pose proof Hwh as Hwh'. cbv in Hwh'. injection Hwh' as Hwc <- Hwb.
  unfold map_blocks_prog, map_blocks. rewrite Hcond, Hwc, Hwb. clear Hcond Hwc Hwb.
  (* size = self._stream.seek(0, 2) *)
  repeat step_seq ltac:(rewrite ?Oc).
  lazymatch goal with |- context [exec fuel _ ?x] => set (s2 := x) end.
  assert (O2' : Obj s2 h h2v b0v) by (constructor; simpl; lookups; auto).
  assert (Z2 : lookup_env (locals s2) "L0" = Some (VInt (len (file s2)))) by (simpl; lookups; reflexivity).
  pose proof (shortcut_eval _ _ _ _ _ _ _ Hif O2' Z2) as Ev. change (file s2) with (file s) in Ev.
  destruct (shortcut (file s) h).
  - (* nothing changed since this handle last looked *)
    stop_seq ltac:(rewrite ?Ev). simpl. repeat split; auto.
  - step_seq ltac:(rewrite ?Ev). subst s2.
    (* pos = self._bof; seek(pos); key = None *)
    repeat step_seq ltac:(rewrite ?O0, ?O2, ?Oc; rewrite ?Ob).
    edestruct (wloop_scan fuel wc wb (file s) (s_wr (strm s)) (attrs s) Hwh fuel (skipn (N.to_nat (bof_of (file s))) (file s))
                 (bof_of (file s)) (toc h) None) as [s3 [E3 R3]]; cycle 4.
    + erewrite exec_seq by exact E3.
      rewrite (scan_fuel fuel (S (List.length (file s)))) in R3 by (rewrite skipn_length; lia).
      destruct (scan _ _ _ _ _) as [[t' lk'] p']. destruct R3 as (R1 & R2 & R3 & R4 & R5 & R6 & R7 & R8).
      repeat step_seq ltac:(rewrite ?R8, ?R6).
      (* read mode: the file is left alone; append mode: a torn tail is cut off *)
      destruct (md h); destruct (p' <? len (file s)) eqn:Ep; run_stmt ltac:(rewrite ?R6, ?R7, ?R3, ?R2, ?Ow, ?Ep);
        repeat split; simpl; lookups; auto.
      all: try (intros x X1 X2 X3; rewrite !lookup_set_other by congruence; auto).
      rewrite R1. apply N.ltb_lt in Ep. unfold len in Ep.
      replace (N.to_nat p' - List.length (file s))%nat with 0%nat by lia. apply app_nil_r.
    + rewrite skipn_length. lia.
    + reflexivity.
    + constructor; simpl; lookups; rewrite ?Oc; auto.
    + reflexivity.
Qed.

Arguments unpack : simpl never.

Theorem read_header_code fuel s h1 h2 b0 rest :
  file s = (mk_header h1 h2 b0 ++ rest)%list -> List.length h1 = 16%nat -> len h2 < 65536 -> len b0 < 4294967296 ->
  s_closed (strm s) = false ->
  let '(s', o) := exec fuel read_header_prog s in
  o = ONormal /\ file s' = file s /\
  lookup_env (attrs s') "h1" = Some (VBytes h1) /\ lookup_env (attrs s') "h2" = Some (VBytes h2) /\
  lookup_env (attrs s') "b0" = Some (VBytes b0) /\
  (forall x, x <> "h1" -> x <> "h2" -> x <> "b0" -> lookup_env (attrs s') x = lookup_env (attrs s) x) /\
  s_closed (strm s') = false /\ s_wr (strm s') = s_wr (strm s).
Proof.
  intros Hf L1 L2 L0 Hc.
  (* the 32 fixed bytes, and what the three reads return *)
  set (hd := (h1 ++ [len h2 / 256 mod 256; len h2 mod 256] ++ be32 (len b0) ++ repeat 0 10)%list).
  assert (HF : file s = (hd ++ h2 ++ b0 ++ rest)%list) by (rewrite Hf; unfold mk_header, hd; rewrite <- !app_assoc; reflexivity).
  assert (Lh : len hd = 32) by (unfold hd, len; rewrite app_length, L1; reflexivity).
  assert (U : unpack HFile hd = Some (VTup [VBytes h1; VInt (len h2); VInt (len b0)])).
  { unfold unpack. replace (List.length hd) with 32%nat by (unfold len in Lh; lia). cbn [Nat.eqb]. unfold hd.
    rewrite skipn_app, firstn_app, L1, Nat.sub_diag, skipn_all2, firstn_all2 by lia.
    unfold be32. cbn [app skipn firstn repeat]. rewrite app_nil_r, be32_val by exact L0. do 5 f_equal. lia. }
  assert (F1 : sub (file s) 0 32 = hd) by (rewrite HF, <- Lh; apply firstn_len_app).
  assert (F2 : sub (file s) (0 + len hd) (len h2) = h2) by (rewrite HF; apply sub_app_mid).
  assert (F3 : sub (file s) (0 + len hd + len h2) (len b0) = b0)
    by (rewrite HF, N.add_0_l, <- len_app, app_assoc; apply sub_app_mid).
  unfold read_header_prog. repeat step_seq ltac:(rewrite ?Hc, ?F1, ?U, ?F2, ?F3). run_stmt ltac:(rewrite ?Hc, ?F3).
  repeat split. intros x X1 X2 X3. rewrite !lookup_set_other by congruence. reflexivity.
Qed.

Definition mode_str (m : mode) : string := match m with MR => "r" | MA => "a" end.

Lemma len_mk_header h1 h2 b0 : List.length h1 = 16%nat -> len (mk_header h1 h2 b0) = 32 + len h2 + len b0.
Proof.
  intros H1. unfold mk_header. rewrite !len_app. replace (len h1) with 16 by (unfold len; rewrite H1; reflexivity).
  replace (len [len h2 / 256 mod 256; len h2 mod 256]) with 2 by reflexivity.
  replace (len (be32 (len b0))) with 4 by reflexivity. replace (len (repeat 0 10)) with 10 by reflexivity. lia.
Qed.

(* f begins with a header as mk_header writes it; by mk_header_ok such a header is hdr_ok: bof_of reads its length back *)
Definition headed (f : bytes) : Prop :=
  exists h1 h2 b0 rest, f = (mk_header h1 h2 b0 ++ rest)%list /\ List.length h1 = 16%nat /\ len h2 < 65536 /\ len b0 < 4294967296.
Definition last_in (h : handle) : Prop := forall k, last h = Some k -> lookup (toc h) k <> None.

Lemma rep_same s' s h : Rep s h -> attrs s' = attrs s -> strm s' = strm s -> Rep s' h.
Proof. intros [A B C D E F] Ea Es. constructor; rewrite ?Ea, ?Es; assumption. Qed.
Lemma rep_locals s h x v : Rep s h -> Rep (set_local s x v) h.
Proof. intros R. apply (rep_same _ _ _ R); reflexivity. Qed.

Lemma map_blocks_eof f h : eof (snd (map_blocks f h)) <> None.
Proof.
  unfold map_blocks. destruct (shortcut f h) eqn:Es.
  - unfold shortcut in Es. simpl. destruct (eof h); discriminate.
  - destruct (scan _ _ _ _ _) as [[t lk] p]. destruct (md h); [|destruct (p <? len f)]; discriminate.
Qed.

Opaque read_header_prog map_blocks_prog.

Theorem open_code fuel s h m :
  (List.length (file s) < fuel)%nat -> headed (file s) -> Rep s h -> last_in h ->
  (lookup_env (locals s) "mode" = Some (VStr (mode_str m)) \/
   (lookup_env (locals s) "mode" = Some VNone /\ lookup_env (attrs s) "mode" = Some (VStr (mode_str m)))) ->
  let '(s', o) := exec fuel open_prog s in
  let '(f', h') := open_ (file s) h m in
  file s' = f' /\ (o = ONormal \/ o = OReturn VNone) /\ Rep s' h'.
Proof.
  intros Hfuel (h1 & h2 & b0 & rest & Hf & L1 & L2 & L0) R Hin Lm. pose proof R as [At Al Ae Ac As An].
  unfold open_prog, open_. destruct (closed h) eqn:Ec.
  2: { (* already open: nothing happens *) stop_seq ltac:(rewrite ?Ac). simpl. auto. }
  step_seq ltac:(rewrite ?Ac).
  (* self.mode = mode or self.mode *)
  erewrite (exec_seq _ _ _ _ (set_attr s "mode" (VStr (mode_str m))))
    by (destruct m; destruct Lm as [Lm|[Lm Am]]; run_stmt ltac:(rewrite ?Lm, ?Am); reflexivity).
  set (hm := mkh (toc h) (last h) (eof h) m false).
  (* with the stream open: read_header, then map_blocks on what it leaves *)
  assert (Main : forall w, w = match m with MA => true | MR => false end ->
    let '(sx, ox) := exec fuel read_header_prog (mkst (file s) (mks 0 w false) (set_env (attrs s) "mode" (VStr (mode_str m))) (locals s)) in
    ox = ONormal /\
    let '(sy, oy) := exec fuel map_blocks_prog (restore_locals sx (locals s)) in
    let '(f', h') := map_blocks (file s) hm in
    file sy = f' /\ (oy = ONormal \/ oy = OReturn VNone) /\ Rep (set_attr sy "_closed" (VBool false)) h').
  { intros w Hw. set (s1 := mkst _ _ _ _).
    pose proof (read_header_code fuel s1 h1 h2 b0 rest Hf L1 L2 L0 eq_refl) as RH.
    destruct (exec fuel read_header_prog s1) as [sx ox]. destruct RH as (-> & R2 & _ & R4 & R5 & R6 & R7 & R8).
    split; [reflexivity|].
    assert (O : Obj (restore_locals sx (locals s)) hm h2 b0).
    { constructor; simpl; rewrite ?R6 by discriminate; simpl; lookups; auto.
      - rewrite R2. simpl. rewrite Hf, (mk_header_ok h1 h2 b0 L1 L2 L0 rest), len_mk_header by exact L1. lia.
      - rewrite R8. auto. }
    pose proof (map_blocks_code fuel (restore_locals sx (locals s)) hm h2 b0 ltac:(simpl; rewrite R2; exact Hfuel) O) as MB.
    destruct (exec fuel map_blocks_prog _) as [sy oy]. simpl in MB. rewrite R2 in MB. simpl in MB.
    destruct (map_blocks (file s) hm) as [f' h'] eqn:Emb.
    destruct MB as (M1 & M2 & M3 & M4 & M5 & M6 & M7 & M8 & M9 & M10).
    split; [exact M1|split; [exact M2|]].
    constructor; simpl; lookups; rewrite ?M10, ?M9, ?M8, ?R8; auto.
    intros _. pose proof (map_blocks_eof (file s) hm) as E. rewrite Emb in E. exact E. }
  destruct m; generalize (Main _ eq_refl); run_stmt idtac;
    destruct (exec fuel read_header_prog _) as [sx ox]; intros [-> Main']; revert Main'; simpl;
    destruct (exec fuel map_blocks_prog _) as [sy oy]; destruct (map_blocks (file s) hm) as [f' h'];
    intros (M1 & [-> | ->] & M3); simpl; (split; [exact M1|split; [auto|apply (rep_same _ _ _ M3); reflexivity]]).
Qed.

(* the methods called by the constructor stay folded: [simpl] must not run them *)
Transparent read_header_prog map_blocks_prog.
Opaque get_prog put_prog open_prog close_prog.

Lemma put_result_kind f h k v : let '(_, _, r) := put f h k v in r = ROk \/ exists e, r = RErr e.
Proof.
  unfold put. destruct (closed h || match md h with MR => true | MA => false end); [right; eexists; reflexivity|].
  destruct (lookup (toc h) k); [right; eexists; reflexivity|].
  destruct (enc_block k v); [|right; eexists; reflexivity]. destruct (eof h); [left; reflexivity|right; eexists; reflexivity].
Qed.

Lemma if_val (c : bool) (x y : val) : (if c then Val x else Val y) = Val (if c then x else y).
Proof. destruct c; reflexivity. Qed.

(* UKVFile(path, mode) for mode r / a on an existing file: the object starts as the never-opened handle h0 and is opened *)
Theorem init_code fuel s m v1 v2 v0 :
  (List.length (file s) < fuel)%nat -> headed (file s) ->
  lookup_env (locals s) "mode" = Some (VStr (mode_str m)) ->
  lookup_env (locals s) "h1" = Some v1 -> lookup_env (locals s) "h2" = Some v2 -> lookup_env (locals s) "b0" = Some v0 ->
  let '(s', o) := exec fuel init_prog s in
  let '(f', h') := open_ (file s) h0 m in
  file s' = f' /\ o = ONormal /\ Rep s' h'.
Proof.
  intros Hfuel Hh Lm Lh1 Lh2 Lb0. unfold init_prog.
  (* the attributes are set (whatever h1, h2, b0 were passed: open() reads them from the file), then open() *)
  assert (Hin : last_in h0) by (intros k X; discriminate X).
  destruct m; repeat step_seq ltac:(rewrite ?Lm, ?Lh1, ?Lh2, ?Lb0, ?if_val); cbn [exec eval bind_args];
    lazymatch goal with |- context [exec fuel open_prog ?x] => set (sx := x) end;
    assert (R0 : Rep sx h0) by (constructor; unfold sx; simpl; lookups; auto; discriminate);
    lazymatch goal with |- context [open_ _ h0 ?M] =>
      assert (Lm0 : lookup_env (locals sx) "mode" = Some VNone /\ lookup_env (attrs sx) "mode" = Some (VStr (mode_str M)))
        by (split; unfold sx; simpl; lookups; reflexivity);
      pose proof (open_code fuel sx h0 M Hfuel Hh R0 Hin (or_intror Lm0)) as O end;
    change (file sx) with (file s) in O;
    destruct (exec fuel open_prog sx) as [s1 o1]; destruct (open_ (file s) h0 _) as [f' h'];
    destruct O as (O1 & [-> | ->] & O3); (split; [exact O1|split; [reflexivity|apply (rep_same _ _ _ O3); reflexivity]]).
Qed.

Transparent get_prog put_prog open_prog close_prog read_header_prog map_blocks_prog.
