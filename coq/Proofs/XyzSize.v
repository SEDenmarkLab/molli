(* C08, the SIZE dimension: what the writer model emits has, for EVERY number of atoms and of frames, the frame
   structure the oracle reads (header count = number of records, nothing before, between or after the frames),
   and the pattern geometries of Model/XyzSize.v are writable at every size (so the round-trip theorem applies to
   the whole size family, not only to the sizes that were run). *)
From Coq Require Import List Bool Arith NArith ZArith Lia.
From Molli Require Import Common.ParseStr Common.ParseStrFacts Common.ListFacts Model.Parse Model.XyzText Model.XyzSize
                          Proofs.Parse Proofs.XyzText.
Import ListNotations.
Local Open Scope list_scope.

Lemma take_N_app {A} (a b : list A) : take_N (N.of_nat (List.length a)) (a ++ b) = Some (a, b).
Proof.
  induction a as [|x a IH].
  - simpl. destruct b; reflexivity.
  - cbn [List.length app take_N]. rewrite Nat2N.inj_succ.
    destruct (N.eqb_spec (N.succ (N.of_nat (List.length a))) 0) as [E|_]; [lia|].
    rewrite N.pred_succ, IH. reflexivity.
Qed.

Lemma take_N_length {A} n (l a b : list A) : take_N n l = Some (a, b) -> l = a ++ b /\ n = N.of_nat (List.length a).
Proof.
  revert n a b. induction l as [|x l IH]; intros n a b H; simpl in H.
  - destruct (N.eqb_spec n 0) as [->|_]; [|discriminate]. injection H as <- <-. split; reflexivity.
  - destruct (N.eqb_spec n 0) as [->|Hn].
    + injection H as <- <-. split; reflexivity.
    + destruct (take_N (N.pred n) l) as [[a' b']|] eqn:E; [|discriminate]. injection H as <- <-.
      destruct (IH _ _ _ E) as [-> Hp]. split; [reflexivity|]. cbn [List.length]. rewrite Nat2N.inj_succ, <- Hp. lia.
Qed.

Definition frame_lines (fr : tframe) : list str := print_N (fst (fst fr)) :: snd (fst fr) :: snd fr.
Definition frame_of (fr : tframe) (g : wgeom) : Prop :=
  fst (fst fr) = N.of_nat (List.length (wg_atoms g)) /\ List.length (snd fr) = List.length (wg_atoms g) /\ snd (fst fr) = wg_name g.

(* a count line, a comment and exactly that many lines are read as one frame, whatever they are *)
Lemma text_frames_step fuel cm rs rest :
  text_frames (S fuel) (print_N (N.of_nat (List.length rs)) :: cm :: rs ++ rest) =
  option_map (cons (N.of_nat (List.length rs), cm, rs)) (text_frames fuel rest).
Proof.
  cbn [text_frames]. rewrite parse_int_print_N.
  destruct (Z.ltb_spec (Z.of_N (N.of_nat (List.length rs))) 0) as [Hneg|_]; [lia|].
  rewrite N2Z.id, take_N_app. now destruct (text_frames fuel rest).
Qed.

(* the oracle's reading is a left inverse of writing count-consistent frames out *)
Lemma text_frames_render frs : forallb frame_counts_ok frs = true -> forall fuel,
  (List.length (List.concat (map frame_lines frs)) <= fuel)%nat -> text_frames fuel (List.concat (map frame_lines frs)) = Some frs.
Proof.
  induction frs as [|[[n cm] rs] frs IH]; intros Hc fuel Hf; [now destruct fuel|].
  cbn [forallb] in Hc. apply andb_prop in Hc. destruct Hc as [Hn Hc]. apply N.eqb_eq in Hn. cbn [fst snd] in Hn. subst n.
  cbn [map List.concat frame_lines fst snd app] in *. cbn [List.length] in Hf. rewrite app_length in Hf.
  destruct fuel as [|fuel]; [lia|]. rewrite text_frames_step, IH; [reflexivity|exact Hc|lia].
Qed.

(* the writer writes such frames *)
Lemma write_geom_tframe syms g : write_geom syms g = option_map frame_lines (geom_tframe syms g).
Proof. unfold write_geom, geom_tframe, geom_records. now destruct (map_opt (write_atom syms) (wg_atoms g)). Qed.
Lemma write_xyz_tframes syms gs :
  write_xyz syms gs = option_map (fun frs => List.concat (map frame_lines frs)) (map_opt (geom_tframe syms) gs).
Proof.
  unfold write_xyz. induction gs as [|g gs IH]; [reflexivity|]. cbn [map_opt]. rewrite write_geom_tframe.
  destruct (geom_tframe syms g); [|reflexivity].
  destruct (map_opt (write_geom syms) gs), (map_opt (geom_tframe syms) gs); simpl in *; congruence.
Qed.
Lemma geom_tframe_counts syms fr g : geom_tframe syms g = Some fr -> frame_of fr g.
Proof.
  unfold geom_tframe. destruct (geom_records syms g) as [rs|] eqn:E; [|discriminate]. simpl. intros H. injection H as <-.
  repeat split. now apply map_opt_length in E.
Qed.

(* the oracle's reading of whatever the writer accepts: one frame per geometry, in order, each with its own atom count
   in the header, its name as the comment and exactly its records; the text has no line outside the frames *)
Theorem written_text_counts syms gs ls : write_xyz syms gs = Some ls ->
  exists frs, text_frames (List.length ls) ls = Some frs /\ Forall2 frame_of frs gs /\
              forallb frame_counts_ok frs = true /\ ls = List.concat (map frame_lines frs).
Proof.
  rewrite write_xyz_tframes. destruct (map_opt (geom_tframe syms) gs) as [frs|] eqn:E; [|discriminate].
  intros H. injection H as <-. apply map_opt_Forall2 in E. apply (Forall2_impl _ _ (geom_tframe_counts syms)) in E.
  assert (C : forallb frame_counts_ok frs = true).
  { induction E as [|fr g frs gs (Ha & Hb & _) _ IH]; [reflexivity|].
    cbn [forallb]. unfold frame_counts_ok at 1. now rewrite Ha, Hb, N.eqb_refl. }
  exists frs. repeat split; trivial. now apply text_frames_render.
Qed.

Lemma seqN_from_length s len : List.length (seqN_from s len) = len.
Proof. revert s. induction len as [|len IH]; intros s; simpl; [reflexivity|]. now rewrite IH. Qed.
Lemma seqN_length n : List.length (seqN n) = N.to_nat n.
Proof. apply seqN_from_length. Qed.
Lemma pat_geom_atoms name f : List.length (wg_atoms (pat_geom name f)) = N.to_nat (fst (fst f)).
Proof. destruct f as [[n es] cs]. cbn [pat_geom wg_atoms fst]. now rewrite map_length, seqN_length. Qed.

Lemma In_seqN_from k : forall len s, (s <= k)%N -> (k < s + N.of_nat len)%N -> In k (seqN_from s len).
Proof.
  induction len as [|len IH]; intros s H1 H2; [lia|]. simpl.
  destruct (N.eq_dec s k) as [->|Hne]; [now left|]. right. apply IH; lia.
Qed.

(* every element the pattern uses has a symbol: decided on the regenerated table for all of 1..118 *)
Definition pat_elems_writable (syms : list (Z * str)) : bool :=
  forallb (fun k => match symbol_of syms (Z.of_N k) with Some _ => true | None => false end) (seqN_from 1 118).

Lemma pat_elem_writable syms es i : pat_elems_writable syms = true -> symbol_of syms (pat_elem es i) <> None.
Proof.
  unfold pat_elems_writable, pat_elem. rewrite forallb_forall. intros H. set (m := ((i * 7 + es) mod 118)%N).
  assert (Hm : (m < 118)%N) by (apply N.mod_lt; discriminate). clearbody m.
  assert (Hin : In (1 + m)%N (seqN_from 1 118)) by (apply In_seqN_from; [lia|change (N.of_nat 118) with 118%N; lia]).
  apply H in Hin. now destruct (symbol_of syms (Z.of_N (1 + m))).
Qed.

(* the size family lies inside the writer's domain for EVERY atom count, seed and number of frames *)
Theorem pat_writable syms name fs : pat_elems_writable syms = true -> write_xyz syms (pat_geoms name fs) <> None.
Proof.
  intros H. apply write_xyz_total, Forall_map, Forall_forall. intros [[n es] cs] _.
  apply Forall_map, Forall_forall. intros i _. now apply pat_elem_writable.
Qed.
