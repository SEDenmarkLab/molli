(* C17 -- facts about Model/Job.v.  Dict and N-keyed list equations; the binding step as written (MCopy) described table
   by table, what a history preserves, and independence from the events about other drivers; run_local's command loop
   through an induction principle along it, the exit status, and the capture files read back. *)
From Coq Require Import List Bool ZArith String Lia.
Import ListNotations.
From Molli Require Import Model.Job.
Local Open Scope string_scope.

Lemma str_length_app (a b : string) : String.length (a ++ b) = String.length a + String.length b.
Proof. induction a as [|c a IH]; simpl; [reflexivity|]. now rewrite IH. Qed.

Lemma str_app_inj_len (a b s s' : string) : String.length s = String.length s' -> a ++ s = b ++ s' -> a = b /\ s = s'.
Proof.
  revert b. induction a as [|c a IH]; intros [|d b] Hl H; simpl in H.
  2, 3: exfalso; apply (f_equal String.length) in H; simpl in H; rewrite str_length_app in H; lia.
  - now split.
  - injection H as -> H. destruct (IH b Hl H) as [-> ->]. now split.
Qed.

Lemma out_ne_err (a b : string) : a ++ ".out" <> b ++ ".err".
Proof. intro E. apply str_app_inj_len in E as [_ E]; [discriminate|reflexivity]. Qed.

Section DictFacts.
  Context {V : Type}.
  Implicit Types (d : list (string * V)).

  Lemma dget_dset k k' v d : dget k (dset k' v d) = if String.eqb k k' then Some v else dget k d.
  Proof.
    induction d as [|[k2 v2] r IH]; simpl; [reflexivity|].
    destruct (String.eqb_spec k' k2) as [<-|Hne]; simpl; [now destruct (String.eqb k k')|].
    rewrite IH. destruct (String.eqb_spec k k2) as [->|]; [|reflexivity].
    destruct (String.eqb_spec k2 k'); congruence.
  Qed.

  Lemma dget_dset_same k v d : dget k (dset k v d) = Some v.
  Proof. now rewrite dget_dset, String.eqb_refl. Qed.

  Lemma dget_dset_other k k' v d : k <> k' -> dget k (dset k' v d) = dget k d.
  Proof. intro H. apply String.eqb_neq in H. now rewrite dget_dset, H. Qed.

  Lemma dget_none_notin k d : dget k d = None <-> ~ In k (map fst d).
  Proof.
    induction d as [|[k' v'] r IH]; simpl; [tauto|].
    destruct (String.eqb_spec k k') as [->|Hne]; [|rewrite IH]; intuition congruence.
  Qed.

  Lemma dget_in k v d : NoDup (map fst d) -> In (k, v) d -> dget k d = Some v.
  Proof.
    induction d as [|[k' v'] r IH]; simpl; intros Hnd Hin; [contradiction|].
    inversion Hnd as [|? ? Hni Hnd']; subst.
    destruct Hin as [[= -> ->]|Hin]; [now rewrite String.eqb_refl|].
    destruct (String.eqb_spec k k') as [->|]; [|now apply IH].
    exfalso. apply Hni. now apply (in_map fst) in Hin.
  Qed.

  (* a | b : b wins, a shows through where b has no key *)
  Lemma dget_fold_dset k (b : list (string * V)) : forall a, NoDup (map fst b) ->
    dget k (fold_left (fun (acc : list (string * V)) (kv : string * V) => dset (fst kv) (snd kv) acc) b a)
    = match dget k b with Some v => Some v | None => dget k a end.
  Proof.
    induction b as [|[k' v'] r IH]; intros a Hnd; simpl; [reflexivity|].
    inversion Hnd as [|? ? Hni Hnd']; subst. rewrite IH, dget_dset by assumption.
    destruct (String.eqb_spec k k') as [->|]; [|reflexivity].
    apply dget_none_notin in Hni. now rewrite Hni.
  Qed.

  Lemma dget_dmerge k (a b : list (string * V)) : NoDup (map fst b) ->
    dget k (dmerge a b) = match dget k b with Some v => Some v | None => dget k a end.
  Proof. apply dget_fold_dset. Qed.

  Lemma dset_fresh k v d : ~ In k (map fst d) -> dset k v d = (d ++ [(k, v)])%list.
  Proof.
    induction d as [|[k' v'] r IH]; simpl; intro H; [reflexivity|].
    destruct (String.eqb_spec k k'); [elim H; now left|]. f_equal. apply IH. tauto.
  Qed.

  Lemma fold_dset_fresh (b : list (string * V)) : forall a, NoDup (map fst (a ++ b)) ->
    fold_left (fun (acc : list (string * V)) (kv : string * V) => dset (fst kv) (snd kv) acc) b a = (a ++ b)%list.
  Proof.
    induction b as [|[k v] r IH]; intros a H; simpl; [now rewrite app_nil_r|].
    assert (Hk : ~ In k (map fst a)).
    { rewrite map_app in H. apply NoDup_remove_2 in H. rewrite in_app_iff in H. tauto. }
    rewrite dset_fresh, IH by (rewrite <- ?app_assoc; assumption). now rewrite <- app_assoc.
  Qed.

  Lemma dmerge_nil_l (b : list (string * V)) : NoDup (map fst b) -> dmerge [] b = b.
  Proof. apply (fold_dset_fresh b []). Qed.
End DictFacts.

Lemma nget_nset {V} i j (v : V) l : nget i (nset j v l) = if N.eqb i j then Some v else nget i l.
Proof.
  induction l as [|[k w] r IH]; simpl; [reflexivity|].
  destruct (N.eqb_spec j k) as [<-|Hne]; simpl; [now destruct (N.eqb i j)|].
  rewrite IH. destruct (N.eqb_spec i k) as [->|]; [|reflexivity].
  destruct (N.eqb_spec k j); congruence.
Qed.

Lemma nget_nset_same {V} i (v : V) l : nget i (nset i v l) = Some v.
Proof. now rewrite nget_nset, N.eqb_refl. Qed.

Lemma nget_nset_other {V} i j (v : V) l : i <> j -> nget i (nset j v l) = nget i l.
Proof. intro H. apply N.eqb_neq in H. now rewrite nget_nset, H. Qed.

Definition concerns (i : N) (ev : bevent) : bool :=
  match ev with
  | BCreate j _ _ | BSet j _ | BUse j | BUseCls j | BGet j _ | BGetCls j _ => N.eqb i j
  | BPrep _ => false
  end.

(* the event puts a (new) bound job into the variable h *)
Definition obtains (h : N) (ev : bevent) : bool :=
  match ev with BGet _ k | BGetCls _ k => N.eqb h k | _ => false end.

Lemma brun_cons_fst m st ev r : fst (brun m st (ev :: r)) = fst (brun m (fst (bstep m st ev)) r).
Proof. simpl. destruct (bstep m st ev) as [st1 o]. simpl. now destruct (brun m st1 r). Qed.

Lemma brun_app m evs1 : forall st evs2,
  brun m st (evs1 ++ evs2)
  = (fst (brun m (fst (brun m st evs1)) evs2), snd (brun m st evs1) ++ snd (brun m (fst (brun m st evs1)) evs2))%list.
Proof.
  induction evs1 as [|ev r IH]; intros st evs2; simpl; [now destruct (brun m st evs2)|].
  destruct (bstep m st ev) as [st1 o]. rewrite IH. now destruct (brun m st1 r).
Qed.

Lemma brun_app_fst m evs1 st evs2 : fst (brun m st (evs1 ++ evs2)) = fst (brun m (fst (brun m st evs1)) evs2).
Proof. now rewrite brun_app. Qed.

Lemma brun_preserves m {A} (f : bstate -> A) (keep : bevent -> bool) :
  (forall st ev, keep ev = true -> f (fst (bstep m st ev)) = f st) ->
  forall evs st, forallb keep evs = true -> f (fst (brun m st evs)) = f st.
Proof.
  intro Hstep. induction evs as [|ev r IH]; intros st Hall; [reflexivity|].
  simpl in Hall. apply andb_true_iff in Hall as [H1 H2].
  rewrite brun_cons_fst, IH by exact H2. now apply Hstep.
Qed.

Lemma bstep_shared st ev : bs_shared (fst (bstep MCopy st ev)) = bs_shared st.
Proof.
  destruct ev as [j c s|j s|j|j|j h|j h|j]; simpl; try destruct (nget j (bs_drivers st)) as [[c0 s0]|]; reflexivity.
Qed.

Lemma brun_shared evs st : bs_shared (fst (brun MCopy st evs)) = bs_shared st.
Proof.
  apply (brun_preserves MCopy bs_shared (fun _ => true)); [intros; apply bstep_shared|now apply forallb_forall].
Qed.

(* the event creates or reassigns driver i *)
Definition redefines (i : N) (ev : bevent) : bool :=
  match ev with BCreate j _ _ | BSet j _ => N.eqb i j | _ => false end.

Lemma bstep_driver_frame i st ev : redefines i ev = false ->
  nget i (bs_drivers (fst (bstep MCopy st ev))) = nget i (bs_drivers st).
Proof.
  intro H. destruct ev as [j c s|j s|j|j|j h|j h|j]; simpl in *; try destruct (nget j (bs_drivers st)) as [[c0 s0]|]; simpl;
    trivial; apply nget_nset_other; now apply N.eqb_neq.
Qed.

(* no event other than obtaining into h changes what h holds: not creating, reassigning (even the driver h was
   obtained through), using or obtaining-and-keeping through ANY driver, nor using any kept job *)
Lemma bstep_held_frame h st ev : obtains h ev = false ->
  nget h (bs_held (fst (bstep MCopy st ev))) = nget h (bs_held st).
Proof.
  intro Ho. destruct ev as [j c s|j s|j|j|j k|j k|j]; simpl in *; try destruct (nget j (bs_drivers st)) as [[c0 s0]|]; simpl;
    trivial; apply nget_nset_other; now apply N.eqb_neq.
Qed.

Definition agree (i : N) (st st' : bstate) : Prop :=
  bs_shared st = bs_shared st' /\ nget i (bs_drivers st) = nget i (bs_drivers st').

Lemma bstep_same_driver i st st' ev : concerns i ev = true -> agree i st st' ->
  agree i (fst (bstep MCopy st ev)) (fst (bstep MCopy st' ev)) /\ snd (bstep MCopy st ev) = snd (bstep MCopy st' ev).
Proof.
  intros Hc [Hs Hd]. unfold agree. rewrite !bstep_shared.
  destruct ev as [j c s|j s|j|j|j h|j h|j]; simpl in Hc; try discriminate; apply N.eqb_eq in Hc; subst j.
  (* the four ways of obtaining a job: i's entry stays, what shows is computed from it and the shared descriptor *)
  3-6: rewrite !bstep_driver_frame by reflexivity; simpl; rewrite <- Hs, <- Hd; now destruct (nget i (bs_drivers st)) as [[c0 s0]|].
  - simpl. now rewrite !nget_nset_same.
  - simpl. rewrite <- Hd. destruct (nget i (bs_drivers st)) as [[c0 s0]|] eqn:E; simpl; rewrite ?nget_nset_same, ?E; auto.
Qed.

Lemma brun_filter i evs : forall st st', agree i st st' ->
  agree i (fst (brun MCopy st evs)) (fst (brun MCopy st' (filter (concerns i) evs))).
Proof.
  induction evs as [|ev r IH]; intros st st' H; [exact H|].
  rewrite brun_cons_fst. cbn [filter]. destruct (concerns i ev) eqn:Hc.
  - rewrite brun_cons_fst. now apply IH, bstep_same_driver.
  - apply IH. destruct H as [Hs Hd]. split; [now rewrite bstep_shared|].
    rewrite bstep_driver_frame; [exact Hd|]. now destruct ev.
Qed.

(* what obtaining the job through driver i and using it at once yields after a history *)
Definition use_after (decl : settings) (evs : list bevent) (i : N) : option bound :=
  snd (bstep MCopy (fst (brun MCopy (binit decl) evs)) (BUse i)).
(* the same through driver i's class *)
Definition usecls_after (decl : settings) (evs : list bevent) (i : N) : option bound :=
  snd (bstep MCopy (fst (brun MCopy (binit decl) evs)) (BUseCls i)).
(* what using the bound job KEPT in variable h yields after a history *)
Definition held_after (decl : settings) (evs : list bevent) (h : N) : option bound :=
  snd (bstep MCopy (fst (brun MCopy (binit decl) evs)) (BPrep h)).

Theorem binding_value decl evs i c s :
  nget i (bs_drivers (fst (brun MCopy (binit decl) evs))) = Some (c, s) ->
  use_after decl evs i = Some (bind decl c s).
Proof. intro H. unfold use_after. simpl. rewrite H. simpl. now rewrite brun_shared. Qed.

Lemma held_after_split decl evs1 ev h evs2 :
  forallb (fun ev => negb (obtains h ev)) evs2 = true ->
  held_after decl (evs1 ++ ev :: evs2) h
  = nget h (bs_held (fst (bstep MCopy (fst (brun MCopy (binit decl) evs1)) ev))).
Proof.
  intro Hall. unfold held_after. rewrite brun_app_fst, brun_cons_fst. cbn [bstep snd].
  apply (brun_preserves MCopy (fun st => nget h (bs_held st)) _) with (2 := Hall).
  intros st e H. apply bstep_held_frame. now apply negb_true_iff.
Qed.

Lemma obtain_holds st i h b :
  (snd (bstep MCopy st (BUse i)) = Some b -> nget h (bs_held (fst (bstep MCopy st (BGet i h)))) = Some b)
  /\ (snd (bstep MCopy st (BUseCls i)) = Some b -> nget h (bs_held (fst (bstep MCopy st (BGetCls i h)))) = Some b).
Proof.
  simpl. destruct (nget i (bs_drivers st)) as [[c s]|]; simpl; split; try discriminate; now rewrite nget_nset_same.
Qed.

(* `h = d_i.job` at some moment, then ANY continuation that does not put another object into h: using h yields
   exactly what using driver i at the moment of obtaining would have yielded *)
Theorem held_fixed decl evs1 i h evs2 b :
  use_after decl evs1 i = Some b ->
  forallb (fun ev => negb (obtains h ev)) evs2 = true ->
  held_after decl (evs1 ++ BGet i h :: evs2) h = Some b.
Proof. intros Hu Hall. rewrite held_after_split by exact Hall. now apply obtain_holds. Qed.

(* two drivers created, then each used at once: the history on which the variant of __get__ that assigns to the shared
   descriptor (MSticky) shows the first driver's settings through the second (Props/C17.v, C17_binding_sticky_refuted) *)
Definition sticky_witness : list bevent :=
  [BCreate 1 no_settings (mk_settings (Some "sh") (Some 4%N) None (Some [("A", "1")]));
   BCreate 2 no_settings (mk_settings (Some "bash") (Some 8%N) None (Some [("B", "2")]));
   BUse 1; BUse 2].
(* ja = d1.job; jb = d2.job; ja.prepare(x); jb.prepare(x): two jobs held side by side, the history on which the variant
   that refreshes one bound object per descriptor (MShared) shows d2's settings through ja (C17_binding_shared_refuted) *)
Definition shared_witness : list bevent :=
  [BCreate 1 no_settings (mk_settings (Some "sh") (Some 4%N) None (Some [("A", "1")]));
   BCreate 2 no_settings (mk_settings (Some "bash") (Some 8%N) None (Some [("B", "2")]));
   BGet 1 0; BGet 2 1; BPrep 0; BPrep 1].
(* the event keeps no bound job and uses none that was kept: on histories of such events MShared cannot be told from
   MCopy (C17_binding_shared_invisible_when_immediate) *)
Definition immediate (ev : bevent) : bool :=
  match ev with BGet _ _ | BGetCls _ _ | BPrep _ => false | _ => true end.

Lemma shared_step_immediate st ev : immediate ev = true -> bs_held st = [] ->
  bstep MShared st ev = bstep MCopy st ev /\ bs_held (fst (bstep MCopy st ev)) = [].
Proof.
  intros Hi Hh. destruct ev as [j c s|j s|j|j|j k|j k|j]; simpl in *; try discriminate;
    try destruct (nget j (bs_drivers st)) as [[c0 s0]|]; unfold after_access; simpl; now rewrite ?Hh.
Qed.

Section RunLocalFacts.
  Variable cmd : Type.
  Variable exec : cmd -> env -> fs -> cmd_result.
  Variable hash : jobinput cmd -> string.

  Notation loop := (loop cmd exec).
  Notation step := (step cmd).

  Definition ok (s : step) : Prop := r_code (st_res s) = 0%Z.
  Definition cmd_of (s : step) : cmd * option string := (st_cmd s, st_name s).

  (* the steps form a chain through the directory states, each step is the oracle applied to its command *)
  Fixpoint chained (e : env) (f : fs) (sts : list step) : Prop :=
    match sts with
    | [] => True
    | s :: r => st_before s = open_caps (st_name s) f
                /\ st_res s = exec (st_cmd s) e (st_before s)
                /\ st_after s = close_caps (st_name s) (st_res s)
                /\ chained e (st_after s) r
    end.

  (* one pass through the body of the command loop *)
  Definition run1 (e : env) (c : cmd) (nm : option string) (f : fs) : step :=
    let f0 := open_caps nm f in let r := exec c e f0 in mk_step c nm f0 r (close_caps nm r).

  Lemma loop_cons e c nm rest f :
    loop e ((c, nm) :: rest) f
    = run1 e c nm f :: (if (r_code (st_res (run1 e c nm f)) =? 0)%Z then loop e rest (st_after (run1 e c nm f)) else []).
  Proof. unfold run1. simpl. now destruct (r_code _ =? 0)%Z. Qed.

  (* induction along the loop: no command; it stops behind a failing command; it goes on behind a successful one *)
  Lemma loop_induction e (P : list (cmd * option string) -> fs -> list step -> Prop) :
    (forall f, P [] f []) ->
    (forall c nm rest f, let s := run1 e c nm f in ~ ok s -> P ((c, nm) :: rest) f [s]) ->
    (forall c nm rest f, let s := run1 e c nm f in forall sts, ok s -> P rest (st_after s) sts -> P ((c, nm) :: rest) f (s :: sts)) ->
    forall cs f, P cs f (loop e cs f).
  Proof.
    intros Hnil Hfail Hok. induction cs as [|[c nm] rest IH]; intro f; [apply Hnil|].
    rewrite loop_cons. destruct (Z.eqb_spec (r_code (st_res (run1 e c nm f))) 0); [apply Hok|apply Hfail]; auto.
  Qed.

  Lemma loop_chained e cs f : chained e f (loop e cs f).
  Proof. apply (loop_induction e (fun _ f sts => chained e f sts)); simpl; intuition. Qed.

  Lemma loop_prefix e cs f : exists rest, (map cmd_of (loop e cs f) ++ rest)%list = cs.
  Proof.
    apply (loop_induction e (fun cs _ sts => exists rest, (map cmd_of sts ++ rest)%list = cs)).
    - now exists [].
    - intros c nm rest f0 s _. now exists rest.
    - intros c nm rest f0 s sts _ [r <-]. now exists r.
  Qed.

  Lemma loop_init_ok e cs f : Forall ok (removelast (loop e cs f)).
  Proof.
    apply (loop_induction e (fun _ _ sts => Forall ok (removelast sts))); try constructor.
    intros c nm rest f0 s [|s2 l] Hs IH; constructor; assumption.
  Qed.

  Lemma loop_all_ok_complete e cs f : Forall ok (loop e cs f) -> List.length (loop e cs f) = List.length cs.
  Proof.
    apply (loop_induction e (fun cs _ sts => Forall ok sts -> List.length sts = List.length cs)).
    - reflexivity.
    - intros c nm rest f0 s Hs H. now inversion H.
    - intros c nm rest f0 s sts _ IH H. simpl. f_equal. apply IH. now inversion H.
  Qed.

  Lemma loop_length_le e cs : forall f, List.length (loop e cs f) <= List.length cs.
  Proof. apply (loop_induction e (fun cs _ sts => List.length sts <= List.length cs)); simpl; intros; lia. Qed.

  Lemma loop_short_fails e cs f : List.length (loop e cs f) < List.length cs ->
    exists l s, loop e cs f = (l ++ [s])%list /\ r_code (st_res s) <> 0%Z.
  Proof.
    apply (loop_induction e (fun cs _ sts => List.length sts < List.length cs ->
                                             exists l s, sts = (l ++ [s])%list /\ r_code (st_res s) <> 0%Z)).
    - simpl. lia.
    - intros c nm rest f0 s Hs _. now exists [], s.
    - intros c nm rest f0 s sts _ IH H. destruct IH as (l & s' & -> & Hs'); [simpl in H; lia|]. now exists (s :: l), s'.
  Qed.

  Lemma loop_nonempty e cs f : cs <> [] -> loop e cs f <> [].
  Proof. destruct cs as [|[c nm] r]; [congruence|]. rewrite loop_cons. discriminate. Qed.

  Lemma last_code_app (l : list step) (s : step) : last_code (l ++ [s])%list = Some (r_code (st_res s)).
  Proof. unfold last_code. now rewrite rev_unit. Qed.

  Lemma last_code_cons (s : step) l : l <> [] -> last_code (s :: l) = last_code l.
  Proof. intro H. destruct (exists_last H) as [l' [x ->]]. unfold last_code. simpl. now rewrite rev_unit. Qed.

  Lemma last_code_none (l : list step) : last_code l = None -> l = [].
  Proof. destruct l as [|a l] using rev_ind; [reflexivity|]. rewrite last_code_app. discriminate. Qed.

  Lemma all_ok_iff_last e cs f c : last_code (loop e cs f) = Some c ->
    (Forall ok (loop e cs f) <-> c = 0%Z).
  Proof.
    pose proof (loop_init_ok e cs f) as Hin. revert Hin.
    destruct (loop e cs f) as [|a l _] using rev_ind; [discriminate|].
    rewrite last_code_app, removelast_last, Forall_app. intros Hin [= <-].
    split; [intros [_ H]; now inversion H | intro H; split; [exact Hin|now constructor]].
  Qed.

  Lemma collect_spec f req n :
    dget n (collect f req) = if existsb (String.eqb n) req then dget n f else None.
  Proof.
    (* collect is a left fold: by induction on the last requested name *)
    unfold collect. induction req as [|r rs IH] using rev_ind; [reflexivity|].
    rewrite fold_left_app, existsb_app. simpl. rewrite orb_false_r.
    destruct (dget r f) eqn:E; rewrite ?dget_dset, IH; destruct (String.eqb_spec n r) as [->|];
      rewrite ?E, ?orb_true_r, ?orb_false_r; try reflexivity.
    now destruct (existsb (String.eqb r) rs).
  Qed.

  Lemma all_present_spec f req : all_present f req = true <-> forall n, In n req -> dget n f <> None.
  Proof.
    unfold all_present. rewrite forallb_forall. unfold dhas.
    split; intros H n Hn; specialize (H n Hn); destruct (dget n f); congruence.
  Qed.

  Definition all_succeeded (inp : jobinput cmd) (sts : list step) : Prop :=
    List.length sts = List.length (ji_cmds inp) /\ Forall ok sts.

  (* the exit status and the recorded exit code, from the last command's code c and "every requested file exists" *)
  Lemma exit_zero (c : Z) (present : bool) :
    ((if negb (c =? 0)%Z || negb present then 1%Z else c) = 0%Z <-> c = 0%Z /\ present = true)
    /\ ((if (c =? 0)%Z && negb present then 1%Z else c) = 0%Z <-> c = 0%Z /\ present = true).
  Proof. destruct (Z.eqb_spec c 0), present; simpl; intuition (discriminate || congruence). Qed.

  Definition cap_files (cs : list (cmd * option string)) : list string :=
    flat_map (fun c => match snd c with Some n => [n ++ ".out"; n ++ ".err"] | None => [] end) cs.

  (* x is not a capture file of a command named nm *)
  Definition not_cap (x : string) (nm : option string) : Prop :=
    forall n, nm = Some n -> x <> n ++ ".out" /\ x <> n ++ ".err".

  Lemma open_caps_other nm f x : not_cap x nm -> dget x (open_caps nm f) = dget x f.
  Proof.
    intro H. destruct nm as [n|]; simpl; [|reflexivity].
    destruct (H n eq_refl) as [H1 H2]. now rewrite !dget_dset_other.
  Qed.

  Lemma close_caps_other nm r x : not_cap x nm -> dget x (close_caps nm r) = dget x (r_fs r).
  Proof.
    intro H. destruct nm as [n|]; simpl; [|reflexivity].
    destruct (H n eq_refl) as [H1 H2]. now rewrite !dget_dset_other.
  Qed.

  Lemma close_caps_own n r :
    dget (n ++ ".out") (close_caps (Some n) r) = Some (r_out r) /\ dget (n ++ ".err") (close_caps (Some n) r) = Some (r_err r).
  Proof.
    simpl. split.
    - rewrite dget_dset_other by apply out_ne_err. apply dget_dset_same.
    - apply dget_dset_same.
  Qed.

  Lemma cap_name_distinct n m : n <> m ->
    (n ++ ".out" <> m ++ ".out" /\ n ++ ".out" <> m ++ ".err") /\ (n ++ ".err" <> m ++ ".out" /\ n ++ ".err" <> m ++ ".err").
  Proof.
    intro H. repeat split; intro E; apply str_app_inj_len in E as [E1 E2]; try reflexivity; first [contradiction|discriminate].
  Qed.

  Lemma in_names_of (sts : list step) n : In n (names_of sts) <-> exists s, In s sts /\ st_name s = Some n.
  Proof.
    unfold names_of. rewrite in_flat_map. split; intros [s [Hs Hn]]; exists s; split; try exact Hs.
    - destruct (st_name s) as [m|]; [destruct Hn as [->|[]]; reflexivity|destruct Hn].
    - rewrite Hn. now left.
  Qed.

  Section Captures.
    Variable protected : list string.
    (* the commands leave the capture files alone *)
    Hypothesis exec_keeps : forall c e f x, In x protected -> dget x (r_fs (exec c e f)) = dget x f.

    Lemma chained_keeps e x : In x protected -> forall sts f,
      chained e f sts -> (forall s, In s sts -> not_cap x (st_name s)) -> dget x (final_fs f sts) = dget x f.
    Proof.
      intros Hx. induction sts as [|s r IH]; intros f Hch Hnm; [reflexivity|].
      destruct Hch as (Hb & Hr & Ha & Hch). simpl.
      rewrite IH by (try intros s' Hs'; auto using in_cons).
      rewrite Ha, close_caps_other, Hr, exec_keeps, Hb by auto using in_eq. apply open_caps_other. auto using in_eq.
    Qed.

    Lemma final_captures e : forall sts f,
      chained e f sts -> NoDup (names_of sts) ->
      (forall s n, In s sts -> st_name s = Some n -> In (n ++ ".out") protected /\ In (n ++ ".err") protected) ->
      forall s n, In s sts -> st_name s = Some n ->
        dget (n ++ ".out") (final_fs f sts) = Some (r_out (st_res s))
        /\ dget (n ++ ".err") (final_fs f sts) = Some (r_err (st_res s)).
    Proof.
      induction sts as [|s0 r IH]; intros f Hch Hnd Hprot s n Hs Hn; [destruct Hs|].
      destruct Hch as (Hb & Hr & Ha & Hch). simpl.
      destruct Hs as [<-|Hs].
      - (* the head: its captures are written now and survive the rest *)
        assert (Hother : forall s', In s' r -> forall m, st_name s' = Some m -> n <> m).
        { intros s' Hs' m Hm ->. unfold names_of in Hnd. simpl in Hnd. rewrite Hn in Hnd.
          apply NoDup_cons_iff in Hnd as [Hnd _]. apply Hnd, in_names_of. now exists s'. }
        destruct (Hprot s0 n (or_introl eq_refl) Hn) as [Po Pe].
        rewrite !(chained_keeps e _) with (f := st_after s0); try assumption;
          try (intros s' Hs' m Hm; apply (cap_name_distinct n m), (Hother s' Hs' m Hm)).
        rewrite Ha, Hn. apply close_caps_own.
      - apply IH; try assumption.
        + unfold names_of in *. simpl in Hnd. destruct (st_name s0); [now inversion Hnd|exact Hnd].
        + intros s' m Hs' Hm. apply (Hprot s' m); [now right|exact Hm].
    Qed.

    Lemma read_caps_ok ext f : forall names acc, (forall n, In n names -> dget (n ++ ext) f <> None) ->
      exists d, read_caps ext f names acc = Some d
                /\ (forall n, In n names -> dget n d = dget (n ++ ext) f) /\ (forall n, ~ In n names -> dget n d = dget n acc).
    Proof.
      induction names as [|n0 r IH]; intros acc H; simpl; [exists acc; now repeat split|].
      destruct (dget (n0 ++ ext) f) as [v|] eqn:E; [|elim (H n0); [now left|exact E]].
      destruct (IH (dset n0 v acc)) as (d & -> & I1 & I2); [intros n Hn; apply H; now right|].
      exists d. split; [reflexivity|]. split.
      - intros n [<-|Hn]; [|now apply I1].
        (* a name listed twice is read twice, with the same result *)
        destruct (in_dec string_dec n0 r) as [Hin|Hni]; [now apply I1|]. now rewrite I2, dget_dset_same, E.
      - intros n Hn. rewrite I2, dget_dset_other; intuition congruence.
    Qed.

    (* stdout/stderr are recorded for every executed named command, with what it wrote, and for nothing else;
       and reading them back cannot fail *)
    Theorem captures_exact e cs f0 :
      let sts := loop e cs f0 in
      NoDup (names_of sts) ->
      (forall x, In x (cap_files cs) -> In x protected) ->
      exists so se,
        read_caps ".out" (final_fs f0 sts) (names_of sts) [] = Some so
        /\ read_caps ".err" (final_fs f0 sts) (names_of sts) [] = Some se
        /\ (forall s n, In s sts -> st_name s = Some n ->
              dget n so = Some (r_out (st_res s)) /\ dget n se = Some (r_err (st_res s)))
        /\ (forall n, ~ In n (names_of sts) -> dget n so = None /\ dget n se = None).
    Proof.
      intros sts Hnd Hprot.
      assert (Hp : forall s n, In s sts -> st_name s = Some n -> In (n ++ ".out") protected /\ In (n ++ ".err") protected).
      { (* an executed command is one of the job's commands *)
        intros s n Hs Hn. destruct (loop_prefix e cs f0) as [rest Hrest]. apply (in_map cmd_of) in Hs.
        unfold cmd_of at 1 in Hs. rewrite Hn in Hs.
        split; apply Hprot, in_flat_map; exists (st_cmd s, Some n); rewrite <- Hrest, in_app_iff; simpl; auto. }
      pose proof (final_captures e sts f0 (loop_chained e cs f0) Hnd Hp) as Hfin.
      assert (Hin : forall n, In n (names_of sts) -> exists s, In s sts /\ st_name s = Some n) by (intro n; apply in_names_of).
      destruct (read_caps_ok ".out" (final_fs f0 sts) (names_of sts) []) as (so & Hso & O1 & O2).
      { intros n Hn. destruct (Hin n Hn) as (s & Hs & Hsn). destruct (Hfin s n Hs Hsn) as [-> _]. discriminate. }
      destruct (read_caps_ok ".err" (final_fs f0 sts) (names_of sts) []) as (se & Hse & E1 & E2).
      { intros n Hn. destruct (Hin n Hn) as (s & Hs & Hsn). destruct (Hfin s n Hs Hsn) as [_ ->]. discriminate. }
      exists so, se. split; [exact Hso|]. split; [exact Hse|]. split.
      - intros s n Hs Hn. rewrite O1, E1 by (apply in_names_of; now exists s). now apply Hfin.
      - intros n Hn. now rewrite O2, E2.
    Qed.
  End Captures.

  Lemma run_local_unfold scratch td base inp :
    run_local cmd exec hash scratch td base inp
    = mk_rr cmd (fst (body cmd exec hash base inp)) (snd (body cmd exec hash base inp))
        (flat_map (fun s => r_ext (st_res s)) (snd (body cmd exec hash base inp))) scratch.
  Proof.
    unfold run_local. destruct (body cmd exec hash base inp) as [o sts]. simpl. now rewrite String.eqb_refl.
  Qed.

  Lemma body_steps base inp :
    snd (body cmd exec hash base inp) = loop (overlay base (ji_env inp)) (ji_cmds inp) (materialise (ji_files inp)).
  Proof.
    unfold body. cbv zeta.
    destruct (read_caps ".out" _ _ []); [|reflexivity].
    destruct (read_caps ".err" _ _ []); [|reflexivity].
    destruct (last_code _); reflexivity.
  Qed.

End RunLocalFacts.
