(* C12: lemmas about Model/Join.v: the inversion of a successful join and what survives it (any field), the two
   placement maps over R, the deterministic orthogonal vector, the index arithmetic of the combine loop. *)
From Coq Require Import Reals Lra List ZArith Lia Bool Sorted.
From Molli Require Import Common.Field3 Common.Field3R Model.Rot Proofs.Rot Proofs.RotMotion Model.Join.
From Molli Require Import Common.ListFacts.
Import ListNotations.

Lemma pmem_spec x l : pmem x l = true <-> In x l.
Proof. exact (existsb_eqb_In Pos.eqb Pos.eqb_eq x l). Qed.

Lemma combine_app {A B} (l1 l2 : list A) (m1 m2 : list B) :
  length l1 = length m1 -> combine (l1 ++ l2) (m1 ++ m2) = combine l1 m1 ++ combine l2 m2.
Proof.
  revert m1. induction l1 as [|a l1 IH]; intros [|b m1] H; simpl in *; try discriminate; [reflexivity|].
  f_equal. apply IH. lia.
Qed.
Lemma combine_map_r {A B C} (g : B -> C) (l : list A) (m : list B) :
  combine l (map g m) = map (fun p => (fst p, g (snd p))) (combine l m).
Proof. revert m. induction l as [|a l IH]; intros [|b m]; simpl; try reflexivity. now rewrite IH. Qed.

Lemma filter_nil {A} (f : A -> bool) (l : list A) : (forall a, In a l -> f a = false) -> filter f l = [].
Proof.
  induction l as [|a l IH]; intros H; simpl; [reflexivity|].
  rewrite (H a (or_introl eq_refl)). apply IH. intros; apply H; now right.
Qed.
Lemma filter_true {A} (l : list A) : filter (fun _ => true) l = l.
Proof. induction l; simpl; congruence. Qed.
Lemma filter_filter {A} (f g : A -> bool) (l : list A) : filter g (filter f l) = filter (fun a => f a && g a)%bool l.
Proof. induction l as [|a l IH]; simpl; [reflexivity|]. destruct (f a); simpl; [destruct (g a)|]; now rewrite IH. Qed.

Lemma in_firstn {A} (l : list A) n x : In x (firstn n l) -> In x l.
Proof. intros H. rewrite <- (firstn_skipn n l). apply in_or_app. now left. Qed.

Lemma NoDup_app_disjoint {A} (l m : list A) x : NoDup (l ++ m) -> In x l -> In x m -> False.
Proof. intros ND. apply NoDup_app in ND. apply ND. Qed.

(* "not the atom called ap", on a row (name, coordinates) and on an atom: the filters that drop an attachment point *)
Definition key_not (ap : positive) {B} (p : positive * B) : bool := negb (Pos.eqb (fst p) ap).
Definition id_not (ap : positive) (a : atom) : bool := negb (Pos.eqb (a_id a) ap).

Lemma in_ids a l : In a l -> In (a_id a) (ids l).
Proof. apply in_map. Qed.

(* the boolean mask over the atom list and the filter over the atom list delete the same positions *)
Lemma mask_loc_combine {B} (ap : positive) (l : list atom) (X : list B) :
  length X = length l ->
  combine (ids (filter (id_not ap) l)) (mask_rows (loc ap l) X) = filter (key_not ap) (combine (ids l) X)
  /\ length (mask_rows (loc ap l) X) = length (filter (id_not ap) l).
Proof.
  revert X. induction l as [|a l IH]; intros [|x X] H; simpl in *; try discriminate; [split; reflexivity|].
  assert (H' : length X = length l) by lia. destruct (IH X H') as [E L].
  clear IH. unfold id_not, key_not in *. simpl in *. destruct (Pos.eqb (a_id a) ap); simpl; split; congruence.
Qed.

(* Among the atoms that `keep` selects, deleting the one at position n of a list with unique names: of the first n'
   positions, one fewer is selected exactly when n < n'. *)
Lemma filter_drop_nth (keep : atom -> bool) (d : atom) (L : list atom) : forall n n',
  NoDup (ids L) -> (n < length L)%nat -> keep (nth n L d) = true ->
  (length (filter (fun a => keep a && id_not (a_id (nth n L d)) a)%bool (firstn n' L)) + (if (n <? n')%nat then 1 else 0)
   = length (filter keep (firstn n' L)))%nat.
Proof.
  induction L as [|a L IH]; intros n n' ND Hn K; simpl in Hn; [lia|].
  destruct n' as [|n']; [reflexivity|]. inversion ND as [|? ? Ha ND']; subst.
  destruct n as [|n]; simpl in K |- *.
  - (* the head goes; nothing behind it carries its name *)
    rewrite K. unfold id_not at 1. rewrite Pos.eqb_refl. simpl.
    rewrite (filter_ext_in _ keep); [lia|]. intros b Hb. unfold id_not.
    destruct (Pos.eqb_spec (a_id b) (a_id a)) as [E|_]; [|apply andb_true_r].
    destruct Ha. rewrite <- E. eapply in_ids, in_firstn, Hb.
  - assert (NE : id_not (a_id (nth n L d)) a = true).
    { apply negb_true_iff, Pos.eqb_neq. intros E. apply Ha. rewrite E. apply in_ids, nth_In. lia. }
    rewrite NE, andb_true_r. specialize (IH n n' ND' ltac:(lia) K).
    change (S n <? S n')%nat with (n <? n')%nat. destruct (keep a); simpl; lia.
Qed.
Lemma filter_id_not_length x l : NoDup (ids l) -> In x (ids l) -> S (length (filter (id_not x) l)) = length l.
Proof.
  intros ND Hx. apply in_map_iff in Hx. destruct Hx as [a [<- Ha]]. destruct (In_nth _ _ a Ha) as [n [Hn <-]].
  pose proof (filter_drop_nth (fun _ => true) a l n (length l) ND Hn eq_refl) as C.
  rewrite firstn_all, (proj2 (Nat.ltb_lt _ _) Hn), filter_true in C. rewrite <- C, Nat.add_1_r. reflexivity.
Qed.

Lemma get_atom_by_name l x : In x (ids l) -> get_atom l (ById x) = Some x.
Proof. intros H. simpl. now rewrite (proj2 (pmem_spec _ _) H). Qed.
Lemma get_atom_by_index l k a : nth_error l k = Some a -> get_atom l (ByIdx (Z.of_nat k)) = Some (a_id a).
Proof.
  intros H. assert (L : (k < length l)%nat) by (apply nth_error_Some; congruence). simpl.
  destruct (Z.leb_spec 0 (Z.of_nat k)); [|lia]. destruct (Z.ltb_spec (Z.of_nat k) (Z.of_nat (length l))); [|lia].
  now rewrite Nat2Z.id, H.
Qed.
Lemma get_atom_by_name_inv l x y : get_atom l (ById x) = Some y -> y = x.
Proof. simpl. destruct (pmem x (ids l)); congruence. Qed.
Lemma get_atom_in l s x : get_atom l s = Some x -> In x (ids l).
Proof.
  destruct s as [y|i]; simpl.
  - destruct (pmem y (ids l)) eqn:E; [|discriminate]. intros H. injection H; intros <-. now apply pmem_spec.
  - match goal with |- match ?kk with _ => _ end = _ -> _ => destruct kk as [k|] end; [|discriminate].
    destruct (nth_error l k) as [a|] eqn:E; [|discriminate]. simpl. intros H. injection H; intros <-.
    apply in_ids. eapply nth_error_In; eauto.
Qed.

Definition wf_bonds {F} (f : frag F) : Prop :=
  forall b, In b (fr_bonds f) -> In (b_a1 b) (ids (fr_atoms f)) /\ In (b_a2 b) (ids (fr_atoms f)).

Lemma incident_ends x b : incident x b = true -> x = b_a1 b \/ x = b_a2 b.
Proof. unfold incident. rewrite orb_true_iff, !Pos.eqb_eq. intuition. Qed.
Lemma same_ends_ends x y b : same_ends x y b = true -> (b_a1 b = x /\ b_a2 b = y) \/ (b_a1 b = y /\ b_a2 b = x).
Proof. unfold same_ends. rewrite orb_true_iff, !andb_true_iff, !Pos.eqb_eq. intuition. Qed.

Lemma first_neighbour_in {F} (f : frag F) x y : wf_bonds f -> first_neighbour (fr_bonds f) x = Some y -> In y (ids (fr_atoms f)).
Proof.
  intros W. unfold first_neighbour. destruct (filter (incident x) (fr_bonds f)) as [|b r] eqn:E; [discriminate|].
  intros H. injection H; intros <-. assert (Hb : In b (filter (incident x) (fr_bonds f))) by (rewrite E; now left).
  apply filter_In in Hb. destruct (W b (proj1 Hb)). unfold other_end. destruct (Pos.eqb (b_a1 b) x); assumption.
Qed.

Lemma sole_neighbour bs x y b : n_bonds_with bs x = 1%nat -> first_neighbour bs x = Some y ->
  In b bs -> incident x b = true -> other_end x b = y.
Proof.
  unfold n_bonds_with, first_neighbour. intros N H Hb Hi.
  assert (Hf : In b (filter (incident x) bs)) by (apply filter_In; now split).
  destruct (filter (incident x) bs) as [|b0 [|b1 r]]; simpl in N; try discriminate.
  injection H; intros <-. destruct Hf as [->|[]]. reflexivity.
Qed.

(* A name y that does not occur in l: on the atoms of l, keep_atom only tests the other name (in whichever argument
   position); the same for keep_bond on the bonds of a well-formed fragment. *)
Lemma keep_atom_foreign x y l a : ~ In y (ids l) -> In a l ->
  keep_atom x y a = id_not x a /\ keep_atom y x a = id_not x a.
Proof.
  intros N Ha. assert (K : Pos.eqb (a_id a) y = false).
  { apply Pos.eqb_neq. intros E. apply N. rewrite <- E. now apply in_ids. }
  unfold keep_atom, id_not. rewrite K. split; [apply andb_true_r | reflexivity].
Qed.
Lemma ids_filter_keep a1 a2 l x : In x (ids (filter (keep_atom a1 a2) l)) -> x <> a1 /\ x <> a2.
Proof.
  unfold ids. rewrite in_map_iff. intros [a [<- Ha]]. apply filter_In in Ha. destruct Ha as [_ K].
  unfold keep_atom in K. rewrite andb_true_iff, !negb_true_iff, !Pos.eqb_neq in K. exact K.
Qed.
Lemma keep_bond_foreign {F} (f : frag F) x y b : wf_bonds f -> ~ In y (ids (fr_atoms f)) -> In b (fr_bonds f) ->
  keep_bond x y b = negb (incident x b) /\ keep_bond y x b = negb (incident x b).
Proof.
  intros W N Hb. assert (K : incident y b = false).
  { destruct (incident y b) eqn:E; [|reflexivity]. destruct N. destruct (W b Hb).
    destruct (incident_ends _ _ E) as [->| ->]; assumption. }
  unfold keep_bond. rewrite K. split; [apply andb_true_r | reflexivity].
Qed.

Section Inversion.
Context {F : Type} (o : Fops F).

Definition rows (f : frag F) : list (positive * vec F) := combine (ids (fr_atoms f)) (fr_coords f).

(* what join resolved its arguments to (fields are read as `rs_a1 RS`: their parameters are implicit) *)
Set Implicit Arguments.
Record resolved (A B : frag F) (s1 s2 : asel) (a1 a2 a1r a2r : positive) (r1 p1 r2 p2 : vec F) : Prop := mkResolved {
  rs_a1 : get_atom (fr_atoms A) s1 = Some a1;
  rs_a2 : get_atom (fr_atoms B) s2 = Some a2;
  rs_n1 : n_bonds_with (fr_bonds A) a1 = 1%nat;
  rs_n2 : n_bonds_with (fr_bonds B) a2 = 1%nat;
  rs_a1r : first_neighbour (fr_bonds A) a1 = Some a1r;
  rs_a2r : first_neighbour (fr_bonds B) a2 = Some a2r;
  rs_lenA : length (fr_coords A) = length (fr_atoms A);
  rs_lenB : length (fr_coords B) = length (fr_atoms B);
  rs_r1 : coord_of A a1r = Some r1;
  rs_p1 : coord_of A a1 = Some p1;
  rs_r2 : coord_of B a2r = Some r2;
  rs_p2 : coord_of B a2 = Some p2
}.
Unset Implicit Arguments.

Definition product (A B : frag F) (op : jopts F) (w : jwit F) (a1 a2 a1r a2r : positive) (r1 p1 r2 p2 : vec F) : frag F :=
  let v1 := vsub o p1 r1 in
  let v2 := vsub o p2 r2 in
  mkFrag (filter (keep_atom a1 a2) (fr_atoms A ++ fr_atoms B))
         (filter (keep_bond a1 a2) (fr_bonds A ++ fr_bonds B) ++ [mkBond a1r a2r (o_nb op)])
         (map (place_A o r1) (mask_rows (loc a1 (fr_atoms A)) (fr_coords A))
          ++ map (place_B o (join_rot o v1 (w_n1 w) v2 (w_n2 w) (w_ov w)) (join_shift o v1 (w_n1 w) (bond_len o op))
                            (join_twist o v1 (w_n1 w) (w_twist w)) r2)
                 (mask_rows (loc a2 (fr_atoms B)) (fr_coords B)))
         (join_charge (o_charge op) (fr_charge A) (fr_charge B))
         (join_mult (o_mult op) (fr_mult A) (fr_mult B)).

(* a successful join: what was resolved, the product as a term, and the checks join made on it (every surviving
   bond and the two former neighbours name atoms of the product) *)
Lemma join_inv A B s1 s2 op w P : join o A B s1 s2 op w = Some P ->
  exists a1 a2 a1r a2r r1 p1 r2 p2,
    resolved A B s1 s2 a1 a2 a1r a2r r1 p1 r2 p2 /\
    P = product A B op w a1 a2 a1r a2r r1 p1 r2 p2 /\
    (forall b, In b (filter (keep_bond a1 a2) (fr_bonds A ++ fr_bonds B)) ->
       In (b_a1 b) (ids (fr_atoms P)) /\ In (b_a2 b) (ids (fr_atoms P))) /\
    In a1r (ids (fr_atoms P)) /\ In a2r (ids (fr_atoms P)).
Proof.
  unfold join.
  destruct (get_atom (fr_atoms A) s1) as [a1|] eqn:G1; [|discriminate].
  destruct (get_atom (fr_atoms B) s2) as [a2|] eqn:G2; [|discriminate].
  destruct (Nat.eqb (n_bonds_with (fr_bonds A) a1) 1 && Nat.eqb (n_bonds_with (fr_bonds B) a2) 1)%bool eqn:NB; [|discriminate].
  rewrite andb_true_iff, !Nat.eqb_eq in NB. destruct NB as [N1 N2].
  destruct (first_neighbour (fr_bonds A) a1) as [a1r|] eqn:R1; [|discriminate].
  destruct (first_neighbour (fr_bonds B) a2) as [a2r|] eqn:R2; [|discriminate].
  cbv zeta.
  match goal with |- (if ?c then _ else _) = _ -> _ => destruct c eqn:CK; [|discriminate] end.
  rewrite !andb_true_iff, !Nat.eqb_eq, !pmem_spec, forallb_forall in CK. destruct CK as [[[[CB C1] C2] LA] LB].
  destruct (coord_of A a1r) as [r1|] eqn:X1; [|discriminate].
  destruct (coord_of A a1) as [p1|] eqn:X2; [|discriminate].
  destruct (coord_of B a2r) as [r2|] eqn:X3; [|discriminate].
  destruct (coord_of B a2) as [p2|] eqn:X4; [|discriminate].
  intros H. injection H; intros <-. clear H.
  exists a1, a2, a1r, a2r, r1, p1, r2, p2. split; [constructor; assumption|]. split; [reflexivity|].
  split; [|split; assumption].
  intros b Hb. specialize (CB b Hb). rewrite andb_true_iff, !pmem_spec in CB. exact CB.
Qed.

Lemma join_sel_ext A B s1 s1' s2 s2' op w :
  get_atom (fr_atoms A) s1 = get_atom (fr_atoms A) s1' -> get_atom (fr_atoms B) s2 = get_atom (fr_atoms B) s2' ->
  join o A B s1 s2 op w = join o A B s1' s2' op w.
Proof. intros E1 E2. unfold join. rewrite E1, E2. reflexivity. Qed.

End Inversion.

Section Survivors.
Context {F : Type} (A B : frag F) (a1 a2 : positive).
Hypothesis ND : NoDup (ids (fr_atoms A) ++ ids (fr_atoms B)).       (* two distinct molecules, names unique *)
Hypothesis H1 : In a1 (ids (fr_atoms A)).
Hypothesis H2 : In a2 (ids (fr_atoms B)).

Lemma a2_notin_A : ~ In a2 (ids (fr_atoms A)).
Proof. intros H. exact (NoDup_app_disjoint _ _ _ ND H H2). Qed.
Lemma a1_notin_B : ~ In a1 (ids (fr_atoms B)).
Proof. intros H. exact (NoDup_app_disjoint _ _ _ ND H1 H). Qed.

Lemma kept_atoms : filter (keep_atom a1 a2) (fr_atoms A ++ fr_atoms B)
                   = filter (id_not a1) (fr_atoms A) ++ filter (id_not a2) (fr_atoms B).
Proof.
  rewrite filter_app. f_equal; apply filter_ext_in; intros a Ha.
  - exact (proj1 (keep_atom_foreign a1 a2 _ a a2_notin_A Ha)).
  - exact (proj2 (keep_atom_foreign a2 a1 _ a a1_notin_B Ha)).
Qed.
Lemma kept_atoms_NoDup : NoDup (ids (filter (keep_atom a1 a2) (fr_atoms A ++ fr_atoms B))).
Proof. apply NoDup_map_filter. unfold ids in ND. now rewrite map_app. Qed.
Lemma kept_atoms_length :
  S (S (length (filter (keep_atom a1 a2) (fr_atoms A ++ fr_atoms B)))) = (length (fr_atoms A) + length (fr_atoms B))%nat.
Proof.
  rewrite kept_atoms, app_length. destruct (proj1 (NoDup_app _ _) ND) as [NA [NB _]].
  pose proof (filter_id_not_length a1 _ NA H1). pose proof (filter_id_not_length a2 _ NB H2). lia.
Qed.

(* each row that survives is the moved row of its source atom (gA, gB: where the atoms of A, of B are put) *)
Lemma kept_rows (gA gB : vec F -> vec F) :
  length (fr_coords A) = length (fr_atoms A) -> length (fr_coords B) = length (fr_atoms B) ->
  let coords := map gA (mask_rows (loc a1 (fr_atoms A)) (fr_coords A)) ++ map gB (mask_rows (loc a2 (fr_atoms B)) (fr_coords B)) in
  combine (ids (filter (keep_atom a1 a2) (fr_atoms A ++ fr_atoms B))) coords
  = map (fun q => (fst q, gA (snd q))) (filter (key_not a1) (rows A)) ++ map (fun q => (fst q, gB (snd q))) (filter (key_not a2) (rows B))
  /\ length coords = length (filter (keep_atom a1 a2) (fr_atoms A ++ fr_atoms B)).
Proof.
  intros LA LB. cbv zeta. rewrite kept_atoms. unfold rows.
  destruct (mask_loc_combine a1 (fr_atoms A) (fr_coords A) LA) as [EA LA'].
  destruct (mask_loc_combine a2 (fr_atoms B) (fr_coords B) LB) as [EB LB'].
  split; [|now rewrite !app_length, !map_length, LA', LB'].
  unfold ids at 1. rewrite map_app. fold (ids (filter (id_not a1) (fr_atoms A))) (ids (filter (id_not a2) (fr_atoms B))).
  rewrite combine_app by (unfold ids; rewrite !map_length; symmetry; exact LA').
  now rewrite !combine_map_r, EA, EB.
Qed.

Hypothesis WA : wf_bonds A.
Hypothesis WB : wf_bonds B.

Lemma kept_bonds : filter (keep_bond a1 a2) (fr_bonds A ++ fr_bonds B)
  = filter (fun b => negb (incident a1 b)) (fr_bonds A) ++ filter (fun b => negb (incident a2 b)) (fr_bonds B).
Proof.
  rewrite filter_app. f_equal; apply filter_ext_in; intros b Hb.
  - exact (proj1 (keep_bond_foreign A a1 a2 b WA a2_notin_A Hb)).
  - exact (proj2 (keep_bond_foreign B a2 a1 b WB a1_notin_B Hb)).
Qed.
Lemma kept_bonds_length : n_bonds_with (fr_bonds A) a1 = 1%nat -> n_bonds_with (fr_bonds B) a2 = 1%nat ->
  S (S (length (filter (keep_bond a1 a2) (fr_bonds A ++ fr_bonds B)))) = (length (fr_bonds A) + length (fr_bonds B))%nat.
Proof.
  unfold n_bonds_with. intros N1 N2. rewrite kept_bonds, app_length.
  pose proof (filter_partition_length (incident a1) (fr_bonds A)). pose proof (filter_partition_length (incident a2) (fr_bonds B)). lia.
Qed.
Lemma no_bond_across x y b : In x (ids (fr_atoms A)) -> In y (ids (fr_atoms B)) ->
  In b (fr_bonds A ++ fr_bonds B) -> same_ends x y b = false.
Proof.
  intros Hx Hy Hb. destruct (same_ends x y b) eqn:S; [|reflexivity]. exfalso.
  apply same_ends_ends in S. apply in_app_or in Hb. destruct Hb as [Hb|Hb].
  - destruct (WA b Hb). apply (NoDup_app_disjoint _ _ y ND); [|exact Hy]. destruct S as [[_ <-]|[<- _]]; assumption.
  - destruct (WB b Hb). apply (NoDup_app_disjoint _ _ x ND); [exact Hx|]. destruct S as [[<- _]|[_ <-]]; assumption.
Qed.
End Survivors.

Local Open Scope R_scope.

Lemma coord_of_in_rows {F} (f : frag F) x r : coord_of f x = Some r -> In (x, r) (rows f).
Proof.
  unfold coord_of, rows. generalize (fr_coords f). induction (fr_atoms f) as [|a l IH]; intros X; simpl; [discriminate|].
  destruct (Pos.eqb_spec (a_id a) x) as [E|NE].
  - destruct X as [|x0 X]; simpl; [discriminate|]. intros H. injection H; intros <-. left. now rewrite E.
  - destruct (find_pos x l) as [i|] eqn:Q; simpl; [|discriminate]. destruct X as [|x0 X]; simpl; [discriminate|].
    intros H. right. apply IH. exact H.
Qed.
Lemma moved_row {B C} (g : B -> C) (ap u : positive) (x : B) (L : list (positive * B)) :
  In (u, x) L -> u <> ap -> In (u, g x) (map (fun q => (fst q, g (snd q))) (filter (key_not ap) L)).
Proof.
  intros H NE. apply in_map_iff. exists (u, x). split; [reflexivity|]. apply filter_In. split; [exact H|].
  unfold key_not. simpl. now apply negb_true_iff, Pos.eqb_neq.
Qed.

Lemma place_A_rigid (r1 : vecR) : rigid_map (place_A ROps r1).
Proof. unfold place_A. split; intros; vdestruct; f3; ring. Qed.

(* place_B = subtract r2, rotate by R, add t, rotate by the twist (if any) *)
Lemma place_B_rigid (R : matR) (t : vecR) (T : option matR) (r2 : vecR) :
  proper R -> (forall M, T = Some M -> proper M) -> rigid_map (place_B ROps R t T r2).
Proof.
  intros HR HT.
  assert (G : rigid_map (fun x => vadd ROps (vm ROps (place_A ROps r2 x) R) t)).
  { apply (rigid_compose _ (fun y => vadd ROps y t)); [|apply rigid_vadd].
    apply (rigid_compose _ (fun y => vm ROps y R)); [apply place_A_rigid | apply rigid_vm, HR]. }
  destruct T as [M|]; [|exact G].
  apply (rigid_compose _ (fun y => vm ROps y M) G), rigid_vm, (HT M eq_refl).
Qed.
(* it is affine: its value at r2 (when the twist fixes t), and the difference of two values *)
Lemma affine_pivot (R : matR) (t r : vecR) : vadd ROps (vm ROps (vsub ROps r r) R) t = t.
Proof. vdestruct. f3. veq; ring. Qed.
Lemma affine_diff (R : matR) (t r x y : vecR) :
  vsub ROps (vadd ROps (vm ROps (vsub ROps x r) R) t) (vadd ROps (vm ROps (vsub ROps y r) R) t) = vm ROps (vsub ROps x y) R.
Proof. vdestruct. f3. veq; ring. Qed.
Lemma place_B_pivot (R : matR) (t : vecR) (T : option matR) (r2 : vecR) :
  (forall M, T = Some M -> vm ROps t M = t) -> place_B ROps R t T r2 r2 = t.
Proof. intros HT. unfold place_B. rewrite affine_pivot. destruct T as [M|]; [now apply HT | reflexivity]. Qed.
Lemma place_B_diff (R : matR) (t : vecR) (T : option matR) (r2 x y : vecR) :
  vsub ROps (place_B ROps R t T r2 x) (place_B ROps R t T r2 y)
  = let z := vm ROps (vsub ROps x y) R in match T with Some M => vm ROps z M | None => z end.
Proof. unfold place_B. destruct T as [M|]; cbv zeta; [rewrite <- vm_vsub|]; now rewrite affine_diff. Qed.

Lemma join_tol_range : 0 <= join_tol ROps < 1.
Proof. unfold join_tol. cbv [fofZ fdiv ROps]. lra. Qed.

(* the rotation used by join: proper, and it takes B's attachment direction to MINUS A's *)
Lemma join_rot_correct (v1 v2 ov : vecR) (n1 n2 : R) :
  0 < n1 -> n1 * n1 = norm2 ROps v1 -> 0 < n2 -> n2 * n2 = norm2 ROps v2 -> unit ov -> dot ROps ov v1 = 0 ->
  proper (join_rot ROps v1 n1 v2 n2 ov) /\
  vm ROps (vdiv ROps v2 n2) (join_rot ROps v1 n1 v2 n2 ov) = vdiv ROps (vopp ROps v1) n1.
Proof.
  intros H1 E1 H2 E2 U O. unfold join_rot. apply rot_from_vectors_correct; try assumption.
  - apply join_tol_range.
  - now rewrite norm2_vopp.
  - rewrite dot_vopp_r, O. ring.
Qed.
(* ... hence the attachment vector itself to the multiple -(|v2|/|v1|) of A's *)
Lemma vm_unnormalise (v x : vecR) (n m : R) (M : matR) : n <> 0 -> m <> 0 ->
  vm ROps (vdiv ROps v n) M = vdiv ROps (vopp ROps x) m -> vm ROps v M = vscale ROps (- (n / m)) x.
Proof.
  intros Hn Hm E. rewrite <- (vscale_vdiv v n Hn) at 1. rewrite vm_vscale, E. vdestruct. f3. veq; field; exact Hm.
Qed.

Lemma join_shift_scale (v1 : vecR) (n1 d : R) : join_shift ROps v1 n1 d = vscale ROps (d / n1) v1.
Proof. unfold join_shift. vdestruct. f3. unfold Rdiv. veq; ring. Qed.
Lemma norm2_scaled (v : vecR) (n d : R) : 0 < n -> n * n = norm2 ROps v -> norm2 ROps (vscale ROps (d / n) v) = d * d.
Proof.
  intros Hn E. replace (norm2 ROps (vscale ROps (d / n) v)) with (d / n * (d / n) * norm2 ROps v) by (vdestruct; f3; ring).
  rewrite <- E. field. lra.
Qed.

Definition twist_ok (tw : option (R * R)) : Prop := match tw with Some (s, c) => s * s + c * c = 1 | None => True end.

(* the rotamer rotation is a rotation about v1: proper, and it fixes every multiple of v1 *)
Lemma join_twist_correct (v1 : vecR) (n1 : R) (tw : option (R * R)) (M : matR) :
  0 < n1 -> n1 * n1 = norm2 ROps v1 -> twist_ok tw -> join_twist ROps v1 n1 tw = Some M ->
  proper M /\ forall k, vm ROps (vscale ROps k v1) M = vscale ROps k v1.
Proof.
  intros Hn E Ht. destruct tw as [[s c]|]; simpl; [|discriminate]. intros H. injection H; intros <-.
  destruct (rot_from_axis_correct v1 n1 s c Hn E Ht) as [PM [Fx _]]. split; [exact PM|].
  intros k. rewrite vm_vscale, Fx. reflexivity.
Qed.

(* the hypotheses under which the geometry makes sense: the two attachment atoms do not sit on their neighbours
   (n1, n2 are the lengths of the attachment vectors), ov is a unit vector orthogonal to v1, the rotamer rotation
   (if any) is a rotation *)
Definition geom_ok (v1 v2 : vecR) (w : jwit R) : Prop :=
  0 < w_n1 w /\ w_n1 w * w_n1 w = norm2 ROps v1 /\ 0 < w_n2 w /\ w_n2 w * w_n2 w = norm2 ROps v2 /\
  unit (w_ov w) /\ dot ROps (w_ov w) v1 = 0 /\ twist_ok (w_twist w).

Section Geometry.
Variables (v1 v2 r1 r2 p2 : vecR) (w : jwit R) (d : R).
Hypothesis G : geom_ok v1 v2 w.
Hypothesis V2 : v2 = vsub ROps p2 r2.
Let gA := place_A ROps r1.
Let gB := place_B ROps (join_rot ROps v1 (w_n1 w) v2 (w_n2 w) (w_ov w)) (join_shift ROps v1 (w_n1 w) d)
                   (join_twist ROps v1 (w_n1 w) (w_twist w)) r2.

(* A and B are each moved by a rigid, handedness-preserving map; A's former neighbour ends up at the origin, B's at
   (d/|v1|) v1: the new bond has length |d| and the direction of A's former attachment vector; B's former attachment
   vector ends up pointing the opposite way (B faces A); with or without the rotamer rotation *)
Theorem join_maps :
  rigid_map gA /\ rigid_map gB /\
  gA r1 = vzero ROps /\
  gB r2 = vscale ROps (d / w_n1 w) v1 /\
  vsub ROps (gB p2) (gB r2) = vscale ROps (- (w_n2 w / w_n1 w)) v1.
Proof.
  destruct G as [H1 [E1 [H2 [E2 [U [O TW]]]]]].
  destruct (join_rot_correct v1 v2 (w_ov w) (w_n1 w) (w_n2 w) H1 E1 H2 E2 U O) as [PR MAP].
  pose proof (fun M => join_twist_correct v1 (w_n1 w) (w_twist w) M H1 E1 TW) as JT.
  assert (ZA : gA r1 = vzero ROps) by (subst gA; unfold place_A; destruct r1 as [[? ?] ?]; f3; veq; ring).
  assert (TB : gB r2 = vscale ROps (d / w_n1 w) v1).
  { subst gB. rewrite join_shift_scale. apply place_B_pivot. intros M HM. apply (JT M HM). }
  split; [apply place_A_rigid|]. split; [apply place_B_rigid; [exact PR | intros M HM; apply (JT M HM)]|].
  split; [exact ZA|]. split; [exact TB|].
  subst gB. rewrite place_B_diff, <- V2. cbv zeta.
  rewrite (vm_unnormalise v2 v1 (w_n2 w) (w_n1 w) _ ltac:(lra) ltac:(lra) MAP).
  destruct (join_twist ROps v1 (w_n1 w) (w_twist w)) as [M|]; [apply (JT M eq_refl) | reflexivity].
Qed.
End Geometry.

Lemma fzero_b_R (x : R) : fzero_b ROps x = true <-> x = 0.
Proof.
  unfold fzero_b. cbv [fleb f0 ROps]. rewrite andb_true_iff, !Rleb_true. lra.
Qed.
Lemma f_or_some (x y : R) : x <> 0 -> f_or ROps (Some x) y = x.
Proof. intros H. unfold f_or. destruct (fzero_b ROps x) eqn:E; [apply fzero_b_R in E; contradiction | reflexivity]. Qed.
Lemma f_or_falsy (y : R) : f_or ROps (Some 0) y = y /\ f_or ROps None y = y.
Proof. split; [|reflexivity]. unfold f_or. now rewrite (proj2 (fzero_b_R 0) eq_refl). Qed.

(* dist given (and not 0): that length; otherwise the sum of the two covalent radii (carbon's for an element
   without one); 1.5 only if that sum is 0 *)
Lemma bond_len_requested (op : jopts R) (d : R) : o_dist op = Some d -> d <> 0 -> bond_len ROps op = d.
Proof. intros E H. unfold bond_len. rewrite E. now apply f_or_some. Qed.
Lemma bond_len_default (op : jopts R) :
  o_dist op = None -> expected_length ROps (o_rcov1 op) (o_rcov2 op) (o_rcovC op) <> 0 ->
  bond_len ROps op = expected_length ROps (o_rcov1 op) (o_rcov2 op) (o_rcovC op).
Proof. intros E H. unfold bond_len. rewrite E. simpl f_or at 1. now apply f_or_some. Qed.
Lemma expected_length_radii (ra rb rC : R) : ra <> 0 -> rb <> 0 -> expected_length ROps (Some ra) (Some rb) rC = ra + rb.
Proof. intros Ha Hb. unfold expected_length. now rewrite !f_or_some. Qed.

Lemma join_charge_spec (q : option Z) (qA qB : Z) :
  join_charge q qA qB = match q with Some v => v | None => (qA + qB)%Z end.
Proof. unfold join_charge, or_int, override. destruct q as [v|]; [destruct (Z.eqb_spec v 0)|destruct (Z.eqb_spec (qA + qB) 0)]; lia. Qed.
Lemma join_mult_spec (m : option Z) (mA mB : Z) :
  override m (mA + mB - 1) <> 0%Z -> join_mult m mA mB = match m with Some v => v | None => (mA + mB - 1)%Z end.
Proof. unfold join_mult, or_int, override. intros H. destruct m as [v|]; [destruct (Z.eqb_spec v 0)|destruct (Z.eqb_spec (mA + mB - 1) 0)]; simpl in *; lia. Qed.
(* recorded finding C12:mult:zero-becomes-one, characterised exactly *)
Lemma join_mult_zero (m : option Z) (mA mB : Z) : override m (mA + mB - 1) = 0%Z -> join_mult m mA mB = 1%Z.
Proof. unfold join_mult, or_int. intros ->. reflexivity. Qed.

(* Model/Hadd.v has its own copies of `fabs` and `least_axis` (same axis, written with && instead of nested ifs);
   Proofs/Hadd.v proves the same two facts about them (fabs_spec, least_axis_cross_nonzero). *)
Lemma fabs_R (x : R) : fabs ROps x = Rabs x.
Proof.
  unfold fabs. cbv [fleb f0 fopp ROps]. destruct (Rleb 0 x) eqn:E.
  - apply Rleb_true in E. symmetry. apply Rabs_right. lra.
  - apply Rleb_false in E. symmetry. apply Rabs_left. exact E.
Qed.

Lemma least_axis_spec (b : vecR) : unit b ->
  let e := least_axis ROps b in unit e /\ 3 * (dot ROps e b * dot ROps e b) <= 1.
Proof.
  unfold unit. destruct b as [[x y] z]. intros U. f3_in U. unfold least_axis. rewrite !fabs_R. cbv [fleb ROps].
  destruct (Rleb (Rabs x) (Rabs y)) eqn:E1; [apply Rleb_true, Rsqr_le_abs_1 in E1 | apply Rleb_false, Rlt_le, Rsqr_le_abs_1 in E1].
  - destruct (Rleb (Rabs x) (Rabs z)) eqn:E2; [apply Rleb_true, Rsqr_le_abs_1 in E2 | apply Rleb_false, Rlt_le, Rsqr_le_abs_1 in E2];
      unfold Rsqr in *; cbv zeta; f3; split; try ring; nra.
  - destruct (Rleb (Rabs y) (Rabs z)) eqn:E2; [apply Rleb_true, Rsqr_le_abs_1 in E2 | apply Rleb_false, Rlt_le, Rsqr_le_abs_1 in E2];
      unfold Rsqr in *; cbv zeta; f3; split; try ring; nra.
Qed.

(* e - (e.b) b for unit e, b: orthogonal to b, squared length 1 - (e.b)^2 (both sides bilinear, then e.e = b.b = 1) *)
Lemma gram_schmidt (e b : vecR) : unit e -> unit b ->
  let k := dot ROps e b in
  dot ROps (vsub ROps e (vscale ROps k b)) b = 0 /\ norm2 ROps (vsub ROps e (vscale ROps k b)) = 1 - k * k.
Proof.
  intros Ue Ub k. unfold unit in Ue, Ub.
  assert (B : dot ROps (vsub ROps e (vscale ROps k b)) b = k - k * dot ROps b b /\
              norm2 ROps (vsub ROps e (vscale ROps k b)) = dot ROps e e - 2 * k * k + k * k * dot ROps b b).
  { subst k. clear. vdestruct. f3. split; ring. }
  rewrite Ue, Ub in B. destruct B as [-> ->]. split; ring.
Qed.

Lemma det_ort_spec (b : vecR) : unit b ->
  dot ROps (det_ort ROps b) b = 0 /\ 2 / 3 <= norm2 ROps (det_ort ROps b).
Proof.
  intros Ub. destruct (least_axis_spec b Ub) as [Ue K]. cbv zeta in Ue, K.
  unfold det_ort. cbv zeta. destruct (gram_schmidt (least_axis ROps b) b Ue Ub) as [O N]. cbv zeta in O, N.
  split; [exact O|]. rewrite N. lra.
Qed.

(* the repaired choice satisfies what the rotation theorems ask of ov: a unit vector orthogonal to v1.
   (A square root nort of |det_ort|^2 exists: that squared length is at least 2/3.) *)
Theorem det_ov_valid (v1 : vecR) (n1 nort : R) :
  0 < n1 -> n1 * n1 = norm2 ROps v1 ->
  0 < nort -> nort * nort = norm2 ROps (det_ort ROps (vdiv ROps (vopp ROps v1) n1)) ->
  unit (det_ov ROps v1 n1 nort) /\ dot ROps (det_ov ROps v1 n1 nort) v1 = 0.
Proof.
  intros H1 E1 Hn En. unfold det_ov.
  assert (Ub : unit (vdiv ROps (vopp ROps v1) n1)) by (apply unit_vdiv; [exact H1 | now rewrite norm2_vopp]).
  destruct (det_ort_spec _ Ub) as [O _]. set (ort := det_ort ROps (vdiv ROps (vopp ROps v1) n1)) in *.
  split; [apply unit_vdiv; assumption|].
  rewrite dot_vdiv_r, dot_vopp_r in O.
  assert (D : dot ROps ort v1 = 0).
  { assert (N1 : n1 <> 0) by lra. apply (Rmult_eq_reg_r (/ n1)); [|now apply Rinv_neq_0_compat]. unfold Rdiv in O. lra. }
  rewrite dot_comm, dot_vdiv_r, dot_comm, D. unfold Rdiv. ring.
Qed.

Lemma nth_error_filter_firstn {A} (keep : A -> bool) (d : A) (extra L : list A) : forall n,
  (n < length L)%nat -> keep (nth n L d) = true ->
  nth_error (filter keep L ++ extra) (length (filter keep (firstn n L))) = Some (nth n L d).
Proof.
  induction L as [|a L IH]; intros n Hn K; simpl in Hn; [lia|]. destruct n as [|n]; simpl in K |- *.
  - now rewrite K.
  - destruct (keep a); simpl; apply IH; (lia || exact K).
Qed.
Lemma NoDup_nth_ids (l : list atom) (i j : nat) (d : atom) :
  NoDup (ids l) -> (i < length l)%nat -> (j < length l)%nat -> a_id (nth i l d) = a_id (nth j l d) -> i = j.
Proof.
  intros ND Hi Hj E. apply (proj1 (NoDup_nth (ids l) (a_id d)) ND); unfold ids; rewrite ?map_length; try assumption.
  now rewrite !map_nth.
Qed.
Lemma shift_of_snoc (done : list Z) (ap ap' : Z) :
  shift_of (done ++ [ap]) ap' = (shift_of done ap' + (if Z.ltb ap ap' then 1 else 0))%Z.
Proof. unfold shift_of. rewrite filter_app, app_length. simpl. destruct (Z.ltb ap ap'); simpl; lia. Qed.
Lemma shift_of_all_lt (done : list Z) (ap : Z) : Forall (fun j => (j < ap)%Z) done -> shift_of done ap = Z.of_nat (length done).
Proof.
  unfold shift_of. induction 1 as [|j l Hj _ IH]; simpl; [reflexivity|].
  rewrite (proj2 (Z.ltb_lt _ _) Hj). simpl length. lia.
Qed.
Lemma StronglySorted_lt_NoDup (l : list Z) : StronglySorted Z.lt l -> NoDup l.
Proof.
  induction 1 as [|a l _ IH FA]; constructor; [|exact IH].
  intros Hin. rewrite Forall_forall in FA. specialize (FA a Hin). lia.
Qed.

Section Iterated.
Context {F : Type} (o : Fops F).
Definition dflt_atom : atom := mkAtom 1%positive false [].
Definition name_at (core : frag F) (ap : Z) : positive := a_id (nth (Z.to_nat ap) (fr_atoms core) dflt_atom).

Variables (nb : list Z) (rC : F) (core : frag F).
Hypothesis NDc : NoDup (ids (fr_atoms core)).
Let L := fr_atoms core.

(* the state of the loop: the derivative's atom list is the core's with some atoms deleted (those `keep` rejects),
   followed by the substituent atoms added so far; every attachment point still to come is kept, and the number of
   deletions before it is the shift the code subtracts from its index *)
Definition loop_inv (keep : atom -> bool) (done aps : list Z) : Prop :=
  forall ap, In ap aps ->
    (0 <= ap < Z.of_nat (length L))%Z /\ keep (nth (Z.to_nat ap) L dflt_atom) = true /\
    (Z.of_nat (length (filter keep (firstn (Z.to_nat ap) L))) + shift_of done ap = ap)%Z.

(* the index the code computes and the name of the original position designate the same atom *)
Lemma index_hits (keep : atom -> bool) (done aps : list Z) (ap : Z) (extra : list atom) :
  loop_inv keep done aps -> In ap aps ->
  get_atom (filter keep L ++ extra) (ByIdx (ap - shift_of done ap)) = get_atom (filter keep L ++ extra) (ById (name_at core ap)).
Proof.
  intros INV Hin. destruct (INV ap Hin) as [R [K C]].
  pose proof (nth_error_filter_firstn keep dflt_atom extra L (Z.to_nat ap) ltac:(lia) K) as NE.
  replace (ap - shift_of done ap)%Z with (Z.of_nat (length (filter keep (firstn (Z.to_nat ap) L)))) by lia.
  rewrite (get_atom_by_index _ _ _ NE). symmetry. eapply get_atom_by_name, in_ids, nth_error_In, NE.
Qed.

(* one join at a core atom a1 with a substituent whose attachment name a2 is foreign to the core: of the core's atoms
   exactly a1 goes *)
Lemma join_on_core (keep : atom -> bool) (extra : list atom) (deriv sub d' : frag F) (a1 a2 : positive) op w :
  fr_atoms deriv = filter keep L ++ extra -> ~ In a2 (ids L) ->
  join o deriv sub (ById a1) (ById a2) op w = Some d' ->
  fr_atoms d' = filter (fun a => keep a && id_not a1 a)%bool L ++ filter (keep_atom a1 a2) (extra ++ fr_atoms sub).
Proof.
  intros EA A2 J. destruct (join_inv o _ _ _ _ _ _ _ J) as (a1' & a2' & a1r & a2r & r1 & p1 & r2 & p2 & RS & -> & _).
  pose proof (get_atom_by_name_inv _ _ _ (rs_a1 RS)) as ->. pose proof (get_atom_by_name_inv _ _ _ (rs_a2 RS)) as ->.
  unfold product. cbn [fr_atoms]. rewrite EA, <- app_assoc, filter_app, filter_filter. f_equal.
  apply filter_ext_in. intros a Ha. f_equal. exact (proj1 (keep_atom_foreign a1 a2 L a A2 Ha)).
Qed.

(* ... and the invariant passes to the remaining attachment points: the deletion precedes ap' exactly when ap < ap',
   which is when the shift grows *)
Lemma loop_inv_step (keep : atom -> bool) (done aps : list Z) (ap : Z) :
  NoDup (ap :: aps) -> loop_inv keep done (ap :: aps) ->
  loop_inv (fun a => keep a && id_not (name_at core ap) a)%bool (done ++ [ap]) aps.
Proof.
  intros NDa INV ap' Hin. destruct (INV ap (or_introl eq_refl)) as [R [K _]]. destruct (INV ap' (or_intror Hin)) as [R' [K' C']].
  assert (NEa : ap <> ap') by (inversion NDa; subst; intros ->; contradiction).
  set (n := Z.to_nat ap) in *. set (n' := Z.to_nat ap') in *.
  assert (Hn : (n < length L)%nat) by lia. assert (Hn' : (n' < length L)%nat) by lia.
  split; [exact R'|]. split.
  - rewrite K'. apply negb_true_iff, Pos.eqb_neq. intros E. apply (NoDup_nth_ids L n' n dflt_atom NDc Hn' Hn) in E. lia.
  - pose proof (filter_drop_nth keep dflt_atom L n n' NDc Hn K) as D. change (a_id (nth n L dflt_atom)) with (name_at core ap) in D.
    rewrite shift_of_snoc. destruct (Z.ltb_spec ap ap'), (Nat.ltb_spec n n'); lia.
Qed.

(* keep / extra / done are the loop state described at loop_inv: which core atoms are left, what was appended, which
   attachment points were consumed *)
Lemma assemble_gen : forall (aps : list Z) (subs : list (cstep (F:=F))) (deriv : frag F) (done : list Z) (keep : atom -> bool) (extra : list atom),
  fr_atoms deriv = filter keep L ++ extra ->
  NoDup aps ->
  loop_inv keep done aps ->
  (forall st a2, In st subs -> first_ap (fr_atoms (fst (fst st))) = Some a2 -> ~ In a2 (ids L)) ->
  assemble o nb rC deriv done aps subs = assemble_named o nb rC deriv (map (name_at core) aps) subs.
Proof.
  induction aps as [|ap aps IH]; intros subs deriv done keep extra EA NDa INV SUB.
  - destruct subs; reflexivity.
  - destruct subs as [|[[sub rc] w] subs]; [reflexivity|]. simpl.
    destruct (first_ap (fr_atoms sub)) as [a2|] eqn:FA; [|reflexivity].
    pose proof (index_hits keep done (ap :: aps) ap extra INV (or_introl eq_refl)) as IX. rewrite <- EA in IX.
    rewrite (join_sel_ext o deriv sub _ _ _ _ (combine_opts nb rC rc) w IX eq_refl).
    destruct (join o deriv sub (ById (name_at core ap)) (ById a2) (combine_opts nb rC rc) w) as [d'|] eqn:J; [|reflexivity].
    assert (A2 : ~ In a2 (ids L)) by (eapply (SUB (sub, rc, w)); [now left | exact FA]).
    apply (IH subs d' (done ++ [ap]) _ _ (join_on_core keep extra deriv sub d' _ a2 _ w EA A2 J)).
    + now inversion NDa.
    + now apply loop_inv_step.
    + intros st a2' Hst. apply (SUB st a2'). now right.
Qed.

(* For ANY order of core_aps (no attachment point named twice), the repaired index arithmetic addresses, at every
   step, the atom that was at position ap_i of the ORIGINAL core: the loop equals the loop that names the
   attachment points directly. *)
Theorem assemble_addresses (aps : list Z) (subs : list (cstep (F:=F))) :
  NoDup aps ->
  (forall ap, In ap aps -> (0 <= ap < Z.of_nat (length L))%Z) ->
  (forall st a2, In st subs -> first_ap (fr_atoms (fst (fst st))) = Some a2 -> ~ In a2 (ids L)) ->
  assemble o nb rC core [] aps subs = assemble_named o nb rC core (map (name_at core) aps) subs.
Proof.
  intros NDa RG SUB. apply (assemble_gen aps subs core [] (fun _ => true) []); try assumption.
  - fold L. now rewrite app_nil_r, filter_true.
  - intros ap Hin. specialize (RG ap Hin). split; [exact RG|]. split; [reflexivity|].
    rewrite filter_true, firstn_length. unfold shift_of. simpl. lia.
Qed.

(* The loop before the repair subtracts the number i of joins made so far.  On an ascending core_aps every consumed
   attachment point preceded ap_i, so i is the repaired shift and the two loops are the same loop. *)
Lemma assemble_minus_i_sorted : forall (aps : list Z) (subs : list (cstep (F:=F))) (deriv : frag F) (done : list Z),
  StronglySorted Z.lt aps -> (forall j ap, In j done -> In ap aps -> (j < ap)%Z) ->
  assemble_minus_i o nb rC deriv (length done) aps subs = assemble o nb rC deriv done aps subs.
Proof.
  induction aps as [|ap aps IH]; intros subs deriv done SS LT; [destruct subs; reflexivity|].
  destruct subs as [|[[sub rc] w] subs]; [reflexivity|]. simpl.
  rewrite (shift_of_all_lt done ap) by (apply Forall_forall; intros j Hj; apply LT; [exact Hj | now left]).
  destruct (first_ap (fr_atoms sub)); [|reflexivity]. destruct (join _ _ _ _ _ _ _) as [d'|]; [|reflexivity].
  apply StronglySorted_inv in SS. destruct SS as [SS FA]. rewrite Forall_forall in FA.
  replace (S (length done)) with (length (done ++ [ap])) by (rewrite app_length; simpl; lia).
  apply IH; [exact SS|]. intros j ap' Hj Hap'. apply in_app_or in Hj.
  destruct Hj as [Hj|[<-|[]]]; [apply LT; [exact Hj | now right] | now apply FA].
Qed.
End Iterated.

