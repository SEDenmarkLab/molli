(* The UKV file model refines an insert-only association list (C02, C03): what a handle knows (snap, full), one
   operation on a file with or without a torn tail (step_tail), histories from steps (refines_lift), and the
   reopening of crash images (crash_reopen). *)
From Coq Require Import NArith PeanoNat List Bool Lia.
Import ListNotations.
Open Scope N_scope.
From Molli Require Import Model.UKV Proofs.UKVBase.
From Molli Require Import Common.ListFacts.

Lemma skipn_cons_nth' {A} (l : list A) i d : (i < length l)%nat -> skipn i l = nth i l d :: skipn (S i) l.
Proof.
  revert l. induction i as [|i IH]; intros [|a l] Hi; simpl in *; try lia; [reflexivity|].
  apply IH. lia.
Qed.

(* a consistent, possibly stale, snapshot: the index of a prefix of the records *)
Definition snap (H : bytes) (rs : list kv) (h : handle) : Prop :=
  exists m, toc h = index_from (len H) (firstn m rs) /\
            (eof h = None \/ eof h = Some (end_from (len H) (firstn m rs))).

(* a complete, current table: the index of all the records, and the end of file after them *)
Definition full (H : bytes) (rs : list kv) (h : handle) : Prop :=
  toc h = index_from (len H) rs /\ eof h = Some (end_from (len H) rs).

Lemma snap_iff H rs h : snap H rs h <->
  exists ps qs, rs = ps ++ qs /\ toc h = index_from (len H) ps /\
                (eof h = None \/ eof h = Some (end_from (len H) ps)).
Proof.
  split.
  - intros [m S]. exists (firstn m rs), (skipn m rs). split; [symmetry; apply firstn_skipn|exact S].
  - intros [ps [qs [-> S]]]. exists (length ps).
    rewrite firstn_app, firstn_all, Nat.sub_diag, firstn_O, app_nil_r. exact S.
Qed.

Lemma full_snap H rs h : full H rs h -> snap H rs h.
Proof. intros [Ht He]. exists (length rs). rewrite firstn_all. split; [exact Ht|right; exact He]. Qed.

Lemma snap_h0 H rs : snap H rs h0.
Proof. exists 0%nat. simpl. split; [reflexivity|left; reflexivity]. Qed.

Lemma snap_app H rs qs h : snap H rs h -> snap H (rs ++ qs) h.
Proof.
  rewrite !snap_iff. intros [ps [q0 [-> S]]]. exists ps, (q0 ++ qs). split; [symmetry; apply app_assoc|exact S].
Qed.

Lemma snap_keys H rs h : snap H rs h -> exists m, keys h = map fst (firstn m rs).
Proof. intros [m [Ht _]]. exists m. unfold keys. rewrite Ht. apply map_fst_index. Qed.

Lemma full_keys H rs h : full H rs h -> keys h = map fst rs.
Proof. intros [Ht _]. unfold keys. rewrite Ht. apply map_fst_index. Qed.

(* map_blocks, by rescan or by its shortcut, yields the full index; in append mode it cuts a torn tail *)
Lemma map_blocks_spec H rs tl h :
  hdr_ok H -> Forall wfkv rs -> NoDup (map fst rs) -> torn tl -> snap H rs h ->
  exists h', map_blocks (H ++ blocks rs ++ tl) h =
             (match md h with MA => H ++ blocks rs | MR => H ++ blocks rs ++ tl end, h')
             /\ full H rs h' /\ md h' = md h /\ closed h' = closed h.
Proof.
  intros Hok Hwf Hnd Htorn Hs. unfold map_blocks. set (f := H ++ blocks rs ++ tl).
  apply snap_iff in Hs. destruct Hs as [ps [qs [Ers [Ht He]]]].
  assert (Hlenf : len f = end_from (len H) ps + len (blocks qs) + len tl).
  { unfold f. rewrite Ers, !len_app, blocks_app, len_app, end_from_len. lia. }
  destruct (shortcut f h) eqn:Esc.
  - (* shortcut taken: the handle's end of file is the file's, so nothing follows its prefix *)
    unfold shortcut in Esc. destruct (eof h) as [e|] eqn:Ee; [|discriminate].
    apply andb_prop in Esc. destruct Esc as [Esz _]. apply N.eqb_eq in Esz.
    destruct He as [He|He]; [discriminate|]. inversion He as [He']. subst e.
    assert (qs = []) as -> by (apply blocks_len0_nil; lia). rewrite app_nil_r in Ers. subst ps.
    assert (tl = []) as -> by (apply len_0_nil; lia).
    exists h. unfold f. rewrite app_nil_r.
    split; [destruct (md h); reflexivity|]. split; [|split; reflexivity].
    split; [exact Ht|rewrite Ee, He'; reflexivity].
  - (* rescan from the first block *)
    assert (Hb : bof_of f = len H) by apply Hok. rewrite Hb.
    assert (Hsk : skipn (N.to_nat (len H)) f = blocks rs ++ tl) by apply skipn_len_app. rewrite Hsk.
    rewrite scan_all; [|exact Hwf|unfold f; rewrite !app_length; pose proof (length_blocks_ge rs); lia].
    rewrite scan_torn by exact Htorn.
    assert (Hidx : upd_all (toc h) (index_from (len H) rs) = index_from (len H) rs).
    { rewrite Ht, Ers, index_from_app.
      apply upd_all_prefix. rewrite <- index_from_app, map_fst_index, <- Ers. exact Hnd. }
    rewrite Hidx.
    exists (mkh (index_from (len H) rs) (last_key None rs) (Some (end_from (len H) rs)) (md h) (closed h)).
    split; [|split; [split|split]; reflexivity].
    destruct (md h); [reflexivity|].
    destruct (end_from (len H) rs <? len f) eqn:El.
    + f_equal. unfold f. rewrite end_from_len.
      replace (len H + len (blocks rs)) with (len (H ++ blocks rs)) by apply len_app.
      rewrite app_assoc. apply firstn_len_app.
    + apply N.ltb_ge in El. rewrite Ers, end_from_app, end_from_len in El.
      assert (tl = []) as -> by (apply len_0_nil; lia).
      unfold f. rewrite app_nil_r. reflexivity.
Qed.

(* reopening a closed handle with a stale (or empty) table yields the full index (C02_stale_refresh) *)
Lemma open_spec H rs tl h m :
  hdr_ok H -> Forall wfkv rs -> NoDup (map fst rs) -> torn tl -> snap H rs h -> closed h = true ->
  exists h', open_ (H ++ blocks rs ++ tl) h m =
             (match m with MA => H ++ blocks rs | MR => H ++ blocks rs ++ tl end, h')
             /\ full H rs h' /\ md h' = m /\ closed h' = false.
Proof.
  intros Hok Hwf Hnd Htorn Hs Hc. unfold open_. rewrite Hc.
  apply (map_blocks_spec H rs tl (mkh (toc h) (last h) (eof h) m false) Hok Hwf Hnd Htorn Hs).
Qed.

Lemma open_clean H rs h m :
  hdr_ok H -> Forall wfkv rs -> NoDup (map fst rs) -> snap H rs h -> closed h = true ->
  exists h', open_ (H ++ blocks rs) h m = (H ++ blocks rs, h') /\ full H rs h' /\ md h' = m /\ closed h' = false.
Proof.
  intros Hok Hwf Hnd Hs Hc. destruct (open_spec H rs [] h m Hok Hwf Hnd torn_nil Hs Hc) as [h' [E R]].
  exists h'. split; [|exact R]. rewrite app_nil_r in E. rewrite E. destruct m; reflexivity.
Qed.

Lemma get_spec H rs tl h k :
  full H rs h -> closed h = false ->
  get (H ++ blocks rs ++ tl) h k = match assoc rs k with Some v => RVal v | None => RErr EKey end.
Proof.
  intros [Ht _] Hc. unfold get. rewrite Hc, Ht.
  destruct (lookup (index_from (len H) rs) k) as [r|] eqn:E.
  - destruct (get_index rs H tl k r E) as [v [Hv Hs]]. rewrite Hv, Hs. reflexivity.
  - apply lookup_index_none in E. rewrite E. reflexivity.
Qed.

Definition wfb (k v : bytes) : bool := (len k <? 256) && (len v <? 4294967296).

Lemma wfb_wfkv k v : wfb k v = true <-> wfkv (k, v).
Proof. unfold wfb, wfkv. rewrite andb_true_iff, !N.ltb_lt. reflexivity. Qed.

Lemma write_at_end (f b : bytes) : write_at f (len f) b = f ++ b.
Proof.
  unfold write_at, len. rewrite Nat2N.id, firstn_all, Nat.sub_diag. simpl.
  rewrite skipn_all2; [rewrite app_nil_r; reflexivity|]. lia.
Qed.

(* put through a complete handle open for append: refused for a key the map has or for an oversize key or
   value, and then nothing changes; otherwise one block is appended *)
Lemma put_spec H rs h k v :
  full H rs h -> closed h = false -> md h = MA ->
  match assoc rs k with
  | Some _ => put (H ++ blocks rs) h k v = (H ++ blocks rs, h, RErr EKey)
  | None =>
      if wfb k v
      then exists h', put (H ++ blocks rs) h k v = (H ++ blocks (rs ++ [(k, v)]), h', ROk)
                      /\ full H (rs ++ [(k, v)]) h' /\ md h' = MA /\ closed h' = false
      else put (H ++ blocks rs) h k v = (H ++ blocks rs, h, RErr EStruct)
  end.
Proof.
  intros [Ht He] Hc Hm. unfold put, enc_block. fold (wfb k v). rewrite Hc, Hm, Ht, lookup_index_case, He. simpl.
  destruct (assoc rs k) eqn:Ea; [reflexivity|]. destruct (wfb k v); [|reflexivity].
  eexists. split; [f_equal; f_equal|split; [split; simpl|split; reflexivity]].
  - replace (end_from (len H) rs) with (len (H ++ blocks rs)) by (rewrite end_from_len, len_app; reflexivity).
    rewrite write_at_end, blocks_app. unfold blocks at 3. simpl. rewrite app_nil_r, <- app_assoc. reflexivity.
  - rewrite update_fresh, index_from_app; [reflexivity|].
    apply lookup_index_none. exact Ea.
  - rewrite end_from_app. simpl. rewrite len_encb. f_equal. lia.
Qed.

Lemma put_ok H rs h k v :
  full H rs h -> closed h = false -> md h = MA -> assoc rs k = None -> wfb k v = true ->
  exists h', put (H ++ blocks rs) h k v = (H ++ blocks (rs ++ [(k, v)]), h', ROk)
             /\ full H (rs ++ [(k, v)]) h' /\ md h' = MA /\ closed h' = false.
Proof. intros Hf Hc Hm Ha Hw. pose proof (put_spec H rs h k v Hf Hc Hm) as P. rewrite Ha, Hw in P. exact P. Qed.

Lemma nth_upd_same {A} (l : list A) : forall i x d, (i < length l)%nat -> nth i (upd l i x) d = x.
Proof. induction l as [|a l IH]; intros [|i] x d Hi; simpl in *; try lia; [reflexivity|]. apply IH. lia. Qed.

Lemma nth_upd_other {A} (l : list A) : forall i j x d, (i < length l)%nat -> j <> i -> nth j (upd l i x) d = nth j l d.
Proof.
  induction l as [|a l IH]; intros [|i] [|j] x d Hi Hj; simpl in *; try lia; try reflexivity.
  apply IH; lia.
Qed.

Lemma length_upd {A} (l : list A) : forall i x, (i < length l)%nat -> length (upd l i x) = length l.
Proof. induction l as [|a l IH]; intros [|i] x Hi; simpl in *; try lia. rewrite IH by lia. reflexivity. Qed.

Lemma upd_nth_id {A} (l : list A) : forall i d, (i < length l)%nat -> upd l i (nth i l d) = l.
Proof. induction l as [|a l IH]; intros [|i] d Hi; simpl in *; try lia; [reflexivity|]. rewrite IH by lia. reflexivity. Qed.

Definition hnth (hs : list handle) (i : nat) : handle := nth i hs h0.

Lemma hnth_upd hs i h' j : (i < length hs)%nat ->
  hnth (upd hs i h') j = if Nat.eq_dec j i then h' else hnth hs j.
Proof.
  intros Hi. unfold hnth. destruct (Nat.eq_dec j i) as [->|N]; [apply nth_upd_same|apply nth_upd_other]; assumption.
Qed.

Lemma hnth_repeat n i : hnth (repeat h0 n) i = h0.
Proof.
  unfold hnth. destruct (Nat.lt_ge_cases i n) as [L|L]; [apply nth_repeat|].
  apply nth_overflow. rewrite repeat_length. exact L.
Qed.

(* The invariant of a world on header H with abstract contents rs: the file is the header and the encoded records,
   whose keys are distinct; every handle caches a snapshot, an open one the full table; a handle open for append is
   the only open one. *)
Record Inv (H : bytes) (rs : list kv) (w : world) : Prop := {
  inv_file : fst w = H ++ blocks rs;
  inv_hdr : hdr_ok H;
  inv_wf : Forall wfkv rs;
  inv_nodup : NoDup (map fst rs);
  inv_snap : forall i, snap H rs (hnth (snd w) i);
  inv_open : forall i, closed (hnth (snd w) i) = false -> full H rs (hnth (snd w) i);
  inv_excl : forall i j, i <> j -> closed (hnth (snd w) i) = false -> md (hnth (snd w) i) = MA ->
                          closed (hnth (snd w) j) = true
}.

(* initial world: a freshly created file and n handle objects that were never opened *)
Lemma inv_init H n : hdr_ok H -> Inv H [] (H, repeat h0 n).
Proof.
  intros Hok. constructor; simpl; [symmetry; apply app_nil_r|exact Hok|constructor|constructor| | |];
    intros i; rewrite hnth_repeat; [apply snap_h0|discriminate|discriminate].
Qed.

(* The one way a world changes: handle i is replaced, possibly for new contents rs.  The other handles must
   be snapshots of rs, complete if open; and if the new handle is open, it and every other open handle only read
   (a writer is therefore alone).  Nothing else is asked of the old world than exclusion among the others. *)
Lemma inv_upd H rs0 rs f hs i h' :
  Inv H rs0 (f, hs) -> (i < length hs)%nat -> Forall wfkv rs -> NoDup (map fst rs) ->
  snap H rs h' -> (closed h' = false -> full H rs h') ->
  (forall j, j <> i -> snap H rs (hnth hs j) /\
     (closed (hnth hs j) = false ->
      full H rs (hnth hs j) /\ (closed h' = false -> md h' = MR /\ md (hnth hs j) = MR))) ->
  Inv H rs (H ++ blocks rs, upd hs i h').
Proof.
  intros I Hi Hwf Hnd Hs Hf Hoth.
  constructor; simpl; [reflexivity|exact (inv_hdr _ _ _ I)|exact Hwf|exact Hnd| | |].
  - intros j. rewrite hnth_upd by exact Hi. destruct (Nat.eq_dec j i); [exact Hs|apply Hoth; assumption].
  - intros j. rewrite hnth_upd by exact Hi. destruct (Nat.eq_dec j i); [exact Hf|]. intros C. apply Hoth; assumption.
  - intros a b Hab. rewrite !hnth_upd by exact Hi.
    destruct (Nat.eq_dec a i) as [->|Na], (Nat.eq_dec b i) as [->|Nb]; try contradiction; intros Ca Ma.
    + destruct (closed (hnth hs b)) eqn:Cb; [reflexivity|].
      destruct (Hoth b Nb) as [_ X]. destruct (X Cb) as [_ Y]. destruct (Y Ca) as [Y1 _]. congruence.
    + destruct (closed h') eqn:C; [reflexivity|].
      destruct (Hoth a Na) as [_ X]. destruct (X Ca) as [_ Y]. destruct (Y eq_refl) as [_ Y2]. congruence.
    + exact (inv_excl _ _ _ I a b Hab Ca Ma).
Qed.

(* the session discipline: what the inter-process lock of C04 enforces *)
Definition ok_op (w : world) (o : op) : Prop :=
  match o with
  | Open i MA => (i < length (snd w))%nat /\
                 (closed (hnth (snd w) i) = true -> forall j, j <> i -> closed (hnth (snd w) j) = true)
  | Open i MR => (i < length (snd w))%nat /\
                 (closed (hnth (snd w) i) = true -> forall j, j <> i -> closed (hnth (snd w) j) = false -> md (hnth (snd w) j) = MR)
  | Close i | Put i _ _ | Get i _ | Keys i => (i < length (snd w))%nat
  | Crash _ => False
  end.

(* the abstract semantics of one operation on the insert-only map [rs], given only the open/mode flags
   of the handle it goes through *)
Definition step_spec (rs : list kv) (h : handle) (o : op) (r : res) (rs' : list kv) : Prop :=
  match o with
  | Open _ _ | Close _ => r = ROk /\ rs' = rs
  | Put _ k v =>
      if closed h || match md h with MR => true | MA => false end then r = RErr EUnsupported /\ rs' = rs
      else match assoc rs k with
           | Some _ => r = RErr EKey /\ rs' = rs
           | None => if wfb k v then r = ROk /\ rs' = rs ++ [(k, v)] else r = RErr EStruct /\ rs' = rs
           end
  | Get _ k =>
      rs' = rs /\
      if closed h then r = RErr EUnsupported
      else match assoc rs k with Some v => r = RVal v | None => r = RErr EKey end
  | Keys _ =>
      rs' = rs /\
      if closed h then exists m, r = RKeys (map fst (firstn m rs)) else r = RKeys (map fst rs)
  | Crash _ => False
  end.

(* the handle an operation goes through (Crash goes through none: 0 is never looked at, ok_op refuses Crash) *)
Definition op_handle (o : op) : nat :=
  match o with Open i _ | Close i | Put i _ _ | Get i _ | Keys i => i | Crash _ => 0%nat end.

(* The state a dead writer leaves (C03's crash image) before the next writer has cut the tail back: the
   handles are as in Inv; while the tail is there nobody is inside a writing session, because opening for
   append cuts it.  With tl = [] this is Inv. *)
Definition quiet (hs : list handle) : Prop := forall i, closed (hnth hs i) = false -> md (hnth hs i) = MR.

Definition InvTl (H : bytes) (rs : list kv) (tl : bytes) (w : world) : Prop :=
  fst w = H ++ blocks rs ++ tl /\ torn tl /\ Inv H rs (H ++ blocks rs, snd w) /\ (tl <> [] -> quiet (snd w)).

Lemma inv_is_invtl_nil H rs w : Inv H rs w <-> InvTl H rs [] w.
Proof.
  destruct w as [f hs]. unfold InvTl. simpl. rewrite app_nil_r. split.
  - intros I. pose proof (inv_file _ _ _ I) as E. simpl in E. subst f.
    split; [reflexivity|]. split; [apply torn_nil|]. split; [exact I|]. intros N. contradiction.
  - intros [-> [_ [I _]]]. exact I.
Qed.

Lemma quiet_upd hs i h' : (i < length hs)%nat -> quiet hs -> (closed h' = false -> md h' = MR) -> quiet (upd hs i h').
Proof.
  intros Hi Q Hh j. rewrite hnth_upd by exact Hi. destruct (Nat.eq_dec j i); [exact Hh|apply Q].
Qed.

(* What one operation must achieve, for an invariant I of worlds with a tail: I again, for contents rs' and tail tl';
   the answer of the insert-only map; a failure leaves the whole world as it was; the tail is kept or cut; while
   there is a tail the records stay; and they only ever grow. *)
Definition step_outcome (I : list kv -> bytes -> world -> Prop) (rs : list kv) (tl : bytes) (w : world) (o : op) : Prop :=
  exists rs' tl', I rs' tl' (fst (step w o)) /\
                  step_spec rs (hnth (snd w) (op_handle o)) o (snd (step w o)) rs' /\
                  (forall e, snd (step w o) = RErr e -> fst (step w o) = w) /\
                  (tl' = tl \/ tl' = []) /\ (tl <> [] -> rs' = rs) /\
                  (exists qs, rs' = rs ++ qs).

(* an operation that leaves the world as it is and answers as the map does *)
Lemma step_same H rs tl w o :
  InvTl H rs tl w -> fst (step w o) = w -> step_spec rs (hnth (snd w) (op_handle o)) o (snd (step w o)) rs ->
  step_outcome (InvTl H) rs tl w o.
Proof.
  intros I E S. exists rs, tl. rewrite E. split; [exact I|]. split; [exact S|]. split; [reflexivity|].
  split; [left; reflexivity|]. split; [reflexivity|apply ext_refl].
Qed.

(* an operation that succeeds: nothing is asked about failures *)
Lemma step_done H rs tl w o rs' tl' :
  InvTl H rs' tl' (fst (step w o)) -> snd (step w o) = ROk -> step_spec rs (hnth (snd w) (op_handle o)) o ROk rs' ->
  (tl' = tl \/ tl' = []) -> (tl <> [] -> rs' = rs) -> (exists qs, rs' = rs ++ qs) ->
  step_outcome (InvTl H) rs tl w o.
Proof.
  intros I E S T K G. exists rs', tl'. rewrite E. split; [exact I|]. split; [exact S|]. split; [discriminate|].
  split; [exact T|]. split; [exact K|exact G].
Qed.

(* Every operation allowed by the session discipline: the abstract outcome is that of the insert-only map of
   the COMPLETE records; the tail is kept by readers, cut by the first writer, and while it is there the record
   list does not change. *)
Theorem step_tail H rs tl w o :
  InvTl H rs tl w -> ok_op w o -> step_outcome (InvTl H) rs tl w o.
Proof.
  intros I0 Hok. pose proof I0 as [Ef [Ht [I Q]]]. destruct w as [f hs]. simpl in Ef, I, Q.
  pose proof I as [_ Ih Iwf Ind Is Io Ie]. simpl in Is, Io, Ie.
  destruct o as [i m|i|i k v|i k|i|n]; simpl in Hok; try contradiction.
  - assert (Hi : (i < length hs)%nat) by (destruct m; apply Hok).
    destruct (closed (hnth hs i)) eqn:Ec.
    + (* Open of a closed handle: it becomes complete; a reader keeps the tail, a writer cuts it *)
      destruct (open_spec H rs tl (hnth hs i) m Ih Iwf Ind Ht (Is i) Ec) as [h' [E [Hf [Hm Hc]]]].
      apply (step_done H rs tl _ _ rs (match m with MA => [] | MR => tl end));
        cbn [step op_handle]; fold (hnth hs i); rewrite ?Ef, ?E; cbn [fst snd];
        [|reflexivity|split; reflexivity|destruct m; [left|right]; reflexivity|reflexivity|apply ext_refl].
      split; [destruct m; rewrite ?app_nil_r; reflexivity|]. split; [destruct m; [exact Ht|apply torn_nil]|]. split.
      * apply (inv_upd H rs rs _ hs i h' I Hi Iwf Ind (full_snap _ _ _ Hf) (fun _ => Hf)).
        intros j Nj. split; [apply Is|]. intros Cj. split; [apply Io; exact Cj|]. intros _. rewrite Hm.
        destruct m; destruct Hok as [_ Hd]; specialize (Hd eq_refl j Nj); [split; [reflexivity|apply Hd; exact Cj]|congruence].
      * destruct m; [|intros N; contradiction]. intros N. apply quiet_upd; [exact Hi|apply Q; exact N|intros _; exact Hm].
    + (* Open of an open handle does nothing *)
      apply (step_same H rs tl _ _ I0); cbn [step op_handle]; unfold open_; fold (hnth hs i); rewrite Ec; simpl.
      * unfold hnth. rewrite upd_nth_id by exact Hi. reflexivity.
      * split; reflexivity.
  - (* Close: a closed handle keeps its table as a snapshot *)
    apply (step_done H rs tl _ _ rs tl); cbn [step op_handle fst snd]; fold (hnth hs i);
      [|reflexivity|split; reflexivity|left; reflexivity|reflexivity|apply ext_refl].
    split; [exact Ef|]. split; [exact Ht|]. split.
    + apply (inv_upd H rs rs _ hs i (close_ (hnth hs i)) I Hok Iwf Ind (Is i)); [simpl; discriminate|].
      intros j Nj. split; [apply Is|]. intros Cj. split; [apply Io; exact Cj|simpl; discriminate].
    + intros N. apply quiet_upd; [exact Hok|apply Q; exact N|simpl; discriminate].
  - assert (Same : forall e, put f (hnth hs i) k v = (f, hnth hs i, RErr e) ->
                   fst (step (f, hs) (Put i k v)) = (f, hs) /\ snd (step (f, hs) (Put i k v)) = RErr e).
    { intros e E. cbn [step]. fold (hnth hs i). rewrite E. simpl. unfold hnth. rewrite upd_nth_id by exact Hok.
      split; reflexivity. }
    destruct (closed (hnth hs i) || match md (hnth hs i) with MR => true | MA => false end) eqn:Eg.
    + (* Put refused: closed or read-only *)
      destruct (Same EUnsupported) as [E1 E2]; [unfold put; rewrite Eg; reflexivity|].
      apply (step_same H rs tl _ _ I0 E1). rewrite E2. cbn [step_spec op_handle snd]. fold (hnth hs i).
      rewrite Eg. split; reflexivity.
    + (* Put by an open writer: there is no tail *)
      apply orb_false_elim in Eg. destruct Eg as [Ec Em].
      assert (Hm : md (hnth hs i) = MA) by (destruct (md (hnth hs i)); [discriminate|reflexivity]).
      destruct tl as [|b tl]; [|specialize (Q ltac:(discriminate) i Ec); congruence].
      rewrite app_nil_r in Ef. pose proof (put_spec H rs (hnth hs i) k v (Io i Ec) Ec Hm) as P. rewrite <- Ef in P.
      destruct (assoc rs k) eqn:Ea; [|destruct (wfb k v) eqn:Ew].
      * destruct (Same _ P) as [E1 E2]. apply (step_same H rs [] _ _ I0 E1). rewrite E2.
        cbn [step_spec op_handle snd]. fold (hnth hs i). rewrite Ec, Hm, Ea. split; reflexivity.
      * (* one block appended; the other handles are closed, and remain snapshots *)
        destruct P as [h' [E [Hf' [Hm' Hc']]]].
        apply (step_done H rs [] _ _ (rs ++ [(k, v)]) []);
          cbn [step step_spec op_handle snd]; fold (hnth hs i); rewrite ?E, ?Ec, ?Hm, ?Ea, ?Ew; cbn [fst snd orb];
          [|reflexivity|split; reflexivity|left; reflexivity|intros N; contradiction|exists [(k, v)]; reflexivity].
        split; [rewrite app_nil_r; reflexivity|]. split; [apply torn_nil|]. split; [|intros N; contradiction].
        apply (inv_upd H rs _ _ hs i h' I Hok).
        -- apply Forall_app. split; [exact Iwf|]. constructor; [apply wfb_wfkv; exact Ew|constructor].
        -- rewrite map_app. apply NoDup_snoc. split; [exact Ind|]. apply assoc_none_iff. exact Ea.
        -- apply full_snap. exact Hf'.
        -- intros _. exact Hf'.
        -- intros j Nj. split; [apply snap_app, Is|]. intros Cj.
           pose proof (Ie i j (not_eq_sym Nj) Ec Hm). congruence.
      * destruct (Same _ P) as [E1 E2]. apply (step_same H rs [] _ _ I0 E1). rewrite E2.
        cbn [step_spec op_handle snd]. fold (hnth hs i). rewrite Ec, Hm, Ea, Ew. split; reflexivity.
  - (* Get and Keys change nothing; an open handle answers from the whole map, a closed one from its snapshot *)
    apply (step_same H rs tl _ _ I0); [reflexivity|]. cbn [step op_handle snd]. fold (hnth hs i).
    split; [reflexivity|]. destruct (closed (hnth hs i)) eqn:Ec.
    + unfold get. rewrite Ec. reflexivity.
    + rewrite Ef, (get_spec H rs tl _ k (Io i Ec) Ec). destruct (assoc rs k); reflexivity.
  - apply (step_same H rs tl _ _ I0); [reflexivity|]. cbn [step op_handle snd]. fold (hnth hs i).
    split; [reflexivity|]. destruct (closed (hnth hs i)) eqn:Ec.
    + destruct (snap_keys H rs _ (Is i)) as [m Hm]. exists m. rewrite Hm. reflexivity.
    + rewrite (full_keys H rs _ (Io i Ec)). reflexivity.
Qed.

(* One operation on a file without a tail (C02). *)
Theorem step_refines H rs w o :
  Inv H rs w -> ok_op w o ->
  exists rs', Inv H rs' (fst (step w o)) /\
              step_spec rs (hnth (snd w) (op_handle o)) o (snd (step w o)) rs' /\
              (forall e, snd (step w o) = RErr e -> fst (step w o) = w).
Proof.
  intros I Hok. apply inv_is_invtl_nil in I.
  destruct (step_tail H rs [] w o I Hok) as [rs' [tl' [I' [S [E [Etl _]]]]]].
  exists rs'. split; [|split; assumption]. apply inv_is_invtl_nil. destruct Etl as [->| ->]; exact I'.
Qed.

(* From one step to histories, for any operation set: a step function that preserves Inv and answers as its
   specification says lifts to runs.  grun, gok, gspec are run, ok_run, run_spec (and UKVViews' vrun, ok_vrun,
   vrun_spec) with the step function, discipline and step specification left open; the concrete ones are
   instances by conversion. *)
Section Lift.
  Context {O R : Type} (stp : world -> O -> world * R) (ok : world -> O -> Prop)
          (spec : list kv -> world -> O -> R -> list kv -> Prop).

  Fixpoint grun (w : world) (ops : list O) : list R * world :=
    match ops with
    | [] => ([], w)
    | o :: ops' => let '(w', r) := stp w o in let '(rs, wf) := grun w' ops' in (r :: rs, wf)
    end.

  Fixpoint gok (w : world) (ops : list O) : Prop :=
    match ops with
    | [] => True
    | o :: ops' => ok w o /\ gok (fst (stp w o)) ops'
    end.

  Fixpoint gspec (rs : list kv) (w : world) (ops : list O) (out : list R) (rs_final : list kv) : Prop :=
    match ops, out with
    | [], [] => rs_final = rs
    | o :: ops', r :: out' => exists rs', spec rs w o r rs' /\ gspec rs' (fst (stp w o)) ops' out' rs_final
    | _, _ => False
    end.

  Lemma refines_lift H :
    (forall rs w o, Inv H rs w -> ok w o ->
       exists rs', Inv H rs' (fst (stp w o)) /\ spec rs w o (snd (stp w o)) rs') ->
    forall ops rs w, Inv H rs w -> gok w ops ->
      exists rs', Inv H rs' (snd (grun w ops)) /\ gspec rs w ops (fst (grun w ops)) rs'.
  Proof.
    intros Step. induction ops as [|o ops IH]; intros rs w I Hok.
    - exists rs. simpl. split; [exact I|reflexivity].
    - destruct Hok as [Ho Hrest].
      destruct (Step rs w o I Ho) as [rs1 [I1 S1]].
      destruct (IH rs1 (fst (stp w o)) I1 Hrest) as [rs2 [I2 R2]].
      exists rs2. simpl. destruct (stp w o) as [w1 r1]. simpl in *. destruct (grun w1 ops) as [out wf]. simpl in *.
      split; [exact I2|]. exists rs1. split; assumption.
  Qed.
End Lift.

(* ok_run and run_spec are gok and gspec at step, ok_op, step_spec; they are written out because the C02 statements
   are stated with them, and meet the generic ones by conversion. *)
Fixpoint ok_run (w : world) (ops : list op) : Prop :=
  match ops with
  | [] => True
  | o :: ops' => ok_op w o /\ ok_run (fst (step w o)) ops'
  end.

(* abstract run: results are those of the insert-only map *)
Fixpoint run_spec (rs : list kv) (w : world) (ops : list op) (out : list res) (rs_final : list kv) : Prop :=
  match ops, out with
  | [], [] => rs_final = rs
  | o :: ops', r :: out' =>
      exists rs', step_spec rs (hnth (snd w) (op_handle o)) o r rs' /\
                  run_spec rs' (fst (step w o)) ops' out' rs_final
  | _, _ => False
  end.

(* the records of the interrupted session that lie wholly inside the first n bytes of its stream *)
Fixpoint complete (n : nat) (ps : list kv) : list kv :=
  match ps with
  | [] => []
  | p :: ps' => let l := length (encb (fst p) (snd p)) in
                if (l <=? n)%nat then p :: complete (n - l) ps' else []
  end.

Lemma firstn_blocks ps : forall n, Forall wfkv ps ->
  exists tl, firstn n (blocks ps) = blocks (complete n ps) ++ tl /\ torn tl.
Proof.
  induction ps as [|p ps IH]; intros n Hwf.
  - exists []. simpl. rewrite firstn_nil. split; [reflexivity|apply torn_nil].
  - inversion Hwf as [|x l Hp Hrest]; subst. rewrite blocks_cons, firstn_app. cbn [complete].
    destruct (length (encb (fst p) (snd p)) <=? n)%nat eqn:E.
    + apply Nat.leb_le in E. destruct (IH (n - length (encb (fst p) (snd p)))%nat Hrest) as [tl [Ht Htorn]].
      exists tl. split; [|exact Htorn]. rewrite firstn_all2 by exact E.
      rewrite Ht, blocks_cons, <- app_assoc. reflexivity.
    + apply Nat.leb_gt in E. exists (firstn n (encb (fst p) (snd p))). split.
      * replace (n - length (encb (fst p) (snd p)))%nat with 0%nat by lia. apply app_nil_r.
      * right. exists (fst p), (snd p), n. split; [destruct p; exact Hp|split; [exact E|reflexivity]].
Qed.

Lemma complete_prefix n ps : exists j, complete n ps = firstn j ps.
Proof.
  revert n. induction ps as [|p ps IH]; intros n; [exists 0%nat; reflexivity|].
  cbn [complete]. destruct (length (encb (fst p) (snd p)) <=? n)%nat.
  - destruct (IH (n - length (encb (fst p) (snd p)))%nat) as [j Hj]. exists (S j). rewrite Hj. reflexivity.
  - exists 0%nat. reflexivity.
Qed.

(* well-formedness and distinct keys pass from the session's puts to the complete ones, whatever follows *)
Lemma complete_keeps rs ps n rest :
  Forall wfkv (rs ++ ps ++ rest) -> NoDup (map fst (rs ++ ps ++ rest)) ->
  Forall wfkv ((rs ++ complete n ps) ++ rest) /\ NoDup (map fst ((rs ++ complete n ps) ++ rest)).
Proof.
  destruct (complete_prefix n ps) as [j ->]. intros Hwf Hnd.
  rewrite <- (firstn_skipn j ps), <- app_assoc, (app_assoc rs) in Hwf, Hnd.
  split; [rewrite !Forall_app in *; tauto|]. rewrite !map_app in *. exact (nodup_drop_mid _ _ _ Hnd).
Qed.

Lemma complete_keeps0 rs ps n :
  Forall wfkv (rs ++ ps) -> NoDup (map fst (rs ++ ps)) ->
  Forall wfkv (rs ++ complete n ps) /\ NoDup (map fst (rs ++ complete n ps)).
Proof.
  intros Hwf Hnd. rewrite <- (app_nil_r (rs ++ complete n ps)). apply complete_keeps; rewrite app_nil_r; assumption.
Qed.

Definition crash_image (H : bytes) (rs ps : list kv) (n : nat) : bytes :=
  H ++ blocks rs ++ firstn n (blocks ps).

(* a crash image is the complete blocks followed by a torn tail *)
Lemma crash_image_split H rs ps n : Forall wfkv ps ->
  exists tl, torn tl /\ crash_image H rs ps n = H ++ blocks (rs ++ complete n ps) ++ tl.
Proof.
  intros Hwp. destruct (firstn_blocks ps n Hwp) as [tl [Ht Htorn]]. exists tl. split; [exact Htorn|].
  unfold crash_image. rewrite Ht, blocks_app, <- app_assoc. reflexivity.
Qed.

(* Reopening ANY crash image with any handle whose cached table is a (possibly stale) snapshot of the
   committed records: the table of contents becomes exactly committed ++ complete; a torn record is never
   listed; in append mode the file is cut back to exactly the complete blocks. *)
Theorem crash_reopen H rs ps n h m :
  hdr_ok H -> Forall wfkv (rs ++ ps) -> NoDup (map fst (rs ++ ps)) ->
  snap H rs h -> closed h = true ->
  exists h', open_ (crash_image H rs ps n) h m =
             (match m with MA => H ++ blocks (rs ++ complete n ps) | MR => crash_image H rs ps n end, h')
             /\ full H (rs ++ complete n ps) h' /\ md h' = m /\ closed h' = false.
Proof.
  intros Hok Hwf Hnd Hs Hc. destruct (complete_keeps0 rs ps n Hwf Hnd) as [Hwf' Hnd'].
  apply Forall_app in Hwf. destruct (crash_image_split H rs ps n (proj2 Hwf)) as [tl [Htorn ->]].
  apply (open_spec H _ tl h m Hok Hwf' Hnd' Htorn (snap_app H rs _ h Hs) Hc).
Qed.
