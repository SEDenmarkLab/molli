(* C15: the reference enumerator of Model/Match.v returns exactly the induced embeddings (sound and complete
   w.r.t. a Prop-level definition), each once; what node_match / edge_match come to for plain patterns; the
   tabulated edge predicate read row by row, and that it is defined for every supported pattern bond type. *)
From Coq Require Import Arith List Bool NArith Lia FinFun.
From Molli Require Import Model.Match Proofs.Graph.
From Molli Require Import Common.ListFacts Common.FlatNth.
Import ListNotations.
Open Scope nat_scope.

Definition bonded (G : mgraph) (x y : nat) : Prop := exists b, In b (mg_bonds G) /\ mjoins b x y = true.

(* pattern atoms i, j and their images hi, hj: bonded iff bonded (inducedness), and every pattern bond
   between i and j is compatible with every bond between the images *)
Definition pair_spec (H P : mgraph) (i j hi hj : nat) : Prop :=
  (bonded P i j <-> bonded H hi hj) /\
  (forall e2 e1, In e2 (mg_bonds P) -> mjoins e2 i j = true ->
                 In e1 (mg_bonds H) -> mjoins e1 hi hj = true -> edge_match e1 e2 = Some true).

Definition img (f : list nat) (i : nat) : nat := nth i f 0.

(* f = [image of pattern atom 0; image of pattern atom 1; ...] is an induced embedding of P into H *)
Definition embedding (H P : mgraph) (f : list nat) : Prop :=
  length f = length (mg_atoms P) /\
  Forall (fun h => h < length (mg_atoms H)) f /\
  NoDup f /\                                                                   (* injective *)
  (forall i, i < length (mg_atoms P) -> node_match (atom_at H (img f i)) (atom_at P i) = true) /\
  (forall i j, i < length (mg_atoms P) -> j < length (mg_atoms P) -> i <> j ->
               pair_spec H P i j (img f i) (img f j)).

(* partial embeddings: the same conditions for the first k pattern atoms; `embedding H P` is `pemb H P` at
   k = number of pattern atoms *)
Definition pemb (H P : mgraph) (k : nat) (f : list nat) : Prop :=
  length f = k /\
  Forall (fun h => h < length (mg_atoms H)) f /\
  NoDup f /\
  (forall i, i < k -> node_match (atom_at H (img f i)) (atom_at P i) = true) /\
  (forall i j, i < k -> j < k -> i <> j -> pair_spec H P i j (img f i) (img f j)).

Lemma mjoins_sym b x y : mjoins b x y = mjoins b y x.
Proof. apply joins_sym. Qed.

Lemma bonded_sym G x y : bonded G x y -> bonded G y x.
Proof. intros [b [Hb Hj]]. exists b. split; [exact Hb|]. now rewrite mjoins_sym. Qed.

Lemma pair_spec_sym H P i j hi hj : pair_spec H P i j hi hj -> pair_spec H P j i hj hi.
Proof.
  intros [Hb He]. split.
  - split; intros Hx; apply bonded_sym; apply Hb; now apply bonded_sym.
  - intros e2 e1 H2 J2 H1 J1. apply He; auto; now rewrite mjoins_sym.
Qed.

Lemma has_bond_spec G x y : has_bond G x y = true <-> bonded G x y.
Proof. unfold has_bond, bonded. apply existsb_exists. Qed.

Lemma edge_ok_spec e1 e2 : edge_ok e1 e2 = true <-> edge_match e1 e2 = Some true.
Proof. unfold edge_ok. destruct (edge_match e1 e2) as [[|]|]; split; congruence. Qed.

Lemma eqb_iff a b : Bool.eqb a b = true <-> (a = true <-> b = true).
Proof. destruct a, b; simpl; intuition discriminate. Qed.

Lemma imp_b a b : negb a || b = true <-> (a = true -> b = true).
Proof. destruct a, b; simpl; intuition discriminate. Qed.

Lemma pair_ok_spec H P i j hi hj : pair_ok H P i j hi hj = true <-> pair_spec H P i j hi hj.
Proof.
  unfold pair_ok, pair_spec. rewrite andb_true_iff, eqb_iff, !has_bond_spec, forallb_forall.
  split; intros [Hb He]; (split; [exact Hb|]).
  - intros e2 e1 H2 J2 H1 J1. specialize (He e2 H2). rewrite imp_b, forallb_forall in He.
    specialize (He J2 e1 H1). rewrite imp_b in He. now apply edge_ok_spec, He.
  - intros e2 H2. apply imp_b. intros J2. apply forallb_forall. intros e1 H1. apply imp_b. intros J1.
    apply edge_ok_spec. now apply He.
Qed.

Lemma ok_new_spec H P f k h : ok_new H P f k h = true <->
  ~ In h f /\ node_match (atom_at H h) (atom_at P k) = true /\
  (forall i, i < k -> pair_spec H P i k (img f i) h).
Proof.
  unfold ok_new. rewrite !andb_true_iff, negb_true_iff, mem_false, forallb_forall.
  split.
  - intros [[Hn Hm] Hp]. split; [exact Hn|split; [exact Hm|]].
    intros i Hi. apply pair_ok_spec. apply Hp. apply in_seq. lia.
  - intros [Hn [Hm Hp]]. split; [split; [exact Hn|exact Hm]|].
    intros i Hi. apply in_seq in Hi. apply pair_ok_spec. apply Hp. lia.
Qed.

Lemma img_snoc_lt f h i : i < length f -> img (f ++ [h]) i = img f i.
Proof. intros Hi. unfold img. now apply app_nth1. Qed.
Lemma img_snoc_eq f h : img (f ++ [h]) (length f) = h.
Proof. unfold img. rewrite app_nth2; [|lia]. now rewrite Nat.sub_diag. Qed.

Lemma snoc_cases (f : list nat) k : length f = S k -> exists f' h, f = f' ++ [h] /\ length f' = k.
Proof.
  intros Hl. destruct (exists_last (l := f)) as [f' [h E]].
  - intros ->. discriminate.
  - exists f', h. split; [exact E|]. subst f. rewrite app_length in Hl. simpl in Hl. lia.
Qed.

Lemma pemb_snoc H P k f h : length f = k ->
  (pemb H P (S k) (f ++ [h]) <->
   pemb H P k f /\ h < length (mg_atoms H) /\ ~ In h f /\
   node_match (atom_at H h) (atom_at P k) = true /\
   (forall i, i < k -> pair_spec H P i k (img f i) h)).
Proof.
  intros <-. unfold pemb. rewrite app_length, Forall_app, NoDup_snoc, Nat.add_1_r. cbn [length]. split.
  - intros (_ & [F Fh] & [N Nh] & Hn & Hp). inversion Fh as [|? ? Hh _]; subst.
    pose proof (Hn (length f) (Nat.lt_succ_diag_r _)) as Hm. rewrite img_snoc_eq in Hm.
    split; [split; [reflexivity|split; [exact F|split; [exact N|split]]]|split; [exact Hh|split; [exact Nh|split; [exact Hm|]]]].
    + intros i Hi. rewrite <- (img_snoc_lt f h i Hi). apply Hn. lia.
    + intros i j Hi Hj Hne. rewrite <- (img_snoc_lt f h i), <- (img_snoc_lt f h j) by lia. apply Hp; lia.
    + intros i Hi. specialize (Hp i (length f)). rewrite img_snoc_eq, img_snoc_lt in Hp by lia. apply Hp; lia.
  - intros ((_ & F & N & Hn & Hp) & Hh & Nh & Hm & Hk).
    split; [reflexivity|]. split; [split; [exact F|now constructor]|]. split; [now split|]. split.
    + intros i Hi. destruct (Nat.eq_dec i (length f)) as [->|Hne]; [now rewrite img_snoc_eq|].
      rewrite img_snoc_lt by lia. apply Hn. lia.
    + intros i j Hi Hj Hne.
      destruct (Nat.eq_dec i (length f)) as [->|Hi'], (Nat.eq_dec j (length f)) as [->|Hj']; [lia| | |];
        rewrite ?img_snoc_eq, ?img_snoc_lt by lia; [apply pair_spec_sym, Hk|apply Hk|apply Hp]; lia.
Qed.

Theorem enum_k_spec H P : forall k f, In f (enum_k H P k) <-> pemb H P k f.
Proof.
  induction k as [|k IH]; intros f; cbn [enum_k].
  - split.
    + intros [<-|[]]. unfold pemb. repeat split; auto; try constructor; intros; lia.
    + intros (L & _). apply length_zero_iff_nil in L. subst. now left.
  - rewrite in_flat_map. split.
    + intros (f' & Hf' & Hin). apply in_map_iff in Hin. destruct Hin as (h & <- & Hh).
      apply IH in Hf'. apply filter_In in Hh. rewrite in_seq, ok_new_spec in Hh.
      apply pemb_snoc; [apply Hf'|]. cbn [Nat.add] in Hh. tauto.
    + intros Hp. destruct (snoc_cases f k (proj1 Hp)) as (f' & h & -> & Hl).
      apply (pemb_snoc _ _ _ _ _ Hl) in Hp. exists f'. split; [apply IH; tauto|].
      apply in_map_iff. exists h. rewrite filter_In, in_seq, ok_new_spec. split; [reflexivity|]. split; [lia|tauto].
Qed.

(* none invalid, none missed *)
Theorem enum_sound_complete H P f : In f (enum H P) <-> embedding H P f.
Proof. apply enum_k_spec. Qed.

(* ... and none twice *)
Lemma NoDup_map_snoc (f : list nat) (l : list nat) : NoDup l -> NoDup (map (fun h => f ++ [h]) l).
Proof. apply Injective_map_NoDup. intros x y E. apply app_inv_head in E. now injection E. Qed.

Lemma NoDup_flat_map_snoc (F : list nat -> list nat) (L : list (list nat)) :
  NoDup L -> (forall f, NoDup (F f)) ->
  NoDup (flat_map (fun f => map (fun h => f ++ [h]) (F f)) L).
Proof.
  intros HL HF. apply (NoDup_flat_map _ (@removelast nat)); [exact HL | intros; apply NoDup_map_snoc, HF |].
  intros a x [h [<- _]]%in_map_iff. apply removelast_last.
Qed.

Theorem enum_nodup H P : NoDup (enum H P).
Proof.
  unfold enum. induction (length (mg_atoms P)) as [|k IH]; cbn [enum_k].
  - constructor; [intros []|constructor].
  - apply NoDup_flat_map_snoc; [exact IH|]. intros f. apply NoDup_filter. apply seq_NoDup.
Qed.

(* a pattern atom without isotope / stereo constraint, a pattern bond without stereo / label constraint
   whose type is Unknown or the default Single, searched in a molecule all of whose bonds have a type of
   value >= 1 (anything but Unknown): the predicates reduce to "same element, or the pattern element is
   Unknown" and "always". *)
Definition plain_atom (a : matom) : Prop := ma_iso a = None /\ ma_stereo a = 0%N.
Definition plain_bond (e : mbond) : Prop :=
  mb_stereo e = 0%N /\ mb_label e = None /\ (mb_btype e = 0%N \/ mb_btype e = 1%N).
Definition typed_host (H : mgraph) : Prop := forall e, In e (mg_bonds H) -> (1 <= mb_btype e)%N.

Lemma node_match_plain a1 a2 : plain_atom a2 ->
  (node_match a1 a2 = true <-> ma_el a2 = 0%N \/ ma_el a1 = ma_el a2).
Proof.
  intros [Hi Hs]. unfold node_match. rewrite Hi, Hs. cbn [andb negb N.eqb]. rewrite N.eqb_refl. cbn [negb].
  rewrite andb_false_r.
  destruct (N.eqb_spec (ma_el a2) 0), (N.eqb_spec (ma_el a1) (ma_el a2)); cbn [negb andb]; intuition congruence.
Qed.

Lemma edge_match_plain e1 e2 : plain_bond e2 -> (1 <= mb_btype e1)%N -> edge_match e1 e2 = Some true.
Proof.
  intros (Hs & Hl & Hb) Hge. unfold edge_match. rewrite Hs, Hl. cbn [N.eqb negb andb].
  destruct Hb as [-> | ->]; [reflexivity|].
  destruct (N.ltb (mb_btype e1) 1) eqn:E; [|reflexivity]. apply N.ltb_lt in E. lia.
Qed.

(* the statement of C15 verbatim: injective maps that respect elements (Unknown matches any), send bonded
   pattern atoms to bonded atoms and non-bonded ones to non-bonded atoms *)
Definition plain_embedding (H P : mgraph) (f : list nat) : Prop :=
  length f = length (mg_atoms P) /\
  Forall (fun h => h < length (mg_atoms H)) f /\
  NoDup f /\
  (forall i, i < length (mg_atoms P) ->
     ma_el (atom_at P i) = 0%N \/ ma_el (atom_at H (img f i)) = ma_el (atom_at P i)) /\
  (forall i j, i < length (mg_atoms P) -> j < length (mg_atoms P) -> i <> j ->
     (bonded P i j <-> bonded H (img f i) (img f j))).

Lemma edge_agree_nth : forall ps obs, edge_agree ps obs = true ->
  length obs = length ps /\
  forall k e1 e2, nth_error ps k = Some (e1, e2) -> supported_bt (mb_btype e2) = true ->
                  nth_error obs k = Some (code_of_edge (edge_match e1 e2)).
Proof.
  induction ps as [|[a1 a2] ps IH]; intros [|o obs] H; cbn [edge_agree] in H; try discriminate.
  - split; [reflexivity|]. intros [|k] e1 e2 Hk; discriminate.
  - apply andb_true_iff in H. destruct H as [H0 H]. destruct (IH _ H) as [HL Hn].
    split; [cbn [length]; now rewrite HL|]. intros [|k] e1 e2 Hk Hs; cbn [nth_error] in *.
    + injection Hk as -> ->. rewrite Hs in H0. cbn [negb orb] in H0. apply N.eqb_eq in H0. now rewrite H0.
    + now apply Hn.
Qed.

(* with a supported pattern no comparison raises *)
Lemma edge_match_defined e1 e2 : supported_bt (mb_btype e2) = true -> exists r, edge_match e1 e2 = Some r.
Proof.
  unfold supported_bt. intros Hs. apply existsb_exists in Hs. destruct Hs as (x & Hx & E). apply N.eqb_eq in E.
  unfold edge_match. rewrite E. cbn [In] in Hx.
  repeat (destruct Hx as [<-|Hx]; [lazy beta iota zeta; try destruct (N.ltb _ _); try destruct (negb _); eauto|]).
  destruct Hx.
Qed.
