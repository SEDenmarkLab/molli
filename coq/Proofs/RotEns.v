(* C11, ensemble part (Model/RotEns.v), for ensembles of every shape, in particular n_conformers = n_atoms: a stack of proper
   rotations keeps every conformer's shape, the per-atom reading of an (n, 3) translation array is refuted, scaling acts row
   by row, and the statement-by-statement ensemble alignment is the molecule alignment applied to every conformer.
   Builds on Proofs/RotMotion.v. *)
From Coq Require Import Reals Lra List Lia.
From Molli Require Import Common.Field3 Common.Field3R Model.Rot Model.RotEns Proofs.Rot Proofs.RotMotion.
From Molli Require Import Common.ListFacts.
Import ListNotations.
Local Open Scope R_scope.

Lemma all_some_spec {A} (l : list (option A)) (r : list A) : all_some l = Some r -> l = map Some r.
Proof.
  revert r. induction l as [|[x|] l IH]; simpl; intros r H.
  - injection H as <-. reflexivity.
  - destruct (all_some l) as [r'|] eqn:E; [|discriminate]. injection H as <-. simpl. f_equal. apply IH. reflexivity.
  - discriminate.
Qed.

(* rotate((n_conformers, 3, 3) stack) of proper rotations: every conformer keeps its shape *)
Theorem ens_rotate_each_shape (Ms : list matR) (E : list (list vecR)) :
  length Ms = length E -> Forall proper Ms -> Forall2 same_shape E (ens_rotate_each ROps Ms E).
Proof.
  intros HL HP. apply Forall2_map2; [exact HL|]. intros M HM X. apply transform_same_shape.
  now apply (proj1 (Forall_forall _ _) HP).
Qed.

(* two conformers of a two-atom molecule (n_conformers = n_atoms = 2): adding row j of the array to atom j doubles
   the bond length *)
Lemma displace_atoms_not_rigid :
  let E := [[(0, 0, 0); (1, 0, 0)]; [(0, 0, 0); (0, 1, 0)]] : list (list vecR) in
  let vs := [(0, 0, 0); (1, 0, 0)] : list vecR in
  length vs = length E /\ Forall (fun X : list vecR => length X = length E) E /\
  Forall2 same_shape E (ens_translate2 ROps vs E) /\
  ~ Forall2 same_shape E (ens_displace_atoms ROps vs E).
Proof.
  cbv zeta. split; [reflexivity|]. split; [repeat constructor|]. split.
  - apply ens_translate2_shape. reflexivity.
  - intros H. inversion H as [|X Y E1 E2 H1 H2]; subst. clear H H2.
    destruct H1 as [_ [D _]]. specialize (D 0%nat 1%nat I I). simpl length in D.
    specialize (D ltac:(lia) ltac:(lia)). unfold pt in D. simpl in D. f3_in D. lra.
Qed.

(* Y is X scaled by f about the origin: squared distances times f^2, signed volumes times f^3 *)
Definition scaled_shape (f : R) (X Y : list vecR) : Prop :=
  length Y = length X /\
  (forall i j, dist2 ROps (pt Y i) (pt Y j) = f * f * dist2 ROps (pt X i) (pt X j)) /\
  (forall i j k l, signed_volume ROps (pt Y i) (pt Y j) (pt Y k) (pt Y l)
                   = f * f * f * signed_volume ROps (pt X i) (pt X j) (pt X k) (pt X l)).
Lemma pt_scale (f : R) (X : list vecR) (i : nat) : pt (map (vscale ROps f) X) i = vscale ROps f (pt X i).
Proof.
  unfold pt. replace (vzero ROps) with (vscale ROps f (vzero ROps)) at 1 by (f3; veq; ring).
  apply (map_nth (vscale ROps f)).
Qed.
(* the code's sequence (centre all, pick per conformer, rotate by the stack, shift all) is the molecule procedure
   (Model/Rot.v align_with) carried out on every conformer *)
Lemma ens_align_steps_eq (E : list (list vecR)) (idx0 : list nat) (results : list (list (matR * R))) (v : option vecR) :
  length results = length E ->
  ens_align_steps ROps E idx0 results v = ens_align_with ROps E idx0 results v.
Proof.
  unfold ens_align_steps, ens_align_with.
  revert results. induction E as [|X E IH]; intros [|res results] HL; simpl in HL; try discriminate.
  - simpl. destruct v; reflexivity.
  - injection HL as HL. specialize (IH results HL).
    change (center_at_core ROps idx0 (X :: E))
      with (translate ROps (vopp ROps (centroid ROps (select ROps idx0 X))) X :: center_at_core ROps idx0 E).
    cbn [map all_some map2]. unfold align_with at 1, align_centered.
    destruct (pick_best ROps res) as [r [M|]]; cbn [fst snd]; [|reflexivity].
    destruct (all_some (map snd (map (pick_best ROps) results))) as [Ms|];
      destruct (all_some (map2 (fun X0 res0 => align_with ROps X0 idx0 res0 v) E results)) as [l|];
      try discriminate; [|reflexivity].
    injection IH as I1 I2. cbn [map fst snd]. rewrite <- I1, <- I2.
    unfold ens_rotate_each. cbn [map2]. destruct v; reflexivity.
Qed.

Theorem ens_align_conformerwise (func : list vecR -> list vecR -> matR * R)
        (E : list (list vecR)) (idxs : list (list nat)) (ref : list vecR) (v : option vecR)
        (E' : list (list vecR)) (rs : list R) :
  ens_align ROps func E idxs ref v = Some (E', rs) ->
  length E' = length E /\ length rs = length E /\
  forall k, (k < length E)%nat -> align ROps func (nth k E []) idxs ref v = Some (nth k E' [], nth k rs 0).
Proof.
  unfold ens_align, align. destruct idxs as [|idx0 rest]; [discriminate|]. set (idxs := idx0 :: rest).
  unfold ens_align_inputs. rewrite map_map, ens_align_steps_eq by (now rewrite map_length).
  unfold ens_align_with. rewrite map2_map_r.
  destruct (all_some _) as [l|] eqn:A; [|discriminate]. intros [= <- <-]. apply all_some_spec in A.
  assert (HL : length l = length E) by (apply (f_equal (@length _)) in A; now rewrite !map_length in A).
  rewrite !map_length. split; [exact HL|]. split; [exact HL|]. intros k Hk.
  apply (f_equal (fun m => nth k m None)) in A.
  rewrite (map_nth_lt _ E None [] k), (map_nth_lt Some l None ([], 0) k) in A by lia. rewrite A.
  rewrite (map_nth_lt fst l [] ([], 0) k), (map_nth_lt snd l 0 ([], 0) k) by lia. now destruct (nth k l ([], 0)).
Qed.
