(* C06 -- the DEEP level of the heap model of Model/Alias.v: attribute VALUES.  An attrib dictionary that holds mutable
   values points to the store of those values (`CDict kv (Some l)`, `get h l = CVal content`); `vptrs` follows that edge,
   `ptrs` does not.  The results of Proofs/Alias.v at `vptrs`, the deep observation `stores`, soundness of `copy_row` for
   rows whose values are all fresh (what pickle / copy.deepcopy have to deliver), and the converse: a one-level copy,
   which hands out the source's value objects, leaks an in-place edit of a value. *)
From Coq Require Import List Bool Lia.
Import ListNotations.
From Molli Require Import Model.Alias Proofs.Alias.

(* `gclosed P` is `closed_under P` of Proofs/Alias.v, `granked P rk` is `ranked_by P rk`: the lemmas are there *)
Section Generic.
Variable P : cell -> list loc.

Definition gclosed (h : heap) (S : loc -> Prop) : Prop :=
  forall l, S l -> l < length h /\ forall p, In p (P (get h l)) -> S p.

Variable rk : cell -> nat.
Definition granked (h : heap) : Prop :=
  forall l, l < length h -> forall p, In p (P (get h l)) -> p < length h /\ rk (get h p) < rk (get h l).
End Generic.

Definition vclosed := gclosed vptrs.
Definition vranked := granked vptrs vrank.
Definition vheap_wf (h : heap) : Prop :=
  forall l, l < length h -> forall p, In p (vptrs (get h l)) -> p < length h.

Lemma vclosed_closed : forall h S, vclosed h S -> closed h S.
Proof.
  intros h S H l Hl. destruct (H l Hl) as [H1 H2]. split; auto.
  intros p Hp. apply H2. apply ptrs_sub_vptrs. exact Hp.
Qed.

Lemma vheap_wf_wf : forall h, vheap_wf h -> heap_wf h.
Proof. intros h H l Hl p Hp. apply (H l Hl). apply ptrs_sub_vptrs. exact Hp. Qed.

Lemma vheap_wfb_sound : forall h, vheap_wfb h = true -> vheap_wf h.
Proof. exact (wfb_sound vptrs). Qed.

Lemma vrankedb_sound : forall h, vrankedb h = true -> vranked h.
Proof. exact (ranked_by_sound vptrs vrank). Qed.

Lemma vranked_wf : forall h, vranked h -> vheap_wf h.
Proof. intros h Hr l Hl p Hp. apply (Hr l Hl p Hp). Qed.

Lemma vreach_closed : forall h o, vranked h -> o < length h -> vclosed h (fun x => In x (vreach h o)).
Proof.
  intros h o Hr Ho. apply (greachN_closed vptrs vrank h Hr 5 o Ho).
  destruct (get h o); simpl; lia.
Qed.

Lemma greachN_ptrs_sub_vptrs : forall n h l x, In x (greachN ptrs n h l) -> In x (greachN vptrs n h l).
Proof.
  induction n as [|n IH]; intros h l x H; [exact H|].
  apply greachN_S. apply greachN_S in H. destruct H as [->|[p [Hp Hx]]]; [left; reflexivity|].
  right. exists p. split; [apply ptrs_sub_vptrs; exact Hp|apply IH; exact Hx].
Qed.

Lemma reach_sub_vreach : forall h o x, In x (reach h o) -> In x (vreach h o).
Proof. intros h o x H. rewrite reach_g in H. apply (greachN_mono vptrs 4). apply greachN_ptrs_sub_vptrs. exact H. Qed.

Lemma store_of_agree : forall h1 h2 (S : loc -> Prop) d,
  vclosed h1 S -> S d -> agree S h1 h2 -> store_of h2 d = store_of h1 d.
Proof.
  intros h1 h2 S d Hc Hd Ha. unfold store_of, vals_of. rewrite (Ha d Hd).
  destruct (get h1 d) as [|kv v| | | | | |] eqn:E; auto. destruct v as [l|]; auto.
  rewrite (Ha l); auto. destruct (Hc d Hd) as [_ Hp]. apply Hp. rewrite E. simpl. auto.
Qed.

Theorem stores_local : forall h1 h2 (S : loc -> Prop) o,
  vclosed h1 S -> S o -> agree S h1 h2 -> stores h2 o = stores h1 o.
Proof.
  intros h1 h2 S o Hv Ho Ha. pose proof (vclosed_closed _ _ Hv) as Hc. unfold stores. rewrite (Ha o Ho).
  destruct (get h1 o) as [| | | | | |cls sc al bl co ch we at_|] eqn:Eo; auto.
  assert (Hp : forall p, In p (al :: at_ :: olist bl ++ olist co ++ olist ch ++ olist we) -> S p).
  { intros p Hin. apply (Hc o Ho). rewrite Eo. exact Hin. }
  (* the dictionary a cell of the region points to lies in the region, and so does its store *)
  assert (Hd : forall x dd, S x -> In dd (ptrs (get h1 x)) -> store_of h2 dd = store_of h1 dd).
  { intros x dd Sx Hdd. eapply store_of_agree; eauto. apply (Hc x Sx). exact Hdd. }
  destruct (items_local _ _ _ al Hc Ha) as [-> Hatoms]; [apply Hp; simpl; auto|].
  f_equal. f_equal.
  - apply (Hd o _ Ho). rewrite Eo. simpl. auto.
  - apply map_ext_in. intros a Hin. unfold atom_store. rewrite (Ha a (Hatoms a Hin)).
    destruct (get h1 a) eqn:Ea; auto. apply (Hd a _ (Hatoms a Hin)). rewrite Ea. simpl. auto.
  - destruct bl as [l|]; auto. destruct (items_local _ _ _ l Hc Ha) as [-> Hbonds]; [apply Hp; simpl; auto|].
    apply map_ext_in. intros b Hin. unfold bond_store. rewrite (Ha b (Hbonds b Hin)).
    destruct (get h1 b) eqn:Eb; auto. apply (Hd b _ (Hbonds b Hin)). rewrite Eb. simpl. auto.
Qed.

Lemma vlocal : forall h1 h2 (S : loc -> Prop) o,
  vclosed h1 S -> S o -> agree S h1 h2 -> obs h2 o = obs h1 o /\ stores h2 o = stores h1 o.
Proof.
  intros h1 h2 S o Hc Ho Ha.
  split; [exact (obs_local _ _ S o (vclosed_closed _ _ Hc) Ho Ha)|exact (stores_local _ _ S o Hc Ho Ha)].
Qed.

Fixpoint vhist_okb (h : heap) (a b : loc) (hist : list (side * list prim)) : bool :=
  match hist with
  | [] => true
  | (s, ps) :: r => vprims_okb (vreach h (pick s a b)) h ps && vhist_okb (apply_prims h ps) a b r
  end.

Definition vseparated (h : heap) (a b : loc) : Prop :=
  exists SA SB : loc -> Prop, vclosed h SA /\ vclosed h SB /\ (forall l, SA l -> ~ SB l) /\ SA a /\ SB b.

Lemma vseparated_separated : forall h a b, vseparated h a b -> separated h a b.
Proof.
  intros h a b [SA [SB [HA [HB [Hd [Ha Hb]]]]]]. exists SA, SB.
  split; [apply vclosed_closed; exact HA|]. split; [apply vclosed_closed; exact HB|]. auto.
Qed.

(* every mutation confined to what one object reaches -- in-place edits of its attribute values included -- leaves
   what an object with a disjoint deep-closed region shows unchanged, its attribute values included *)
Theorem vframe_rule : forall h a b ps,
  vseparated h a b -> vprims_okb (vreach h a) h ps = true ->
  obs (apply_prims h ps) b = obs h b /\ stores (apply_prims h ps) b = stores h b.
Proof.
  intros h a b ps Hs Hok.
  destruct (sep_step vptrs 5 h a b ps Hs Hok) as [_ [S [HS [Sb Hag]]]]. exact (vlocal _ _ S b HS Sb Hag).
Qed.

Theorem vhistory_frame : forall hist h a b,
  vseparated h a b -> vhist_okb h a b hist = true ->
  forall pre s ps post, hist = pre ++ (s, ps) :: post ->
    obs (apply_prims (run_hist h pre) ps) (pick (other_side s) a b) = obs (run_hist h pre) (pick (other_side s) a b)
    /\ stores (apply_prims (run_hist h pre) ps) (pick (other_side s) a b)
       = stores (run_hist h pre) (pick (other_side s) a b).
Proof.
  intros hist h a b Hsep Hok pre s ps post Heq.
  destruct (history_untouched vptrs 5 a b (fun h => vhist_okb h a b)) with (2 := Hsep) (3 := Hok) (4 := Heq)
    as [S [HS [Sb Hag]]]; [|exact (vlocal _ _ S _ HS Sb Hag)].
  intros h0 s0 ps0 r H. simpl in H. apply andb_true_iff. exact H.
Qed.

(* Deep independence: the copy and the source lie in disjoint regions closed under `vptrs`, attribute values included *)
Theorem copy_vseparated : forall r g d h o h' o',
  vheap_wf h -> vrow_indep r = true -> copy_row r g d h o = Some (h', o') -> vseparated h' o' o.
Proof.
  intros r g d h o h' o' Hwf Hv Hc. apply andb_true_iff in Hv. destruct Hv as [Hind Hvals].
  apply (copy_sep true _ _ _ _ _ _ _ Hwf Hind (fun _ => Hvals) Hc). exact (copy_row_lt _ _ _ _ _ _ Hc).
Qed.

Lemma store_copied : forall h h' src f fr,
  get h' f = dict_cell h Copied VFresh src fr ->
  get h' fr = store_cell h Copied VFresh src ->
  store_of h' f = store_of h src.
Proof.
  intros h h' src f fr Hd Hs. unfold store_of, vals_of. rewrite Hd. unfold dict_cell.
  unfold store_cell, val_cell, vals_of in Hs.
  destruct (get h src) as [|kv v| | | | | |] eqn:E; simpl; auto.
  destruct v as [l|]; simpl; auto. rewrite Hs. destruct (get h l); auto.
Qed.

Theorem copy_vfaithful : forall r g d h o h' o',
  copy_row r g d h o = Some (h', o') ->
  exists sb sb', stores h o = Some sb /\ stores h' o' = Some sb'
  /\ (r_attrib r = Copied -> r_vals r = VFresh -> s_obj sb' = s_obj sb)
  /\ (atoms_ok r = true -> r_avals r = VFresh -> s_atoms sb' = s_atoms sb)
  /\ (atoms_ok r = true -> bonds_ok r = true -> b_vals (brow_of r) = VFresh -> s_bonds sb' = s_bonds sb).
Proof.
  intros r g d h o h' o' Hc.
  destruct (copy_row_inv _ _ _ _ _ _ _ Hc) as [F [Hget [-> [Hends Hh']]]].
  destruct (news_cells _ _ _ _ _ _ Hh') as [Groot [G0 [GV0 [GA GB]]]].
  unfold stores. rewrite Hget, Groot. unfold p_root.
  eexists. eexists. split; [reflexivity|]. split; [reflexivity|]. simpl.
  split; [|split].
  { intros Hr Hv. rewrite Hr. simpl.
    apply (store_copied h h' (p_at F) (length h + 6) (p_vb h F)).
    - rewrite (G0 6 ltac:(lia)). simpl. rewrite Hr, Hv. reflexivity.
    - rewrite GV0. rewrite Hr, Hv. reflexivity. }
  { intros Hok Hv. destruct (atoms_ok_inv r Hok) as [Hal [Hat [Haa Hap]]].
    unfold alist_loc_of. rewrite Hal, (new_alist _ _ _ _ _ _ Hh' Hal Hat). fold (p_atoms h F).
    apply map_mapi. intros j a Hn. simpl.
    destruct (GA j) as [E1 [E2 E3]]; [apply nth_error_Some; unfold p_n; congruence|].
    apply get_new_mapi with (2 := Hn) in E1, E2, E3. rewrite Hat in E1, E2, E3.
    unfold atom_store. rewrite E1. destruct (get h a) as [| | |p dd par| | | |]; auto.
    rewrite Haa, Hv in *. simpl. exact (store_copied h h' dd _ _ E2 E3). }
  { intros Hok Hbok Hv. destruct (bonds_ok_inv r Hbok) as [br [Hbr [Hbrow [Hbl [Hbo [Hba _]]]]]].
    unfold blist_loc_of. rewrite Hbr, Hbl.
    assert (Hgoal : map (bond_store h') (items_of h' (length h + 2)) = map (bond_store h) (p_bonds h F)).
    { rewrite (new_blist _ _ _ _ _ _ _ Hh' Hbr Hbl Hbo). apply map_mapi. intros j b Hn. simpl.
      destruct (GB j) as [E1 [E2 E3]]; [apply nth_error_Some; unfold p_m; congruence|].
      apply get_new_mapi with (2 := Hn) in E1, E2, E3. rewrite Hbrow, Hbo in E1, E2, E3.
      unfold bond_store. rewrite E1. destruct (get h b) as [| | | |a1 a2 p dd par| | |]; auto.
      rewrite Hbrow in Hv. rewrite Hba, Hv in *. simpl. exact (store_copied h h' dd _ _ E2 E3). }
    unfold p_bonds in Hgoal. destruct (p_bl F) as [l|]; simpl; exact Hgoal. }
Qed.

Definition vfaithful_on (nd : need) (sb sb' : storesr) : Prop :=
  s_atoms sb' = s_atoms sb
  /\ (n_bonds nd = true -> s_bonds sb' = s_bonds sb)
  /\ (n_attrib nd = true -> s_obj sb' = s_obj sb).

Lemma app_stores_old : forall h x o, vheap_wf h -> o < length h -> stores (h ++ x) o = stores h o.
Proof.
  intros h x o Hwf Ho. symmetry. apply (stores_local (h ++ x) h _ o (app_old_closed vptrs h x Hwf) Ho).
  intros l Hl. symmetry. apply get_app_old. exact Hl.
Qed.

Theorem copy_row_vsound : forall nd r g d h o h' o',
  vheap_wf h -> row_ok nd r = true -> vals_ok true r = true -> copy_row r g d h o = Some (h', o') ->
  vseparated h' o' o
  /\ (forall l, In l (vreach h' o') -> ~ In l (vreach h' o))
  /\ exists sb sb', stores h o = Some sb /\ stores h' o = Some sb /\ stores h' o' = Some sb' /\ vfaithful_on nd sb sb'.
Proof.
  intros nd r g d h o h' o' Hwf Hok Hvals Hc. destruct (row_ok_inv _ _ Hok) as [Hind Hf].
  assert (Hv : vrow_indep r = true) by (apply andb_true_iff; split; assumption).
  pose proof (copy_vseparated _ _ _ _ _ _ _ Hwf Hv Hc) as Hsep. split; [exact Hsep|].
  split; [exact (sep_reach_disjoint vptrs 5 5 h' o' o Hsep)|].
  destruct (copy_vfaithful _ _ _ _ _ _ _ Hc) as [sb [sb' [Hs [Hs' [Hobj [Hat Hbo]]]]]].
  exists sb, sb'. split; [exact Hs|]. split.
  { rewrite <- Hs. destruct (copy_row_inv _ _ _ _ _ _ _ Hc) as [F [_ [_ [_ ->]]]].
    apply app_stores_old; [exact Hwf|exact (copy_row_lt _ _ _ _ _ _ Hc)]. }
  split; [exact Hs'|].
  destruct (vals_ok_deep r Hvals) as [Hvo [Hva Hvb]].
  destruct (row_faithful_inv _ _ Hf) as [F0 [F1 [_ [_ [_ [_ F6]]]]]].
  split; [apply Hat; auto|]. split.
  - intros Hn. destruct (bonds_ok_inv r (F1 Hn)) as [br [Hbr [Hbrow _]]].
    apply Hbo; auto. rewrite Hbrow. exact (Hvb br Hbr).
  - intros Hn. apply Hobj; auto.
Qed.

(* no route whatsoever hands out values with another content than the source's *)
Theorem table_no_route_changes_values : forall known t, table_ok known t = true ->
  forall k r x, lookup_row t k r = Some x -> vals_ok false x = true.
Proof.
  intros known t Ht k r x Hl. pose proof (proj2 (table_row_ok known t Ht k r x Hl)) as H.
  destruct (deep_route r); auto.
  unfold vals_ok in *. repeat (apply andb_true_iff in H; destruct H as [H ?]).
  assert (W : forall s, vst_ok true s = true -> vst_ok false s = true) by (destruct s; simpl; auto).
  rewrite !andb_true_iff. repeat split; auto. destruct (r_bonds x); auto.
Qed.

(* an in-place edit of an attribute value writes the store of the dictionary that holds it, which the object reaches *)
Theorem compile_vedit_ok : forall h o e ps, compile_vedit h o e = Some ps -> vprims_okb (vreach h o) h ps = true.
Proof.
  intros h o [w c] ps H. unfold compile_vedit in H.
  destruct (dict_at h o w) as [d|] eqn:Ed; [|discriminate].
  destruct (vals_of h d) as [l|] eqn:Ev; [|discriminate].
  destruct (get h l) eqn:El; try discriminate. inversion H; subst ps.
  apply (write_same_ptrs vptrs 4 h o l); [|rewrite El; reflexivity].
  apply (greachN_step vptrs 3 h o d); [apply greachN_ptrs_sub_vptrs; eapply dict_at_reach; eauto|].
  unfold vals_of in Ev. destruct (get h d); try discriminate. simpl. subst. simpl. auto.
Qed.

(* A copy whose attrib dictionary is a copy but whose values are the source's objects (VShared): the in-place edit of
   an attribute value made through the COPY is what the SOURCE shows afterwards -- for every heap, source and edit. *)
Theorem one_level_copy_leaks : forall r g d h o h' o' cls sc al bl co ch we at_ kv l c0 c,
  vheap_wf h -> o < length h ->
  r_attrib r = Copied -> r_vals r = VShared ->
  copy_row r g d h o = Some (h', o') ->
  get h o = CMol cls sc al bl co ch we at_ -> get h at_ = CDict kv (Some l) -> get h l = CVal c0 ->
  exists ps, compile_vedit h' o' (VEdit WObj c) = Some ps
    /\ option_map s_obj (stores h' o) = Some (Some c0)
    /\ option_map s_obj (stores (apply_prims h' ps) o) = Some (Some c).
Proof.
  intros r g d h o h' o' cls sc al bl co ch we at_ kv l c0 c Hwf Ho Hr Hv Hc Hget Hat Hl.
  destruct (copy_row_inv _ _ _ _ _ _ _ Hc) as [F [Hget' [-> [_ Hh']]]].
  rewrite Hget in Hget'. inversion Hget'. subst cls sc al bl co ch we at_.
  destruct (news_cells _ _ _ _ _ _ Hh') as [Groot [G0 _]].
  assert (Hat_lt : p_at F < length h) by (apply (Hwf o Ho); rewrite Hget; simpl; auto).
  assert (Hl_lt : l < length h) by (apply (Hwf (p_at F) Hat_lt); rewrite Hat; simpl; auto).
  assert (Hold : forall x, x < length h -> get h' x = get h x).
  { intros x Hx. rewrite Hh'. apply get_app_old. exact Hx. }
  assert (Gd : get h' (length h + 6) = CDict kv (Some l)).
  { rewrite (G0 6 ltac:(lia)). simpl. rewrite Hr, Hv. unfold dict_cell. rewrite Hat. reflexivity. }
  exists [PWrite l (CVal c)]. split; [|split].
  - unfold compile_vedit, dict_at. rewrite Groot. unfold p_root. rewrite Hr. simpl.
    unfold vals_of. rewrite Gd. rewrite (Hold l Hl_lt), Hl. reflexivity.
  - unfold stores. rewrite (Hold o Ho), Hget. simpl.
    unfold store_of, vals_of. rewrite (Hold _ Hat_lt), Hat. rewrite (Hold l Hl_lt), Hl. reflexivity.
  - simpl.
    assert (Hlen : l < length h') by (rewrite Hh', app_length; lia).
    assert (Nol : o <> l) by (intros ->; rewrite Hget in Hl; discriminate).
    assert (Natl : p_at F <> l) by (intros E; rewrite E in Hat; rewrite Hat in Hl; discriminate).
    unfold stores. rewrite get_upd_other by auto. rewrite (Hold o Ho), Hget. simpl.
    unfold store_of, vals_of. rewrite get_upd_other by auto. rewrite (Hold _ Hat_lt), Hat.
    rewrite get_upd_same by exact Hlen. reflexivity.
Qed.
