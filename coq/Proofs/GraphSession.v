(* C15: sessions (Model/GraphSession.v) -- what an accepted session certifies, and what the edits do to the graph. *)
From Coq Require Import Arith List Bool NArith QArith Lia.
From Molli Require Import Model.Graph Model.Match Model.GraphSession.
From Molli Require Import Proofs.Graph Proofs.GraphAdj Proofs.Match.
From Molli Require Import Common.ListFacts.
Import ListNotations.
Open Scope nat_scope.

Theorem run_steps_spec : forall steps w,
  run_steps w steps = true <->
  (forall pre x post, steps = pre ++ x :: post -> check_step (world_after w pre) x = true).
Proof.
  induction steps as [|y r IH]; intros w; cbn [run_steps].
  - split; [intros _ pre x post E; destruct pre; discriminate|reflexivity].
  - rewrite andb_true_iff, IH. split.
    + intros [H1 H2] pre x post E. destruct pre as [|p pre]; cbn [app] in E; inversion E; subst.
      * exact H1.
      * unfold world_after. cbn [fold_left]. now apply (H2 pre x post).
    + intros H. split; [exact (H [] y r eq_refl)|].
      intros pre x post E. apply (H (y :: pre) x post). cbn [app]. now rewrite E.
Qed.

Lemma eqb_list_spec {A} (e : A -> A -> bool) : (forall x y, e x y = true <-> x = y) ->
  forall l1 l2, eqb_list e l1 l2 = true <-> l1 = l2.
Proof.
  intros He. induction l1 as [|x r IH]; destruct l2 as [|y r2]; cbn [eqb_list]; try easy.
  rewrite andb_true_iff, He, IH. split; [intros [-> ->]; reflexivity|intros [= -> ->]; auto].
Qed.

Lemma eqb_pair_spec p q : eqb_pair p q = true <-> p = q.
Proof.
  destruct p as [a b], q as [c d]. unfold eqb_pair. cbn [fst snd]. rewrite andb_true_iff, !Nat.eqb_eq.
  split; [intros [-> ->]; reflexivity|intros [= -> ->]; auto].
Qed.

Lemma eqb_bres_true {A} (e : A -> A -> bool) : (forall x y, e x y = true <-> x = y) ->
  forall r1 r2, eqb_bres e r1 r2 = true -> r1 = r2.
Proof.
  intros He [l1| |] [l2| |]; cbn [eqb_bres]; try easy. intros H. f_equal. now apply (eqb_list_spec e He).
Qed.

Lemma eqb_optbool_true a b : eqb_optbool a b = true -> a = b.
Proof.
  destruct a as [x|], b as [y|]; cbn [eqb_optbool]; try easy. intros H. apply Bool.eqb_prop in H. now subst.
Qed.

(* what one accepted observation says *)
Definition query_holds (g : graph) (types : list (N * Q)) (q : query) : Prop :=
  match q with
  | QBfsd s dir obs => yield_bfsd g s dir = obs
  | QBfs s dir obs => yield_bfs g s dir = obs
  | QRing bi obs => exists b, nth_error g bi = Some b /\ is_bond_in_ring g b = obs
  | QBonds a obs => bonds_with_atom g a = obs
  | QConn a obs => connected_atoms g a = obs
  | QNb a obs => n_bonds_with_atom g a = obs
  | QVal a obs => (bonded_valence g (ord_of types) a == obs)%Q
  end.

Theorem check_query_sound g types q : check_query g types q = true -> query_holds g types q.
Proof.
  destruct q; cbn [check_query query_holds]; intros H.
  - now apply (eqb_bres_true eqb_pair eqb_pair_spec).
  - now apply (eqb_bres_true Nat.eqb Nat.eqb_eq).
  - destruct (nth_error g bi) as [b|]; [|discriminate]. exists b. split; [reflexivity|now apply eqb_optbool_true].
  - now apply (eqb_list_spec Nat.eqb Nat.eqb_eq).
  - now apply (eqb_list_spec Nat.eqb Nat.eqb_eq).
  - now apply Nat.eqb_eq.
  - now apply Qeq_bool_iff.
Qed.

Lemma existsb_eqb_list x l : existsb (eqb_list Nat.eqb x) l = true <-> In x l.
Proof. exact (existsb_eqb_In _ (eqb_list_spec Nat.eqb Nat.eqb_eq) x l). Qed.

Lemma incl_b_spec l1 l2 : incl_b l1 l2 = true <-> incl l1 l2.
Proof.
  induction l1 as [|x r IH]; cbn [incl_b].
  - split; [intros _ y []|reflexivity].
  - rewrite andb_true_iff, existsb_eqb_list, IH. split.
    + intros [H1 H2] y [<-|Hy]; [exact H1|now apply H2].
    + intros H. split; [apply H; now left|intros y Hy; apply H; now right].
Qed.

Lemma nodup_b_spec l : nodup_b l = true <-> NoDup l.
Proof.
  induction l as [|x r IH]; cbn [nodup_b].
  - split; [constructor|reflexivity].
  - rewrite andb_true_iff, negb_true_iff, IH, <- not_true_iff_false, existsb_eqb_list. split.
    + intros [H1 H2]. now constructor.
    + intros H. inversion H; subst. now split.
Qed.

(* an accepted matching observation lists exactly the induced embeddings, none twice *)
Theorem check_mcase_spec c : check_mcase c = true ->
  NoDup (mc_obs c) /\ forall f, In f (mc_obs c) <-> embedding (mc_host c) (mc_pat c) f.
Proof.
  unfold check_mcase. rewrite !andb_true_iff. intros [[[Hn _] H1] H2].
  apply nodup_b_spec in Hn. apply incl_b_spec in H1. apply incl_b_spec in H2.
  split; [exact Hn|]. intros f. rewrite <- enum_sound_complete. split; [apply H2|apply H1].
Qed.

(* Every answer recorded anywhere in the session is the model's answer on the state produced by the edits made
   BEFORE it -- whatever was asked earlier, and however often. *)
Definition step_holds (w : sworld) (x : sstep) : Prop :=
  match x with
  | SHost _ | SPat _ _ => True
  | SQuery qs => forall q, In q qs -> query_holds (ss_graph (fst w)) (ss_types (fst w)) q
  | SMatch k obs => NoDup obs /\ forall f, In f obs <-> embedding (ss_mgraph (fst w)) (ss_mgraph (pat_at w k)) f
  end.

Theorem session_sound c : check_scase c = true ->
  forall pre x post, sc_steps c = pre ++ x :: post ->
  step_holds (world_after (sc_host c, sc_pats c) pre) x.
Proof.
  unfold check_scase. intros H pre x post E.
  pose proof (proj1 (run_steps_spec _ _) H pre x post E) as Hx.
  destruct x; cbn [step_holds check_step] in *; [exact I|exact I| |].
  - rewrite forallb_forall in Hx. intros q Hq. apply check_query_sound. now apply Hx.
  - apply check_mcase_spec in Hx. exact Hx.
Qed.

(* queries do not change the world: asking is free *)
Lemma world_after_queries w steps :
  (forall x, In x steps -> match x with SQuery _ | SMatch _ _ => True | _ => False end) -> world_after w steps = w.
Proof.
  revert w. induction steps as [|x r IH]; intros w H; [reflexivity|].
  unfold world_after. cbn [fold_left]. assert (Hx := H x (or_introl eq_refl)).
  destruct x; try contradiction; cbn [step_world]; apply IH; intros y Hy; apply H; now right.
Qed.

(* an accepted query is the model's answer on the graph the host holds at that point of the history *)
Lemma now_holds c pre qs post q : check_scase c = true -> sc_steps c = pre ++ SQuery qs :: post -> In q qs ->
  let w := world_after (sc_host c, sc_pats c) pre in query_holds (ss_graph (fst w)) (ss_types (fst w)) q.
Proof. intros Hc E Hq. exact (session_sound c Hc pre (SQuery qs) post E q Hq). Qed.

Lemma map_upd_nth {A B} (h : A -> B) (f : A -> A) : (forall x, h (f x) = h x) ->
  forall i l, map h (upd_nth i f l) = map h l.
Proof.
  intros Hf i l. revert i. induction l as [|x r IH]; intros [|i]; cbn [upd_nth map]; try reflexivity.
  - now rewrite Hf.
  - now rewrite IH.
Qed.

Lemma map_remove_nth {A B} (h : A -> B) : forall i l, map h (remove_nth i l) = remove_nth i (map h l).
Proof. intros i l. revert i. induction l as [|x r IH]; intros [|i]; cbn [remove_nth map]; try reflexivity. now rewrite IH. Qed.

Lemma length_upd_nth {A} (f : A -> A) : forall i l, length (upd_nth i f l) = length l.
Proof. intros i l. revert i. induction l as [|x r IH]; intros [|i]; cbn [upd_nth length]; try reflexivity. now rewrite IH. Qed.

Lemma adj_app g b x y : adj (g ++ [b]) x y <-> adj g x y \/ joins b x y = true.
Proof.
  unfold adj. rewrite !in_app_iff, joins_true. cbn [In]. destruct b as [p q]. cbn [fst snd]. split.
  - intros [[H|[H|[]]]|[H|[H|[]]]]; try tauto; injection H as <- <-; tauto.
  - intros [[H|H]|[[<- <-]|[<- <-]]]; tauto.
Qed.

Lemma filter_none_all {A} (p : A -> bool) l : length (filter p l) = 0 -> filter (fun x => negb (p x)) l = l.
Proof.
  induction l as [|x r IH]; [reflexivity|]. cbn [filter]. destruct (p x); cbn [negb length]; [discriminate|].
  intros H. now rewrite IH.
Qed.

(* in a simple graph deleting bond number i is `remove_bond` of its end points -- the graph the ring clause speaks of *)
Lemma remove_nth_remove_bond : forall g i a b, simple g -> nth_error g i = Some (a, b) ->
  remove_nth i g = remove_bond g a b.
Proof.
  induction g as [|c r IH]; intros [|i] a b Hs Hn; cbn [nth_error] in Hn; try discriminate;
    pose proof (proj2 Hs a b) as Hcnt; rewrite count_joins_cons in Hcnt; unfold remove_bond; cbn [remove_nth filter].
  - injection Hn as ->. rewrite (proj2 (joins_true (a, b) a b)) in * by (cbn; tauto). cbn [negb].
    symmetry. apply filter_none_all. unfold count_joins in Hcnt. lia.
  - pose proof (adj_count_joins r a b (or_introl (nth_error_In _ _ Hn))) as Hr.
    destruct (joins c a b); [lia|]. cbn [negb]. f_equal. apply (IH i a b (simple_tail _ _ Hs) Hn).
Qed.

(* 4-chlorobutan-1-ol skeleton Cl0-C1-C2-C3-C4-O5.  Halogen exchange in place, and moving the hydroxyl from C4 to C2
   (del_bond then connect), keep both counts -- and change what matching and BFS must answer: (number of atoms, number of bonds) is no
   stamp for a cached graph. *)
Definition ex_c : matom := mk_matom 6 None 0 1.
Definition ex_sb (a b : nat) : mbond * Q := (mk_mbond a b 1 0 None, 1%Q).
Definition ex_host : sstate :=
  mk_sstate [mk_matom 17 None 0 1; ex_c; ex_c; ex_c; ex_c; mk_matom 8 None 0 1]
            [ex_sb 0 1; ex_sb 1 2; ex_sb 2 3; ex_sb 3 4; ex_sb 4 5].
Definition ex_ccl : sstate := mk_sstate [ex_c; mk_matom 17 None 0 1] [ex_sb 0 1].
Definition ex_halex : sedit := ESetAtom 0 (mk_matom 35 None 0 1).
Definition ex_move (s : sstate) : sstate := apply_edit (EConnect (mk_mbond 2 5 1 0 None) 1%Q) (apply_edit (EDelBond 4) s).

(* a session that is accepted: ask, exchange the halogen, ask again, move the hydroxyl, ask again, edit the pattern, ask *)
Definition ex_session : scase :=
  mk_scase ex_host [ex_ccl]
    [SMatch 0 [[1; 0]]; SQuery [QBfsd 5 None (BOk [(4,1); (3,2); (2,3); (1,4); (0,5)]); QRing 4 (Some false)];
     SHost ex_halex; SMatch 0 [];
     SHost (EDelBond 4); SHost (EConnect (mk_mbond 2 5 1 0 None) 1%Q);
     SQuery [QBfsd 5 None (BOk [(2,1); (1,2); (3,2); (0,3); (4,3)]); QConn 4 [3]; QVal 2 3%Q];
     SPat 0 (ESetAtom 1 (mk_matom 8 None 0 1)); SMatch 0 [[2; 5]];
     SHost (ESetBond 4 2 0 None 1%Q); SQuery [QVal 2 4%Q]; SMatch 0 [[2; 5]]].
Example ex_session_accepted : check_scase ex_session = true.
Proof. vm_compute. reflexivity. Qed.
(* ... and the stale answers are rejected *)
Example ex_session_stale_rejected :
  check_scase (mk_scase ex_host [ex_ccl] [SMatch 0 [[1; 0]]; SHost ex_halex; SMatch 0 [[1; 0]]]) = false /\
  check_scase (mk_scase ex_host [ex_ccl] [SQuery [QConn 4 [3; 5]]; SHost (EDelBond 4); SQuery [QConn 4 [3; 5]]]) = false.
Proof. split; vm_compute; reflexivity. Qed.
