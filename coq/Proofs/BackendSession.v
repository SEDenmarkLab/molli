(* The session context managers ARE the model: the translated entry / exit parts of CollectionBackendBase.reading() and
   writing() (Gen/BackendCode.v: split at their `yield self`) compute Model/Backend.v's b_begin_r / b_end_r / b_begin_w /
   b_end_w for every state, set _state as the model says, and hold / release the lock: after the exit part the lock is
   released on EVERY path -- also when the final flush of a writing session raises. *)
From Coq Require Import NArith List Bool String Lia.
Import ListNotations.
From Molli Require Import Model.UKV Model.MiniPy Model.Backend Model.MiniPyB Gen.UKVCode Gen.BackendCode
  Proofs.UKVCode Proofs.MiniPyFrame Proofs.BackendCode Proofs.BackendBuffer Proofs.BackendMode.
Open Scope string_scope.
Open Scope N_scope.

(* syntactic: c contains no lock operation *)
Fixpoint no_lock (c : bstmt) : bool :=
  match c with
  | BAcquire _ | BRelease _ | BAcquireOdd _ _ => false
  | BSeq a b | BIf _ a b | BTryReraise a b | BTryFinally a b => no_lock a && no_lock b
  | BCall a | BCallRet a | BWhilePop _ _ a => no_lock a
  | _ => true
  end.

Lemma bwloop_frame {A} (g : bstate -> A) eb kx vx (Hb : forall s, g (fst (eb s)) = g s)
  (Hset : forall s x v, g (set_bloc s x v) = g s)
  (Hq : forall s q, g (mkbs (inner s) (has_inner s) q (bks s) (bused s) (bbuf s) (bro s) (bsess s) (bheld s) (bloc s)) = g s) :
  forall n s, g (fst (bwloop eb kx vx n s)) = g s.
Proof.
  induction n as [|n IH]; intros s; cbn [bwloop]; [reflexivity|].
  destruct (bq s) as [|[k v] q']; [reflexivity|].
  set (s1 := set_bloc (set_bloc _ kx k) vx v).
  assert (E1 : g s1 = g s) by (unfold s1; rewrite !Hset; apply Hq).
  pose proof (Hb s1) as B. destruct (eb s1) as [s2 o]. cbn [fst] in B.
  destruct o; cbn [fst]; try (rewrite B; exact E1). rewrite IH, B. exact E1.
Qed.

(* One induction for every fact "running c leaves g alone", for a g that does not look at the buffer (queue, key listing,
   accounting, session state): [ok] says which statements may occur.  Statements that only put two others in sequence,
   and those that only touch the buffer, are dealt with here; what is left to show for a particular g is how calls, the
   loop, the calls on the inner object and the lock operations behave, given the fact for the statement they run. *)
Section Frame.
  Context {A : Type} (g : bstate -> A) (fuel : nat) (ok : bstmt -> bool).
  Definition keeps (c : bstmt) : Prop := forall s, g (fst (bexec fuel c s)) = g s.
  Definition child (c : bstmt) : option bstmt :=
    match c with BCall a | BCallRet a | BWhilePop _ _ a => Some a | _ => None end.
  Hypothesis g_buf : forall s q ks u x, g (mkbs (inner s) (has_inner s) q ks u (bbuf s) (bro s) x (bheld s) (bloc s)) = g s.
  Hypothesis ok_seq : forall a b, ok (BSeq a b) = true -> ok a && ok b = true.
  Hypothesis ok_if : forall e a b, ok (BIf e a b) = true -> ok a && ok b = true.
  Hypothesis ok_tryre : forall a b, ok (BTryReraise a b) = true -> ok a && ok b = true.
  Hypothesis ok_tryfin : forall a b, ok (BTryFinally a b) = true -> ok a && ok b = true.
  Hypothesis other : forall c, ok c = true -> (forall a, child c = Some a -> ok a = true -> keeps a) ->
    match c with
    | BCall _ | BCallRet _ | BWhilePop _ _ _ | BUkvCall _ _ | BUkvCallRet _ _ | BUkvNew _ _
    | BAcquire _ | BRelease _ | BAcquireOdd _ _ => keeps c
    | _ => True
    end.

  Lemma bexec_frame : forall c, ok c = true -> keeps c.
  Proof.
    induction c; intros H;
      try (apply (other _ H); intros a0 E; inversion E; subst; assumption);
      try solve [intros s0; cbn [bexec]; try destruct (negb (has_inner s0)); try destruct (beval_bytes s0 k);
                 try destruct (beval_bytes s0 v); try destruct (eval (inner s0) e) as [[]|]; try reflexivity; apply g_buf];
      [apply ok_seq in H|apply ok_if in H|apply ok_tryre in H|apply ok_tryfin in H];
      apply andb_true_iff in H; destruct H as [H1 H2]; intros s0; cbn [bexec];
      pose proof (IHc1 H1 s0) as E1.
    - destruct (bexec fuel c1 s0) as [s1 o]. destruct o; try exact E1. rewrite (IHc2 H2 s1). exact E1.
    - destruct (beval_bool s0 _) as [[]|]; [exact E1|apply (IHc2 H2)|reflexivity].
    - destruct (bexec fuel c1 s0) as [s1 o]. destruct o; try exact E1.
      pose proof (IHc2 H2 s1) as E2. destruct (bexec fuel c2 s1) as [s2 o2]. cbn [fst] in *. destruct o2; cbn [fst]; rewrite E2; exact E1.
    - destruct (bexec fuel c1 s0) as [s1 o]. pose proof (IHc2 H2 s1) as E2. destruct (bexec fuel c2 s1) as [s2 o2].
      cbn [fst] in *. rewrite E2. exact E1.
  Qed.
End Frame.


(* a call on the inner object (a method of the UKVFile, or its constructor) changes neither the lock nor the caller's locals *)
Lemma inner_call_outer fuel c s :
  match c with
  | BUkvCall _ _ | BUkvCallRet _ _ | BUkvNew _ _ => let s' := fst (bexec fuel c s) in bheld s' = bheld s /\ bloc s' = bloc s
  | _ => True
  end.
Proof.
  destruct c; try exact I; cbn [bexec]; try (destruct (negb (has_inner s)); [split; reflexivity|]);
    (destruct (bind_inner s _ args) as [st1|]; [|split; reflexivity]); destruct (exec fuel p st1) as [st' o];
    destruct o; split; reflexivity.
Qed.

Lemma bexec_held fuel : forall c s, no_lock c = true -> bheld (fst (bexec fuel c s)) = bheld s.
Proof.
  intros c s H. revert s. apply (bexec_frame bheld fuel no_lock); auto.
  clear. intros c H IH. destruct c; try exact I; try discriminate; intros s0;
    try (match goal with |- context [bexec fuel ?c s0] => exact (proj1 (inner_call_outer fuel c s0)) end); cbn [bexec].
  - (* BCall *) pose proof (IH c eq_refl H s0) as E. destruct (bexec fuel c s0) as [s1 o]. exact E.
  - (* BCallRet *) pose proof (IH c eq_refl H s0) as E. destruct (bexec fuel c s0) as [s1 o]. exact E.
  - (* BWhilePop *) apply (bwloop_frame bheld); [exact (IH c eq_refl H)|reflexivity|reflexivity].
Qed.

(* syntactic: some UKVFile method embedded in c assigns attribute x, or c constructs a new UKVFile *)
Fixpoint bsets_attr (x : string) (c : bstmt) : bool :=
  match c with
  | BSeq a b | BIf _ a b | BTryReraise a b | BTryFinally a b => bsets_attr x a || bsets_attr x b
  | BCall a | BCallRet a | BWhilePop _ _ a => bsets_attr x a
  | BUkvCall p _ | BUkvCallRet p _ => sets_attr x p
  | BUkvNew _ _ => true
  | _ => false
  end.

Lemma bind_inner_attrs s : forall args st0 st1, bind_inner s st0 args = Some st1 -> attrs st1 = attrs st0.
Proof.
  induction args as [|[p e] args IH]; intros st0 st1 H; cbn [bind_inner] in H; [inversion H; reflexivity|].
  destruct (beval_val s e); [|discriminate]. apply IH in H. exact H.
Qed.

Lemma bexec_inner_attr x fuel : forall c s, bsets_attr x c = false ->
  lookup_env (attrs (inner (fst (bexec fuel c s)))) x = lookup_env (attrs (inner s)) x.
Proof.
  intros c s H. revert s.
  apply (bexec_frame (fun s => lookup_env (attrs (inner s)) x) fuel (fun c => negb (bsets_attr x c)));
    [reflexivity| | | | | |rewrite H; reflexivity];
    try (intros; cbn [bsets_attr] in *; rewrite <- negb_orb; assumption).
  clear. intros c H IH. apply negb_true_iff in H. destruct c; try exact I; try discriminate; intros s0; cbn [bexec].
  (* calls on the inner object: the frame theorem of the embedded program *)
  all: try solve [destruct (negb (has_inner s0)); [reflexivity|]; destruct (bind_inner s0 (inner s0) args) as [s1|] eqn:B; [|reflexivity];
                  pose proof (exec_attr_frame x fuel p s1 H) as E; destruct (exec fuel p s1) as [st' o]; cbn [fst with_inner inner] in *;
                  rewrite E, (bind_inner_attrs _ _ _ _ B); reflexivity].
  - pose proof (IH c eq_refl (proj2 (negb_true_iff _) H) s0) as E. destruct (bexec fuel c s0) as [s1 o]. exact E.
  - pose proof (IH c eq_refl (proj2 (negb_true_iff _) H) s0) as E. destruct (bexec fuel c s0) as [s1 o]. exact E.
  - apply (bwloop_frame (fun s => lookup_env (attrs (inner s)) x)); [exact (IH c eq_refl (proj2 (negb_true_iff _) H))|reflexivity|reflexivity].
  - destruct (bheld s0); reflexivity.
  - destruct (bheld s0) as [w'|]; [|reflexivity]. destruct (Bool.eqb w w'); reflexivity.
  - reflexivity.
Qed.

Definition set_held (s : bstate) (l : option bool) : bstate :=
  mkbs (inner s) (has_inner s) (bq s) (bks s) (bused s) (bbuf s) (bro s) (bsess s) l (bloc s).
Definition set_sess (s : bstate) (x : sess) : bstate :=
  mkbs (inner s) (has_inner s) (bq s) (bks s) (bused s) (bbuf s) (bro s) x (bheld s) (bloc s).
Definition set_st (b : backend) (x : sess) : backend := mkb (uk b) (has_uk b) (queue b) (bkeys b) (used b) (bufsize b) (ro b) x.
Definition set_keys (b : backend) (ks : list bytes) : backend := mkb (uk b) (has_uk b) (queue b) ks (used b) (bufsize b) (ro b) (st b).

Lemma brep_held s f b l : BRep s f b -> BRep (set_held s l) f b.
Proof. intros [A1 A2 A3 A4 A5 A6 A7 A8 A9]. constructor; assumption. Qed.
Lemma brep_sess s f b x : BRep s f b -> BRep (set_sess s x) f (set_st b x).
Proof. intros [A1 A2 A3 A4 A5 A6 A7 A8 A9]. constructor; try assumption. reflexivity. Qed.

Lemma bexec_tryre fuel a h s : bexec fuel (BTryReraise a h) s =
  (let '(s1, o) := bexec fuel a s in
   match o with
   | BORaise e => let '(s2, o2) := bexec fuel h s1 in match o2 with BONormal => (s2, BORaise e) | _ => (s2, o2) end
   | _ => (s1, o) end).
Proof. reflexivity. Qed.
Lemma bexec_tryfin fuel a h s : bexec fuel (BTryFinally a h) s =
  (let '(s1, o) := bexec fuel a s in let '(s2, o2) := bexec fuel h s1 in (s2, match o2 with BONormal => o | _ => o2 end)).
Proof. reflexivity. Qed.

Lemma bexec_acquire fuel w s : bheld s = None -> bexec fuel (BAcquire w) s = (set_held s (Some w), BONormal).
Proof. intros H. cbn [bexec]. rewrite H. reflexivity. Qed.
Lemma bexec_release fuel w s : bheld s = Some w -> bexec fuel (BRelease w) s = (set_held s None, BONormal).
Proof. intros H. cbn [bexec]. rewrite H. rewrite Bool.eqb_reflx. reflexivity. Qed.

(* update_keys(): the listing becomes the keys of the file as the handle knows it *)
Lemma update_keys_code fuel s f b :
  BRep s f b -> has_uk b = true ->
  bexec fuel (BCall update_keys_prog) s = (mkbs (inner s) (has_inner s) (bq s) (keys (uk b)) (bused s) (bbuf s) (bro s) (bsess s) (bheld s) (bloc s), BONormal).
Proof.
  intros R Hh. rewrite bexec_call. unfold update_keys_prog. cbn [bexec]. rewrite (br_has _ _ _ R), Hh. cbn [negb].
  rewrite (keys_code (inner s) (uk b) (br_uk _ _ _ R Hh)). cbn [restore_loc inner has_inner bq bks bused bbuf bro bsess bheld bloc].
  reflexivity.
Qed.

Lemma brep_keys s f b : BRep s f b ->
  BRep (mkbs (inner s) (has_inner s) (bq s) (keys (uk b)) (bused s) (bbuf s) (bro s) (bsess s) (bheld s) (bloc s)) f (set_keys b (keys (uk b))).
Proof. intros [A1 A2 A3 A4 A5 A6 A7 A8 A9]. constructor; try assumption. reflexivity. Qed.

(* the common shape of both entry parts after the lock is taken *)
Lemma enter_body_code fuel (m : mode) begin_prog (x : sess) fin s f b :
  begin_prog = begin_shape m ->
  (List.length f < fuel)%nat -> BRep s f b ->
  headed f -> (has_uk b = false -> uk b = h0) -> last_in (uk b) ->
  let '(s', o) := bexec fuel (BSeq (BSeq (BCall begin_prog) (BSetState x)) (BTryReraise (BCall update_keys_prog) fin)) s in
  let '(f', h') := open_ f (uk b) m in
  o = BONormal /\ BRep s' f' (mkb h' true (queue b) (keys h') (used b) (bufsize b) (ro b) x) /\ bheld s' = bheld s /\
  ((has_inner s = true -> has_mode s) -> has_mode s').
Proof.
  intros Eb Hfuel R Hh Hh0 Hin.
  pose proof (begin_mode fuel m begin_prog s Eb) as BM.
  pose proof (begin_code fuel m begin_prog s f b Eb Hfuel R Hh Hh0 Hin) as B.
  assert (NL : no_lock begin_prog = true) by (subst begin_prog; reflexivity).
  pose proof (bexec_held fuel begin_prog s NL) as Hl.
  rewrite !bexec_seq, bexec_call.
  destruct (bexec fuel begin_prog s) as [s1 o1]. destruct (open_ f (uk b) m) as [f' h']. destruct B as [B1 B2]. subst o1. cbn [fst] in Hl.
  cbv beta iota. set (s2 := restore_loc s1 (bloc s)).
  assert (R2 : BRep s2 f' (opened b h')) by (apply brep_restore; exact B2).
  change (bexec fuel (BSetState x) s2) with (set_sess s2 x, BONormal). cbv beta iota.
  pose proof (brep_sess _ _ _ x R2) as R3.
  assert (Hh3 : has_uk (set_st (opened b h') x) = true) by reflexivity.
  rewrite bexec_tryre, (update_keys_code fuel _ _ _ R3 Hh3).
  split; [reflexivity|]. split; [exact (brep_keys _ _ _ R3)|]. split.
  - cbn [bheld set_sess s2 restore_loc]. exact Hl.
  - intros Hm. apply (has_mode_kept s1); [reflexivity|]. apply (BM Hm). cbn [fst]. rewrite (br_has _ _ _ B2). reflexivity.
Qed.

Theorem reading_enter_code fuel s f b :
  (List.length f < fuel)%nat -> BRep s f b ->
  headed f -> (has_uk b = false -> uk b = h0) -> last_in (uk b) ->
  bheld s = None ->
  let '(s', o) := bexec fuel reading_enter_prog s in
  let '(f', b', r) := b_begin_r f b in
  o = BONormal /\ r = BOk /\ BRep s' f' b' /\ bheld s' = Some false /\ ((has_inner s = true -> has_mode s) -> has_mode s').
Proof.
  intros Hfuel R Hh Hh0 Hin Hl. unfold reading_enter_prog, b_begin_r.
  rewrite bexec_seq, (bexec_acquire fuel false s Hl). cbv beta iota.
  pose proof (brep_held s f b (Some false) R) as R1.
  rewrite bexec_tryre.
  pose proof (enter_body_code fuel MR begin_read_prog SReading (BSeq (BCall end_read_prog) (BSetState SIdle))
                (set_held s (Some false)) f b eq_refl Hfuel R1 Hh Hh0 Hin) as E.
  destruct (bexec fuel _ (set_held s (Some false))) as [s1 o1]. destruct (open_ f (uk b) MR) as [f' h'].
  destruct E as [E1 [E2 [E3 E4]]]. subst o1. cbv beta iota. split; [reflexivity|split; [reflexivity|split; [exact E2|split; [exact E3|exact E4]]]].
Qed.

Theorem writing_enter_code fuel s f b :
  (List.length f < fuel)%nat -> BRep s f b ->
  headed f -> (has_uk b = false -> uk b = h0) -> last_in (uk b) ->
  bheld s = None ->
  let '(s', o) := bexec fuel writing_enter_prog s in
  let '(f', b', r) := b_begin_w f b in
  o = bout_of_res r /\ BRep s' f' b' /\ bheld s' = (if ro b then None else Some true) /\
  ((has_inner s = true -> has_mode s) -> has_inner s' = true -> has_mode s').
Proof.
  intros Hfuel R Hh Hh0 Hin Hl. unfold writing_enter_prog, b_begin_w.
  rewrite !bexec_seq, bexec_if. cbn [beval_bool]. rewrite (br_ro _ _ _ R). destruct (ro b) eqn:Ero.
  - cbn [bexec bout_of_res]. split; [reflexivity|]. split; [exact R|]. split; [exact Hl|]. intros Hm Hi. exact (Hm Hi).
  - change (bexec fuel BSkip s) with (s, BONormal). cbv beta iota. rewrite (bexec_acquire fuel true s Hl). cbv beta iota.
    pose proof (brep_held s f b (Some true) R) as R1.
    rewrite bexec_tryre.
    pose proof (enter_body_code fuel MA begin_write_prog SWriting
                  (BTryFinally (BCall flush_prog) (BSeq (BCall end_write_prog) (BSetState SIdle)))
                  (set_held s (Some true)) f b eq_refl Hfuel R1 Hh Hh0 Hin) as E.
    destruct (bexec fuel _ (set_held s (Some true))) as [s1 o1]. destruct (open_ f (uk b) MA) as [f' h'].
    destruct E as [E1 [E2 [E3 E4]]]. subst o1. cbv beta iota. rewrite Ero in E2. split; [reflexivity|split; [exact E2|split; [exact E3|]]].
    intros Hm _. exact (E4 Hm).
Qed.

(* end_read() / end_write(); self._state = "idle" *)
Lemma end_idle_code fuel prog s f b :
  prog = BUkvCall close_prog [] -> BRep s f b -> has_uk b = true -> has_mode s ->
  let '(s', o) := bexec fuel (BSeq (BCall prog) (BSetState SIdle)) s in
  o = BONormal /\ BRep s' f (mkb (close_ (uk b)) (has_uk b) (queue b) (bkeys b) (used b) (bufsize b) (ro b) SIdle) /\ bheld s' = bheld s.
Proof.
  intros Ep R Hh M. pose proof (end_code fuel prog s f b Ep R Hh M) as E.
  assert (NL : no_lock prog = true) by (subst prog; reflexivity).
  pose proof (bexec_held fuel prog s NL) as Hl.
  rewrite bexec_seq, bexec_call. destruct (bexec fuel prog s) as [s1 o1]. destruct E as [E1 E2]. subst o1. cbn [fst] in Hl.
  change (bexec fuel (BSetState SIdle) (restore_loc s1 (bloc s))) with (set_sess (restore_loc s1 (bloc s)) SIdle, BONormal).
  split; [reflexivity|]. split; [|exact Hl].
  exact (brep_sess _ _ _ SIdle (brep_restore _ _ _ (bloc s) E2)).
Qed.

Theorem reading_exit_code fuel s f b :
  BRep s f b -> has_uk b = true -> has_mode s -> bheld s = Some false ->
  let '(s', o) := bexec fuel reading_exit_prog s in
  let '(f', b', r) := b_end_r f b in
  o = BONormal /\ r = BOk /\ f' = f /\ BRep s' f b' /\ bheld s' = None.
Proof.
  intros R Hh M Hl. unfold reading_exit_prog, b_end_r.
  rewrite bexec_seq, bexec_tryfin, bexec_seq, bexec_tryfin.
  change (bexec fuel BSkip s) with (s, BONormal). cbv beta iota.
  pose proof (end_idle_code fuel end_read_prog s f b eq_refl R Hh M) as E.
  destruct (bexec fuel (BSeq (BCall end_read_prog) (BSetState SIdle)) s) as [s1 o1]. destruct E as [E1 [E2 E3]]. subst o1.
  change (bexec fuel BSkip s1) with (s1, BONormal). cbv beta iota.
  assert (Hl1 : bheld s1 = Some false) by (rewrite E3; exact Hl).
  rewrite (bexec_release fuel false s1 Hl1). cbv beta iota. change (bexec fuel BSkip (set_held s1 None)) with (set_held s1 None, BONormal).
  split; [reflexivity|split; [reflexivity|split; [reflexivity|split; [|reflexivity]]]].
  exact (brep_held _ _ _ None E2).
Qed.

Theorem writing_exit_code fuel s f b :
  (List.length (queue b) < fuel)%nat -> BRep s f b -> has_uk b = true -> has_mode s -> bheld s = Some true ->
  let '(s', o) := bexec fuel writing_exit_prog s in
  let '(f', b', r) := b_end_w f b in
  o = bout_of_res r /\ BRep s' f' b' /\ bheld s' = None.
Proof.
  intros Hn R Hh M Hl. unfold writing_exit_prog, b_end_w.
  rewrite bexec_seq, bexec_tryfin, bexec_seq, bexec_tryfin.
  change (bexec fuel BSkip s) with (s, BONormal). cbv beta iota. rewrite bexec_tryfin, bexec_call.
  pose proof (flush_code fuel s f b Hn R) as F.
  assert (NL : no_lock flush_prog = true) by reflexivity.
  pose proof (bexec_held fuel flush_prog s NL) as Hl1.
  assert (NM : bsets_attr "mode" flush_prog = false) by reflexivity.
  pose proof (bexec_inner_attr "mode" fuel flush_prog s NM) as Hm1.
  destruct (bexec fuel flush_prog s) as [s1 o1]. cbn [fst] in Hl1, Hm1.
  destruct (flush f b) as [[f1 b1] e] eqn:Ef. destruct F as [F1 F2]. subst o1.
  assert (Hh1 : has_uk b1 = true).
  { unfold flush in Ef. apply flush_loop_takes_apart in Ef; [|lia]. destruct Ef as [w [d [_ [_ [_ [_ [_ E6]]]]]]]. rewrite E6. exact Hh. }
  set (s2 := restore_loc s1 (bloc s)).
  assert (R2 : BRep s2 f1 b1) by (apply brep_restore; exact F2).
  assert (M2 : has_mode s2) by exact (has_mode_kept s s2 Hm1 M).
  pose proof (end_idle_code fuel end_write_prog s2 f1 b1 eq_refl R2 Hh1 M2) as E.
  destruct (bexec fuel (BSeq (BCall end_write_prog) (BSetState SIdle)) s2) as [s3 o3]. destruct E as [E1 [E2 E3]]. subst o3.
  change (bexec fuel BSkip s3) with (s3, BONormal).
  assert (Hl3 : bheld s3 = Some true) by (rewrite E3; cbn [s2 restore_loc bheld]; rewrite Hl1; exact Hl).
  (* the outcome of the flush travels through two finalisers and the release *)
  destruct e as [x|]; cbn [bout_of bout_of_res]; cbv beta iota; rewrite (bexec_release fuel true s3 Hl3); cbv beta iota;
    change (bexec fuel BSkip (set_held s3 None)) with (set_held s3 None, BONormal); cbv beta iota;
    (split; [reflexivity|split; [exact (brep_held _ _ _ None E2)|reflexivity]]).
Qed.

(* entry and exit compose: a whole (empty) reading session, with no hypothesis about the mode attribute left *)
Theorem reading_session_code fuel s f b :
  (List.length f < fuel)%nat -> BRep s f b ->
  headed f -> (has_uk b = false -> uk b = h0) -> last_in (uk b) ->
  bheld s = None -> (has_inner s = true -> has_mode s) ->
  let '(s1, o1) := bexec fuel reading_enter_prog s in
  let '(s2, o2) := bexec fuel reading_exit_prog s1 in
  let '(f1, b1, _) := b_begin_r f b in
  let '(f2, b2, _) := b_end_r f1 b1 in
  o1 = BONormal /\ o2 = BONormal /\ BRep s2 f2 b2 /\ bheld s2 = None /\ st b2 = SIdle.
Proof.
  intros Hfuel R Hh Hh0 Hin Hl Hm.
  pose proof (reading_enter_code fuel s f b Hfuel R Hh Hh0 Hin Hl) as E.
  destruct (bexec fuel reading_enter_prog s) as [s1 o1].
  unfold b_begin_r in *. destruct (open_ f (uk b) MR) as [f1 h1].
  destruct E as [E1 [_ [E3 [E4 E5]]]]. specialize (E5 Hm).
  pose proof (reading_exit_code fuel s1 f1 _ E3 eq_refl E5 E4) as X.
  destruct (bexec fuel reading_exit_prog s1) as [s2 o2]. unfold b_end_r in *.
  destruct X as [X1 [_ [_ [X4 X5]]]].
  split; [exact E1|]. split; [exact X1|]. split; [exact X4|]. split; [exact X5|reflexivity].
Qed.
