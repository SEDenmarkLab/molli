(* C13: lemmas about Model/Cdx.v: the per-node / per-bond decisions, fragment assembly and nested joins, the label
   cache and sessions (lists, Z, Q, strings only); then, over R with the C11 development, the 3-D interpretation of
   stereo bonds under the mirror through the drawing plane. *)
From Coq Require Import List ZArith NArith QArith String Bool Lia.
From Coq Require Import Reals Lra.
From Molli Require Import Common.Field3 Common.Field3R Common.ListFacts Model.Rot Proofs.Rot Model.Cdx.
(* String exports a `length` too: List comes back in front of it, the bare name is List.length *)
Import List ListNotations.

Lemma parse_atom_node_spec (n : xnode) (a : atom) : parse_atom_node n = Ok a ->
  a_iso a = n_iso n /\ a_charge a = odflt 0%Z (n_charge n) /\ a_spin a = rad_code (n_rad n) /\ a_implh a = n_numh n /\
  (if is_special (n_type n) then a_atype a = ATAttachment /\ a_elem a = 0%Z
   else a_atype a = ATRegular /\ a_elem a = odflt 6%Z (n_elem n) /\ a_label a = n_anum n).
Proof.
  unfold parse_atom_node. intros H.
  destruct (n_type n); simpl in *;
    try (destruct (valid_element _); [|discriminate]);
    try (destruct (n_text n); [|discriminate]);
    inversion H; subst; simpl; repeat split; reflexivity.
Qed.

(* off a dashed bond the Display does not enter the bond type *)
Lemma parse_bond_type_not_dash (o : xorder) (d : display) : d <> DDash -> parse_bond_type o d = parse_bond_type o DAbsent.
Proof. intros Hd. destruct o as [|z| |]; destruct d; try reflexivity; contradiction. Qed.

Lemma mirror_display_invol d : mirror_display (mirror_display d) = d.
Proof. destruct d; reflexivity. Qed.
Lemma display_action_mirror d : display_action (mirror_display d) = neg_action (display_action d).
Proof. destruct d; reflexivity. Qed.
Lemma mirror_fixes_unmarked d : display_action d = None -> mirror_display d = d.
Proof. destruct d; simpl; intros H; try reflexivity; discriminate. Qed.
Lemma mirror_marked d : display_action d <> None -> mirror_display d <> d.
Proof. destruct d; simpl; intros H; try discriminate; contradiction. Qed.
Lemma parse_bond_type_mirror o d : parse_bond_type o (mirror_display d) = parse_bond_type o d.
Proof. destruct o as [|z| |]; destruct d; reflexivity. Qed.

Lemma pat_eqb_eq x y : pat_eqb x y = true -> x = y.
Proof.
  destruct x as [[[zb ze] c] [[[mb me] mc] s]]. destruct y as [[[zb' ze'] c'] [[[mb' me'] mc'] s']]. simpl.
  rewrite !andb_true_iff, !Z.eqb_eq, !Bool.eqb_true_iff. intros [[[[[[-> ->] C] ->] ->] ->] ->].
  destruct c, c'; try discriminate C; reflexivity.
Qed.
Lemma mirror_table_sound (tbl : list display_row) : mirror_table_ok tbl = true -> forall d, In d all_displays ->
  exists r r', row_of tbl d = Some r /\ row_of tbl (mirror_display d) = Some r' /\ (snd (fst r'), snd r') = neg_row r.
Proof.
  unfold mirror_table_ok. intros H d Hd. rewrite forallb_forall in H. specialize (H d Hd).
  destruct (row_of tbl d) as [r|]; [|discriminate]. destruct (row_of tbl (mirror_display d)) as [r'|]; [|discriminate].
  exists r, r'. repeat split. symmetry. apply pat_eqb_eq, H.
Qed.
Lemma all_displays_complete d : In d all_displays.
Proof. destruct d; simpl; tauto. Qed.

Definition is_multi (n : xnode) : bool := match n_type n with NTMulti => true | _ => false end.
Definition plain (ns : list xnode) : list xnode := filter (fun n => negb (is_multi n)) ns.
Lemma plain_no_multi ns : filter is_multi ns = [] -> plain ns = ns.
Proof.
  unfold plain. induction ns as [|n ns IH]; simpl; [reflexivity|].
  destruct (is_multi n); simpl; [discriminate | intros H; f_equal; auto].
Qed.

(* the first loop only asks whether a node is a multi-attachment node *)
Lemma scan_nodes_cons n r : scan_nodes (n :: r) =
  if is_multi n then bind (scan_nodes r) (fun '(ma, ats) => Ok ((n_id n, n_attach n) :: ma, ats))
  else bind (parse_atom_node n) (fun a => bind (scan_nodes r) (fun '(ma, ats) => Ok (ma, (n_id n, a) :: ats))).
Proof. unfold is_multi. simpl. destruct (n_type n); reflexivity. Qed.
Lemma scan_nodes_spec (ns : list xnode) : forall ma ats, scan_nodes ns = Ok (ma, ats) ->
  map fst ats = map n_id (plain ns) /\
  Forall2 (fun n a => parse_atom_node n = Ok a) (plain ns) (map snd ats) /\
  ma = map (fun n => (n_id n, n_attach n)) (filter is_multi ns).
Proof.
  induction ns as [|n ns IH]; intros ma ats H.
  - inversion H. repeat split. constructor.
  - rewrite scan_nodes_cons in H. unfold plain in *. simpl filter. destruct (is_multi n); simpl negb; cbv iota.
    + destruct (scan_nodes ns) as [[ma' ats']|]; simpl in H; [|discriminate]. inversion H; subst.
      destruct (IH _ _ eq_refl) as [I1 [I2 I3]]. simpl. now rewrite <- I3.
    + destruct (parse_atom_node n) as [a|] eqn:P; simpl in H; [|discriminate].
      destruct (scan_nodes ns) as [[ma' ats']|]; simpl in H; [|discriminate]. inversion H; subst.
      destruct (IH _ _ eq_refl) as [I1 [I2 I3]]. simpl. rewrite I1. repeat split; [now constructor | exact I3].
Qed.

Fixpoint somes {A} (l : list (option A)) : list A :=
  match l with [] => [] | Some a :: r => a :: somes r | None :: r => somes r end.
(* the bond list is the concatenation, in drawing order, of what each drawn bond contributes; the hapto centres are
   those the drawn bonds declare *)
Lemma scan_bonds_spec ma ids xbs : forall bs cs, scan_bonds ma ids xbs = Ok (bs, cs) ->
  exists gs, Forall2 (fun xb gc => bonds_of ma ids xb = Ok gc) xbs gs /\ bs = List.concat (map fst gs) /\ cs = somes (map snd gs).
Proof.
  induction xbs as [|xb xbs IH]; intros bs cs H; simpl in H.
  - inversion H; subst. exists []. repeat split. constructor.
  - destruct (bonds_of ma ids xb) as [[g c]|] eqn:B; simpl in H; [|discriminate].
    destruct (scan_bonds ma ids xbs) as [[rb rc]|] eqn:S; simpl in H; [|discriminate].
    inversion H; subst. destruct (IH _ _ eq_refl) as [gs [F [-> ->]]]. exists ((g, c) :: gs).
    split; [now constructor|]. split; [reflexivity | now destruct c].
Qed.

(* assemble, inverted once: the atoms are the parsed plain nodes with the hapto centres re-typed, the bonds and the
   centres come from scan_bonds over the plain nodes' ids, charge and multiplicity are summed by `finish` *)
Lemma assemble_inv (ns : list xnode) (xbs : list xbond) (m : mol) : assemble ns xbs = Ok m ->
  exists ats bs cs,
    Forall2 (fun n a => parse_atom_node n = Ok a) (plain ns) ats /\
    scan_bonds (map (fun n => (n_id n, n_attach n)) (filter is_multi ns)) (map n_id (plain ns)) xbs = Ok (bs, cs) /\
    m = finish (mark_centers cs ats) bs.
Proof.
  unfold assemble. intros H.
  destruct (scan_nodes ns) as [[ma ats]|] eqn:S; simpl in H; [|discriminate].
  destruct (scan_bonds ma (map fst ats) xbs) as [[bs cs]|] eqn:B; simpl in H; [|discriminate].
  destruct (scan_nodes_spec _ _ _ S) as [I1 [I2 ->]]. rewrite I1 in B. inversion H. now exists (map snd ats), bs, cs.
Qed.

Lemma mark_from_length cs l : forall i, List.length (mark_from cs i l) = List.length l.
Proof. induction l as [|a l IH]; intros i; simpl; [reflexivity | now rewrite IH]. Qed.
Lemma set_atype_charge t a : a_charge (set_atype t a) = a_charge a. Proof. reflexivity. Qed.
(* re-typing the centres changes no attribute but the atom type *)
Lemma mark_from_map {B} (g : atom -> B) cs l : (forall t a, g (set_atype t a) = g a) ->
  forall i, map g (mark_from cs i l) = map g l.
Proof.
  intros Hg. induction l as [|a l IH]; intros i; simpl; [reflexivity|].
  rewrite IH. destruct (existsb _ cs); [rewrite Hg|]; reflexivity.
Qed.
Lemma mark_from_nil l : forall i, mark_from [] i l = l.
Proof. induction l as [|a l IH]; intros i; simpl; [reflexivity | now rewrite IH]. Qed.
Lemma mark_from_rel cs l : forall i, Forall2 (fun a0 a => a = a0 \/ a = set_atype ATCoord a0) l (mark_from cs i l).
Proof. induction l as [|a l IH]; intros i; simpl; constructor; [destruct (existsb _ cs); auto | apply IH]. Qed.

Definition drawn_charge (n : xnode) : Z := odflt 0%Z (n_charge n).
Definition drawn_spin (n : xnode) : Z := rad_code (n_rad n).

Lemma Forall2_map_eq {A B C} (f : A -> C) (g : B -> C) (R : A -> B -> Prop) l m :
  Forall2 R l m -> (forall x y, R x y -> f x = g y) -> map f l = map g m.
Proof. induction 1; intros H'; simpl; [reflexivity|]. f_equal; auto. Qed.
Lemma Forall2_compose {A B C} (R : A -> B -> Prop) (S : B -> C -> Prop) l m k :
  Forall2 R l m -> Forall2 S m k -> Forall2 (fun x z => exists y, R x y /\ S y z) l k.
Proof. intros H. revert k. induction H; intros k HS; inversion HS; subst; constructor; eauto. Qed.

Definition bond_of_drawn (ids : list string) (xb : xbond) (b : bond) : Prop :=
  atom_index ids (xb_B xb) = Ok (b_a1 b) /\ atom_index ids (xb_E xb) = Ok (b_a2 b) /\
  parse_bond_type (xb_order xb) (xb_disp xb) = Ok (b_type b) /\ b_forder b = 1%Q.

Lemma bonds_of_plain ma ids xb g c :
  dict_get (xb_B xb) ma = None -> dict_get (xb_E xb) ma = None -> bonds_of ma ids xb = Ok (g, c) ->
  c = None /\ exists b, g = b :: nil /\ bond_of_drawn ids xb b.
Proof.
  unfold bonds_of. intros HB HE. rewrite HB, HE.
  destruct (atom_index ids (xb_B xb)) as [i|] eqn:I; simpl; [|discriminate].
  destruct (atom_index ids (xb_E xb)) as [j|] eqn:J; simpl; [|discriminate].
  destruct (parse_bond_type (xb_order xb) (xb_disp xb)) as [t|] eqn:T; simpl; [|discriminate].
  intros H; inversion H; subst. split; [reflexivity|]. eexists; split; [reflexivity|].
  unfold bond_of_drawn; simpl. rewrite I, J. repeat split; try reflexivity; exact T.
Qed.

Lemma mapM_Forall2 {A B} (f : A -> res B) l : forall r, mapM f l = Ok r -> Forall2 (fun x y => f x = Ok y) l r.
Proof.
  induction l as [|x l IH]; intros r H; simpl in H; [inversion H; constructor|].
  destruct (f x) eqn:Fx; simpl in H; [|discriminate]. destruct (mapM f l) eqn:M; simpl in H; [|discriminate].
  inversion H; subst. constructor; [exact Fx | apply IH; reflexivity].
Qed.
Lemma mapM_length {A B} (f : A -> res B) l : forall r, mapM f l = Ok r -> List.length r = List.length l.
Proof. intros r H. symmetry. exact (Forall2_length _ _ _ (mapM_Forall2 f l r H)). Qed.

(* a bond drawn to a multi-attachment node: one Ligand bond per attached atom, fractional order 1/n *)
Definition hapto_bond (ids : list string) (center : string) (n : nat) (t : string) (b : bond) : Prop :=
  atom_index ids center = Ok (b_a1 b) /\ atom_index ids t = Ok (b_a2 b) /\ b_type b = BT_Ligand /\
  b_forder b = (1 / inject_Z (Z.of_nat n))%Q.
(* the local function `hapto` of bonds_of *)
Definition hapto_bonds (ids : list string) (center : string) (attached : list string) : res (list bond * option nat) :=
  match attached with
  | [] => Raise
  | _ =>
      let fo := (1 / inject_Z (Z.of_nat (List.length attached)))%Q in
      bind (mapM (fun t => bind (atom_index ids center) (fun c => bind (atom_index ids t) (fun j =>
                            Ok (mkBond c j BT_Ligand fo)))) attached)
           (fun bs => bind (atom_index ids center) (fun c => Ok (bs, Some c)))
  end.
Lemma bonds_of_hapto_bonds ma ids xb center att :
  (dict_get (xb_B xb) ma = Some att /\ center = xb_E xb) \/
  (dict_get (xb_B xb) ma = None /\ dict_get (xb_E xb) ma = Some att /\ center = xb_B xb) ->
  bonds_of ma ids xb = hapto_bonds ids center att.
Proof. unfold bonds_of. intros [[-> ->]|[-> [-> ->]]]; reflexivity. Qed.
Lemma hapto_bonds_spec ids center att g c : hapto_bonds ids center att = Ok (g, c) ->
  att <> [] /\ (exists ci, atom_index ids center = Ok ci /\ c = Some ci) /\
  Forall2 (hapto_bond ids center (List.length att)) att g.
Proof.
  unfold hapto_bonds. intros H. destruct att as [|t0 att0]; [discriminate H|]. split; [discriminate|].
  cbv beta iota zeta in H. set (att := t0 :: att0) in *. generalize dependent (List.length att). clearbody att. intros n H.
  destruct (mapM _ att) as [bs|] eqn:M; simpl in H; [|discriminate].
  destruct (atom_index ids center) as [ci|] eqn:C; simpl in H; [|discriminate].
  inversion H; subst g c. clear H. split; [eauto|].
  apply mapM_Forall2 in M. induction M as [|t b l r Hb _ IH]; constructor; [|exact IH].
  simpl in Hb. destruct (atom_index ids t) as [j|] eqn:J; simpl in Hb; [|discriminate].
  inversion Hb; subst. unfold hapto_bond; simpl. rewrite J. repeat split; try reflexivity; exact C.
Qed.

Lemma bonds_of_mirror ma ids xb : bonds_of ma ids (mirror_bond xb) = bonds_of ma ids xb.
Proof. unfold bonds_of, mirror_bond; simpl. now rewrite parse_bond_type_mirror. Qed.
Lemma scan_bonds_mirror ma ids xbs : scan_bonds ma ids (map mirror_bond xbs) = scan_bonds ma ids xbs.
Proof. induction xbs as [|xb xbs IH]; simpl; [reflexivity|]. now rewrite bonds_of_mirror, IH. Qed.
Theorem assemble_mirror ns xbs : assemble ns (map mirror_bond xbs) = assemble ns xbs.
Proof.
  unfold assemble. destruct (scan_nodes ns) as [[ma ats]|]; simpl; [|reflexivity].
  now rewrite scan_bonds_mirror.
Qed.

Fixpoint mirror_frag (f : xfrag) : xfrag :=
  match f with
  | XFrag nodes xbs =>
      XFrag (map (fun p => (fst p, match snd p with Some s => Some (mirror_frag s) | None => None end)) nodes)
            (map mirror_bond xbs)
  end.

(* xfrag is nested through `list (xnode * option xfrag)`: the induction principle Coq generates has no hypothesis for
   the inner fragments, so the one with `Forall` over the nodes is built by hand *)
Section XfragInd.
  Variable P : xfrag -> Prop.
  Definition sub_ok (p : xnode * option xfrag) : Prop := match snd p with Some s => P s | None => True end.
  Hypothesis H : forall nodes xbs, Forall sub_ok nodes -> P (XFrag nodes xbs).
  Fixpoint xfrag_ind' (f : xfrag) : P f :=
    match f with
    | XFrag nodes xbs =>
        H nodes xbs
          ((fix go (l : list (xnode * option xfrag)) : Forall sub_ok l :=
              match l with
              | [] => Forall_nil sub_ok
              | p :: r =>
                  @Forall_cons _ sub_ok p r
                    (match p as p0 return sub_ok p0 with
                     | (n, Some s) => xfrag_ind' s
                     | (n, None) => I
                     end) (go r)
              end) nodes)
    end.
End XfragInd.

Definition expand_step (acc : res mol) (p : xnode * option xfrag) : res mol :=
  match snd p with
  | None => acc
  | Some sub => bind acc (fun r => bind (expand sub) (fun s => join_sub r (n_id (fst p)) s))
  end.
Lemma expand_unfold nodes xbs : expand (XFrag nodes xbs) = fold_left expand_step nodes (assemble (map fst nodes) xbs).
Proof. reflexivity. Qed.

Lemma remove_nth_length {A} (l : list A) : forall i, (i < List.length l)%nat -> S (List.length (remove_nth i l)) = List.length l.
Proof.
  induction l as [|x l IH]; intros i Hi; simpl in *; [lia|].
  destruct i as [|i]; [reflexivity|]. simpl. f_equal. apply IH. lia.
Qed.
Lemma find_label_lt k l : forall i0 i, find_label k l i0 = Some i -> (i0 <= i < i0 + List.length l)%nat.
Proof.
  induction l as [|a l IH]; intros i0 i H; simpl in H; [discriminate|].
  destruct (a_label a) as [s|].
  - destruct (String.eqb s k); [inversion H; subst; simpl; lia | apply IH in H; simpl; lia].
  - apply IH in H; simpl; lia.
Qed.
Lemma find_ap_lt l : forall i0 i, find_ap l i0 = Some i -> (i0 <= i < i0 + List.length l)%nat.
Proof.
  induction l as [|a l IH]; intros i0 i H; simpl in H; [discriminate|].
  destruct (a_atype a); try (apply IH in H; simpl; lia). inversion H; subst; simpl; lia.
Qed.

(* total charge = sum of the formal charges of the atoms, multiplicity = sum of the radical codes + 1,
   also after nested fragments were joined in *)
Definition charge_mult_ok (m : mol) : Prop :=
  m_charge m = total_charge (m_atoms m) /\ m_mult m = (total_spin (m_atoms m) + 1)%Z.
Lemma assemble_charge_mult ns xbs m : assemble ns xbs = Ok m -> charge_mult_ok m.
Proof. intros H. destruct (assemble_inv _ _ _ H) as [ats [bs [cs [_ [_ ->]]]]]. split; reflexivity. Qed.
Lemma join_sub_charge_mult r key s m : join_sub r key s = Ok m -> charge_mult_ok m.
Proof.
  unfold join_sub. intros H.
  destruct (find_label key (m_atoms r) 0); [|discriminate]. destruct (find_ap (m_atoms s) 0); [|discriminate].
  destruct (filter _ (m_bonds r)) as [|? [|? ?]]; try discriminate.
  destruct (filter _ (m_bonds s)) as [|? [|? ?]]; try discriminate.
  inversion H; subst. split; reflexivity.
Qed.
Theorem expand_charge_mult (f : xfrag) (m : mol) : expand f = Ok m -> charge_mult_ok m.
Proof.
  destruct f as [nodes xbs]. rewrite expand_unfold.
  assert (G : forall acc, (forall m0, acc = Ok m0 -> charge_mult_ok m0) ->
              forall m0, fold_left expand_step nodes acc = Ok m0 -> charge_mult_ok m0).
  { induction nodes as [|p l IH]; intros acc Hacc m0 H; simpl in H; [apply Hacc, H|].
    eapply IH; [|exact H]. unfold expand_step. destruct (snd p) as [sub|]; [|exact Hacc].
    intros m1 H1. destruct acc as [r|]; simpl in H1; [|discriminate].
    destruct (expand sub) as [s|]; simpl in H1; [|discriminate]. eapply join_sub_charge_mult, H1. }
  apply G. intros m0. apply assemble_charge_mult.
Qed.

(* __getitem__ is a function of (file, key): the cache only memoises *)
Definition cache_ok (f : string -> option nat) (c : cache) : Prop := forall k v, cache_get k c = Some v -> f k = Some v.
Lemma getitem_spec f c k : cache_ok f c -> fst (getitem f c k) = f k /\ cache_ok f (snd (getitem f c k)).
Proof.
  unfold getitem. intros Hc. destruct (cache_get k c) as [i|] eqn:G.
  - simpl. split; [symmetry; apply Hc, G | exact Hc].
  - destruct (f k) as [i|] eqn:Fk; simpl; split; try reflexivity; try exact Hc.
    intros k' v. simpl. destruct (String.eqb k' k) eqn:E; [|apply Hc].
    apply String.eqb_eq in E. subst. intros H; inversion H; subst. exact Fk.
Qed.
Theorem run_gets_spec f keys : forall c, cache_ok f c -> run_gets f c keys = map f keys.
Proof.
  induction keys as [|k keys IH]; intros c Hc; simpl; [reflexivity|].
  destruct (getitem f c k) as [a c'] eqn:G. destruct (getitem_spec f c k Hc) as [E1 E2]. rewrite G in E1, E2. simpl in *.
  subst a. f_equal. apply IH, E2.
Qed.
Lemma cache_ok_nil f : cache_ok f []. Proof. intros k v H; discriminate. Qed.

(* sessions: a lookup always answers the drawing; a molecule handed out is the caller's *)
Definition caches_ok (f : string -> option nat) (st : sstate) : Prop := forall o, cache_ok f (s_caches st o).
Lemma sev_next_caches_ok f parse st e : caches_ok f st -> caches_ok f (sev_next f parse st e).
Proof.
  intros H. destruct e as [o k obs|i obs|h m|h obs]; simpl; try exact H.
  destruct (getitem f (s_caches st o) k) as [a c'] eqn:G. intros o'. simpl.
  destruct (Nat.eqb o' o); [|apply H].
  pose proof (getitem_spec f (s_caches st o) k (H o)) as [_ E]. rewrite G in E. exact E.
Qed.
(* what a lookup event must answer, read off the FILE alone *)
Definition lookup_spec (f : string -> option nat) (parse : option nat -> res mol) (e : sev) : option (res mol) :=
  match e with
  | EGet _ k _ => Some (parse (f k))
  | EParse i _ => Some (parse (Some i))
  | _ => None
  end.
Theorem session_answers_spec f parse evs : forall st, caches_ok f st ->
  session_answers f parse st evs = somes (map (lookup_spec f parse) evs).
Proof.
  induction evs as [|e evs IH]; intros st H; [reflexivity|].
  simpl. rewrite (IH _ (sev_next_caches_ok f parse st e H)).
  destruct e as [o k obs|i obs|h m|h obs]; simpl; try reflexivity.
  pose proof (getitem_spec f (s_caches st o) k (H o)) as [E _]. rewrite E. reflexivity.
Qed.
Lemma caches_ok_init f : caches_ok f s_init. Proof. intros o. apply cache_ok_nil. Qed.

Lemma alloc_keeps r hp h m : nth_error hp h = Some m -> nth_error (alloc r hp) h = Some m.
Proof.
  intros H. destruct r as [x|]; simpl; [|exact H].
  rewrite nth_error_app1; [exact H|]. apply nth_error_Some. rewrite H. discriminate.
Qed.
Lemma set_nth_other {A} (x : A) : forall l h h', h <> h' -> nth_error (set_nth h' x l) h = nth_error l h.
Proof.
  induction l as [|y l IH]; intros h h' N; [destruct h'; reflexivity|].
  destruct h' as [|h']; destruct h as [|h]; simpl; try reflexivity; [congruence|].
  apply IH. congruence.
Qed.
(* the event edits the molecule with allocation number h *)
Definition edits_of (h : nat) (e : sev) : bool := match e with EEdit h' _ => Nat.eqb h' h | _ => false end.

(* after an edit, the edited molecule is what the edit made it *)
Lemma set_nth_same {A} (x : A) : forall l h, (h < length l)%nat -> nth_error (set_nth h x l) h = Some x.
Proof.
  induction l as [|y l IH]; intros h L; simpl in L; [lia|].
  destruct h as [|h]; simpl; [reflexivity|]. apply IH. lia.
Qed.

Local Open Scope R_scope.

(* unfolds the geometric definitions of Model/Cdx.v and the rotation constructors of Model/Rot.v down to coordinates *)
Ltac cdx := cbv [ez mirror Mz outa_tol outa_R outa_plane rot_from_vectors rot_from_axis axis_rot skew rodrigues antiparallel].

Lemma vm_Mz (p : vecR) : vm ROps p (Mz ROps) = mirror ROps p.
Proof. vdestruct. cdx. f3. veq; ring. Qed.

Lemma mirror_invol (p : vecR) : mirror ROps (mirror ROps p) = p.
Proof. vdestruct. cdx. f3. veq; ring. Qed.

Lemma mirror_vzero : mirror ROps (vzero ROps) = vzero ROps.
Proof. cdx. f3. veq; ring. Qed.

Lemma signed_volume_mirror (p0 p1 p2 p3 : vecR) :
  signed_volume ROps (mirror ROps p0) (mirror ROps p1) (mirror ROps p2) (mirror ROps p3) = - signed_volume ROps p0 p1 p2 p3.
Proof. vdestruct. cdx. f3. ring. Qed.

Lemma mirror_vadd (x y : vecR) : mirror ROps (vadd ROps x y) = vadd ROps (mirror ROps x) (mirror ROps y).
Proof. vdestruct. cdx. f3. veq; ring. Qed.
Lemma mirror_vopp (x : vecR) : mirror ROps (vopp ROps x) = vopp ROps (mirror ROps x).
Proof. vdestruct. reflexivity. Qed.
Lemma mirror_vsub (x y : vecR) : vsub ROps (mirror ROps x) (mirror ROps y) = mirror ROps (vsub ROps x y).
Proof. vdestruct. cdx. f3. veq; ring. Qed.

(* The axis cross(ez, w) lies in the drawing plane and does not see the z of w.  About such an axis, the rotation of
   the opposite sense does to the mirrored point what the rotation does to the point, mirrored.
   (Stated for the axis (a, b, 0): no division left to normalise.) *)
Lemma in_plane_axis (w : vecR) (n : R) : exists a b,
  vdiv ROps (cross ROps (ez ROps) (mirror ROps w)) n = (a, b, 0) /\ vdiv ROps (cross ROps (ez ROps) w) n = (a, b, 0).
Proof. vdestruct. eexists _, _. cdx. f3. unfold Rdiv. split; veq; try reflexivity; ring. Qed.
Lemma axis_rot_mirror (a b s c : R) (x : vecR) :
  vm ROps (mirror ROps x) (axis_rot ROps (a, b, 0) (- s) c) = mirror ROps (vm ROps x (axis_rot ROps (a, b, 0) s c)).
Proof. vdestruct. cdx. f3. veq; ring. Qed.
Lemma rot_from_axis_mirror (w : vecR) (nax s c : R) (x : vecR) :
  vm ROps (mirror ROps x) (rot_from_axis ROps (cross ROps (ez ROps) (mirror ROps w)) nax (- s) c)
  = mirror ROps (vm ROps x (rot_from_axis ROps (cross ROps (ez ROps) w) nax s c)).
Proof. unfold rot_from_axis. destruct (in_plane_axis w nax) as [a [b [-> ->]]]. apply axis_rot_mirror. Qed.

(* with the plane normal along +ez the frame change of rotate_2dvec_outa_plane is the identity:
   rodrigues a a = 1 + (a a^T - a a^T) + ... *)
Lemma rodrigues_same (a : vecR) : rodrigues ROps a a = eye ROps.
Proof. vdestruct. cdx. f3. unfold Rdiv. veq; ring. Qed.
Lemma outa_R_up (nz : R) (ov : vecR) : 0 < nz -> outa_R ROps (0, 0, nz) nz ov = eye ROps.
Proof.
  intros Hnz. unfold outa_R, rot_from_vectors.
  replace (vdiv ROps (0, 0, nz) nz) with (ez ROps) by (cdx; f3; veq; field; lra).
  replace (vdiv ROps (ez ROps) (f1 ROps)) with (ez ROps) by (cdx; f3; veq; field).
  rewrite rodrigues_same.
  replace (fleb ROps (dot ROps (ez ROps) (ez ROps)) (fadd ROps (fopp ROps (f1 ROps)) (outa_tol ROps))) with false; [reflexivity|].
  symmetry. apply Rleb_false. cdx. f3. simpl. lra.
Qed.
Lemma outa_plane_up (v : vecR) (nax s c nz : R) (ov : vecR) : 0 < nz ->
  outa_plane ROps v nax s c (0, 0, nz) nz ov = rot_from_axis ROps (cross ROps (ez ROps) v) nax s c.
Proof. intros Hnz. unfold outa_plane. rewrite outa_R_up by exact Hnz. rewrite mmul_eye_l. apply mmul_eye_r. Qed.

Lemma update_from_map {A} (sel : nat -> bool) (f f' g : A -> A) (l : list A) :
  (forall x, f' (g x) = g (f x)) -> forall i, update_from sel f' i (map g l) = map g (update_from sel f i l).
Proof.
  intros H. induction l as [|x l IH]; intros i; simpl; [reflexivity|].
  rewrite IH. destruct (sel i); [rewrite H|]; reflexivity.
Qed.
Lemma nth_map_mirror (X : list vecR) k : List.nth k (map (mirror ROps) X) (vzero ROps) = mirror ROps (List.nth k X (vzero ROps)).
Proof. rewrite <- mirror_vzero at 1. apply map_nth. Qed.

Theorem step_acyclic_mirror (X : list vecR) sel i1 i2 (s c nz nax : R) (ov ov' : vecR) : 0 < nz ->
  step_acyclic ROps (map (mirror ROps) X) sel i1 i2 (- s) c (0, 0, nz) nz ov' nax
  = map (mirror ROps) (step_acyclic ROps X sel i1 i2 s c (0, 0, nz) nz ov nax).
Proof.
  intros Hnz. unfold step_acyclic, sub_translate, sub_transform.
  rewrite !update_rows_compose, !outa_plane_up, !nth_map_mirror, mirror_vsub by exact Hnz.
  (* per row: move the pivot to the origin, rotate, move back; the mirror commutes with each *)
  apply update_from_map. intros x. now rewrite <- mirror_vopp, <- mirror_vadd, rot_from_axis_mirror, <- mirror_vadd.
Qed.

Lemma sub_translate_mirror (sel : nat -> bool) (d : vecR) (X : list vecR) :
  sub_translate ROps sel (mirror ROps d) (map (mirror ROps) X) = map (mirror ROps) (sub_translate ROps sel d X).
Proof.
  unfold sub_translate. apply update_from_map. intros x. symmetry. apply mirror_vadd.
Qed.
Theorem step_shift_mirror (moves : list (list nat * vecR)) : forall (X : list vecR),
  step_shift ROps (map (mirror ROps) X) (shift_mirror ROps moves) = map (mirror ROps) (step_shift ROps X moves).
Proof.
  unfold step_shift, shift_mirror. induction moves as [|m moves IH]; intros X; simpl; [reflexivity|].
  rewrite sub_translate_mirror. apply IH.
Qed.

Lemma vertical_neg_mirror (d : vecR) : vertical ROps d -> vopp ROps d = mirror ROps d.
Proof. vdestruct. unfold vertical. cdx. f3. intros [-> ->]. veq; ring. Qed.
Lemma shift_neg_vertical (moves : list (list nat * vecR)) :
  Forall (fun m => vertical ROps (snd m)) moves -> shift_neg ROps moves = shift_mirror ROps moves.
Proof.
  unfold shift_neg, shift_mirror. induction 1 as [|m l Hm _ IH]; simpl; [reflexivity|].
  rewrite IH, (vertical_neg_mirror _ Hm). reflexivity.
Qed.

Lemma flat_moves_mirror (x : R) a1 a2 s1 s2 :
  flat_moves ROps (- x) a1 a2 s1 s2 = shift_mirror ROps (flat_moves ROps x a1 a2 s1 s2).
Proof.
  assert (E : vscale ROps (fdiv ROps (- x) (fofZ ROps 2)) (ez ROps) = mirror ROps (vscale ROps (fdiv ROps x (fofZ ROps 2)) (ez ROps))).
  { cdx. f3. simpl. veq; field. }
  unfold flat_moves. rewrite E. unfold shift_mirror. simpl. rewrite map_map. reflexivity.
Qed.

(* the displacements (0, 1/2, sgn * k): only the z component carries the sign *)
Lemma ring_moves_mirror (x : R) a1 a2 s1 s2 :
  ring_moves ROps (- x) a1 a2 s1 s2 = shift_mirror ROps (ring_moves ROps x a1 a2 s1 s2).
Proof.
  unfold ring_moves, shift_mirror. cbv zeta. simpl map. rewrite map_app, !map_map. cbn [fst snd mirror ROps fmul fopp].
  now rewrite <- !Ropp_mult_distr_l.
Qed.

Definition good_kind (k : ckind R) : Prop :=
  match k with
  | KAcyc _ _ _ _ _ normal nn _ _ => exists nz, 0 < nz /\ normal = (0, 0, nz) /\ nn = nz
  | KRing _ _ _ _ => True
  | KFlat _ _ _ _ => True
  end.

Lemma code_step_mirror (sg : R) (k : ckind R) (X : list vecR) : good_kind k ->
  run_step ROps (map (mirror ROps) X) (code_step ROps (- sg) k) = map (mirror ROps) (run_step ROps X (code_step ROps sg k)).
Proof.
  destruct k as [sel i1 i2 s c normal nn ov nax | a1 a2 s1 s2 | a1 a2 s1 s2]; intros G; cbn [code_step run_step good_kind] in *.
  - destruct G as [nz [Hnz [-> ->]]].
    replace (fmul ROps (- sg) s) with (- (fmul ROps sg s)) by (cbn; ring). apply step_acyclic_mirror, Hnz.
  - rewrite ring_moves_mirror. apply step_shift_mirror.
  - replace (fmul ROps (- sg) (fofZ ROps 2)) with (- (fmul ROps sg (fofZ ROps 2))) by (cbn; ring).
    rewrite flat_moves_mirror. apply step_shift_mirror.
Qed.

Theorem run_plan_mirror (p : plan R) : Forall (fun q => good_kind (snd q)) p -> forall X : list vecR,
  run_plan ROps (map (mirror ROps) X) (mirror_plan ROps p) = map (mirror ROps) (run_plan ROps X p).
Proof.
  unfold run_plan, run_steps, mirror_plan. induction 1 as [|q p Hq _ IH]; intros X; simpl; [reflexivity|].
  rewrite (code_step_mirror (fst q) (snd q) X Hq). apply IH.
Qed.

Definition planar (X : list vecR) : Prop := forall p, In p X -> mirror ROps p = p.
Lemma planar_mirror X : planar X -> map (mirror ROps) X = X.
Proof.
  intros H. induction X as [|x X IH]; simpl; [reflexivity|].
  rewrite (H x (or_introl eq_refl)), IH; [reflexivity|]. intros p Hp. apply H. right. exact Hp.
Qed.

(* mirrored stereo marks on a planar drawing: the 3-D model is the mirror image (so every signed volume changes
   sign: nth_map_mirror, signed_volume_mirror) *)
Theorem run_plan_mirror_planar (p : plan R) (X : list vecR) : planar X -> Forall (fun q => good_kind (snd q)) p ->
  run_plan ROps X (mirror_plan ROps p) = map (mirror ROps) (run_plan ROps X p).
Proof. intros HX Hp. rewrite <- (planar_mirror X HX) at 1. apply run_plan_mirror, Hp. Qed.
(* a ring stereo centre a1 = p0 with in-ring neighbours a2 = p1 (marked bond) and p2, and a substituent p3 *)
Definition ring_witness : list vecR := [(0, 0, 0); (1, 0, 0); (- (1/2), 4/5, 0); (- (1/2), - (4/5), 0)].
