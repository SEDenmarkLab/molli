(* C10: order and kind of the TRIPOS sections, for an ARBITRARY prefix that leaves read_mol2 in its main loop.  The reader skips the
   lines of a section it does not know (`skip_lines`, v_skip), and while it skips, the "unexpected syntax" branch -- the only thing
   that refuses a surplus line after a complete ATOM / BOND section -- is off.  A TRIPOS record is dispatched whatever the flag,
   what is skipped can be erased, a surplus record line is refused. *)
From Coq Require Import List Bool Arith ZArith Ascii.
From Molli Require Import Common.ParseStr Model.Parse Proofs.Parse.
Import ListNotations.
Local Open Scope char_scope.
Local Open Scope list_scope.
(* the reader's variables with the skip flag off *)
Local Notation V oh oa ob out := (mk_m2vars oh oa ob false out).

Definition set_skip (b : bool) (v : m2vars) : m2vars := mk_m2vars (v_hdr v) (v_atoms v) (v_bonds v) b (v_out v).
Definition is_tag (l : str) : Prop := exists nm r, strip l = "@" :: r /\ tripos_name (strip l) = Some nm.
Definition nontag (l : str) : Prop := tripos_name (strip l) = None.

Lemma set_skip_id v : set_skip (v_skip v) v = v.
Proof. destruct v; reflexivity. Qed.
Lemma set_skip_twice a b v : set_skip a (set_skip b v) = set_skip a v.
Proof. reflexivity. Qed.
Lemma is_sec_tag l s : is_sec l s -> is_tag l.
Proof. intros (nm & r & E1 & E2 & _). exists nm, r. auto. Qed.

Lemma tag_any_skip v b l : is_tag l -> m2step true (MRun MMain (set_skip b v)) l = m2step true (MRun MMain v) l.
Proof.
  intros (nm & r & E1 & E2). unfold m2step, m2main. rewrite E1 in *. rewrite E2.
  change (ascii_eqb "@" "#") with false. cbv iota. destruct v; reflexivity.
Qed.

Lemma tag_clears_skip v l s m v' : is_sec l s -> s <> SOther -> m2step true (MRun MMain v) l = MRun m v' -> v_skip v' = false.
Proof.
  intros (nm & r & E1 & E2 & E3) Hs. unfold m2step, m2main. rewrite E1 in *. rewrite E2, E3.
  change (ascii_eqb "@" "#") with false. cbv iota. destruct s; try contradiction; cbn [v_hdr v_atoms v_bonds v_skip v_out].
  - destruct (m2yield true _) as [w|e]; [|discriminate]. intros H. injection H as _ <-. reflexivity.
  - destruct (v_hdr v) as [h|]; [|discriminate]. destruct (nonempty_opt (v_atoms v)); cbn [andb]; [discriminate|].
    destruct (mh_natoms h <=? 0)%Z; intros H; injection H as _ <-; reflexivity.
  - destruct (v_hdr v) as [h|]; [|discriminate]. destruct (mh_nbonds h) as [nb|]; [|discriminate].
    destruct (nonempty_opt (v_bonds v)); cbn [andb]; [discriminate|].
    destruct (nb <=? 0)%Z; intros H; injection H as _ <-; reflexivity.
  - intros H. injection H as _ <-. reflexivity.
  - intros H. injection H as _ <-. reflexivity.
Qed.

Lemma step_other_sec v l : is_sec l SOther -> m2step true (MRun MMain v) l = MRun MMain (set_skip true v).
Proof.
  intros (nm & r & E1 & E2 & E3). unfold m2step, m2main. rewrite E1 in *. rewrite E2, E3.
  change (ascii_eqb "@" "#") with false. cbv iota. reflexivity.
Qed.
Lemma step_skipped v l : v_skip v = true -> nontag l -> m2step true (MRun MMain v) l = MRun MMain v.
Proof.
  intros Hs Hn. unfold m2step, m2main. unfold nontag in Hn. destruct (strip l) as [|c r]; [reflexivity|].
  destruct (ascii_eqb c "#"); [reflexivity|]. rewrite Hn, Hs. reflexivity.
Qed.
Lemma run_skipped body : Forall nontag body -> forall v, v_skip v = true -> m2run true (MRun MMain v) body = MRun MMain v.
Proof. induction 1 as [|l body Hl _ IH]; intros v Hs; [reflexivity|]. rewrite m2run_cons, step_skipped by assumption. now apply IH. Qed.

(* what the reader walks over without looking: blank / comment lines in main mode, unsupported blocks *)
Inductive skippable : list str -> Prop :=
| sk_nil : skippable []
| sk_ign l X : ignorable l -> skippable X -> skippable (l :: X)
| sk_sec lo body X : is_sec lo SOther -> Forall nontag body -> skippable X -> skippable (lo :: body ++ X).

Lemma run_skippable X : skippable X -> forall v, exists b, m2run true (MRun MMain v) X = MRun MMain (set_skip b v).
Proof.
  induction 1 as [|l X Hl _ IH|lo body X Hlo Hb _ IH]; intros v.
  - exists (v_skip v). now rewrite set_skip_id.
  - rewrite m2run_cons, step_ign by exact Hl. apply IH.
  - rewrite m2run_cons, step_other_sec by exact Hlo. rewrite <- m2run_app, run_skipped by (auto; reflexivity).
    destruct (IH (set_skip true v)) as [b E]. exists b. now rewrite E.
Qed.

Lemma finish_any_skip b v : m2finish true (MRun MMain (set_skip b v)) = m2finish true (MRun MMain v).
Proof.
  unfold m2finish, m2yield. cbn [set_skip v_hdr v_atoms v_bonds v_skip v_out].
  destruct (v_hdr v) as [h|]; [|reflexivity]. destruct (v_atoms v) as [ra|]; [|reflexivity]. destruct (v_bonds v) as [rb|]; [|reflexivity].
  destruct (len_is ra (mh_natoms h) && len_is rb (nb_of h)); reflexivity.
Qed.

Theorem unsupported_erasable pre X t rest v : m2run true m2init pre = MRun MMain v -> skippable X -> is_tag t ->
  read_mol2 true (pre ++ X ++ t :: rest) = read_mol2 true (pre ++ t :: rest).
Proof.
  intros Hpre HX Ht. unfold read_mol2. f_equal. rewrite <- !m2run_app, Hpre.
  destruct (run_skippable X HX v) as [b E]. rewrite E, !m2run_cons. now rewrite tag_any_skip.
Qed.
Theorem unsupported_erasable_end pre X v : m2run true m2init pre = MRun MMain v -> skippable X ->
  read_mol2 true (pre ++ X) = read_mol2 true pre.
Proof.
  intros Hpre HX. unfold read_mol2. rewrite <- m2run_app, Hpre. destruct (run_skippable X HX v) as [b E]. rewrite E.
  apply finish_any_skip.
Qed.

Lemma step_atom_sec_any v h la : v_hdr v = Some h -> is_sec la SAtom ->
  m2step true (MRun MMain v) la = MFail ESyntax \/
  m2step true (MRun MMain v) la =
    (if (mh_natoms h <=? 0)%Z then MRun MMain (V (Some h) (Some []) (v_bonds v) (v_out v))
     else MRun (MAtoms (Z.to_N (mh_natoms h))) (V (Some h) (Some []) (v_bonds v) (v_out v))).
Proof.
  intros Hh (nm & r & E1 & E2 & E3). unfold m2step, m2main. rewrite E1 in *. rewrite E2, E3.
  change (ascii_eqb "@" "#") with false. cbv iota. cbn [v_hdr v_atoms v_bonds v_skip v_out]. rewrite Hh.
  destruct (nonempty_opt (v_atoms v)); cbn [andb]; [left; reflexivity|right]. destruct (mh_natoms h <=? 0)%Z; reflexivity.
Qed.
Lemma step_bond_sec_any v h nb lb : v_hdr v = Some h -> mh_nbonds h = Some nb -> is_sec lb SBond ->
  m2step true (MRun MMain v) lb = MFail ESyntax \/
  m2step true (MRun MMain v) lb =
    (if (nb <=? 0)%Z then MRun MMain (V (Some h) (v_atoms v) (Some []) (v_out v))
     else MRun (MBonds (Z.to_N nb)) (V (Some h) (v_atoms v) (Some []) (v_out v))).
Proof.
  intros Hh Hnb (nm & r & E1 & E2 & E3). unfold m2step, m2main. rewrite E1 in *. rewrite E2, E3.
  change (ascii_eqb "@" "#") with false. cbv iota. cbn [v_hdr v_atoms v_bonds v_skip v_out]. rewrite Hh, Hnb.
  destruct (nonempty_opt (v_bonds v)); cbn [andb]; [left; reflexivity|right]. destruct (nb <=? 0)%Z; reflexivity.
Qed.

(* Whatever the prefix left in the variables, the ATOM (BOND) record is refused -- a second such section of the molecule -- or read
   exactly as from the same variables with an empty atom (bond) list: so the facts of Proofs/Parse.v about a section read from
   `V (Some h) (Some []) ..` apply to any main-loop state.  (step_*_sec read backwards folds the two branches into that one step.) *)
Lemma atom_sec_from v h la rest : v_hdr v = Some h -> is_sec la SAtom ->
  m2fails (MRun MMain (V (Some h) (Some []) (v_bonds v) (v_out v))) (la :: rest) -> m2fails (MRun MMain v) (la :: rest).
Proof.
  intros Hh Hla F. apply m2fails_step. destruct (step_atom_sec_any v h la Hh Hla) as [E|E]; rewrite E; [apply m2fails_fail|].
  rewrite <- (step_atom_sec h _ _ la Hla). exact F.
Qed.
Lemma bond_sec_from v h nb lb rest : v_hdr v = Some h -> mh_nbonds h = Some nb -> is_sec lb SBond ->
  m2fails (MRun MMain (V (Some h) (v_atoms v) (Some []) (v_out v))) (lb :: rest) -> m2fails (MRun MMain v) (lb :: rest).
Proof.
  intros Hh Hnb Hlb F. apply m2fails_step. destruct (step_bond_sec_any v h nb lb Hh Hnb Hlb) as [E|E]; rewrite E; [apply m2fails_fail|].
  rewrite <- (step_bond_sec h _ _ lb nb Hlb Hnb). exact F.
Qed.

Theorem surplus_after_atoms pre v h la als atoms x post :
  m2run true m2init pre = MRun MMain v -> v_hdr v = Some h -> is_sec la SAtom ->
  mh_natoms h = Z.of_nat (List.length atoms) -> Forall2 atom_line_of als atoms -> other_line x ->
  exists e, read_mol2 true (pre ++ la :: als ++ x :: post) = Err e.
Proof.
  intros Hpre Hh Hla Hna HFa Hx. apply (fails_read pre _ _ Hpre), (atom_sec_from v h); auto.
  unfold m2fails. rewrite (run_atoms_sec h atoms _ la als Hna Hla HFa). now apply fails_other.
Qed.

Theorem surplus_after_bonds pre v h lb bls bonds x post :
  m2run true m2init pre = MRun MMain v -> v_hdr v = Some h -> is_sec lb SBond ->
  mh_nbonds h = Some (Z.of_nat (List.length bonds)) -> Forall2 bond_line_of bls bonds -> other_line x ->
  exists e, read_mol2 true (pre ++ lb :: bls ++ x :: post) = Err e.
Proof.
  intros Hpre Hh Hlb Hnb HFb Hx. apply (fails_read pre _ _ Hpre), (bond_sec_from v h _ lb _ Hh Hnb Hlb).
  unfold m2fails. rewrite (run_bonds_sec h bonds _ lb bls Hnb Hlb HFb). now apply fails_other.
Qed.

Theorem too_many_atom_records pre v h la als atoms n post :
  m2run true m2init pre = MRun MMain v -> v_hdr v = Some h -> is_sec la SAtom ->
  mh_natoms h = Z.of_nat n -> Forall2 atom_line_of als atoms -> Forall other_line als -> (n < List.length als)%nat ->
  exists e, read_mol2 true (pre ++ la :: als ++ post) = Err e.
Proof.
  intros Hpre Hh Hla Hna HFa Hoth Hn. apply (fails_read pre _ _ Hpre), (atom_sec_from v h); auto.
  now apply (too_many_atoms h _ _ la als atoms n).
Qed.
Theorem too_many_bond_records pre v h lb bls bonds n post :
  m2run true m2init pre = MRun MMain v -> v_hdr v = Some h -> is_sec lb SBond ->
  mh_nbonds h = Some (Z.of_nat n) -> Forall2 bond_line_of bls bonds -> Forall other_line bls -> (n < List.length bls)%nat ->
  exists e, read_mol2 true (pre ++ lb :: bls ++ post) = Err e.
Proof.
  intros Hpre Hh Hlb Hnb HFb Hoth Hn. apply (fails_read pre _ _ Hpre), (bond_sec_from v h _ lb _ Hh Hnb Hlb).
  now apply (too_many_bonds h _ _ lb bls bonds n).
Qed.
