(* C06 -- chains of copy routes: a copy of a copy (of a copy ...) along rows that meet the specification is
   faithful to the object the chain started from on every field all steps have to reproduce, is separated from
   that object and from EVERY object that existed before the last step, and no step changes what any earlier
   object shows. *)
From Coq Require Import List Bool ZArith Lia.
Import ListNotations.
From Molli Require Import Model.Alias Model.AliasChain Proofs.Alias.

Lemma copy_wf : forall r g d h o h' o',
  heap_wf h -> row_indep r = true -> copy_row r g d h o = Some (h', o') -> heap_wf h'.
Proof.
  intros r g d h o h' o' Hwf Hind Hc.
  destruct (copy_regions false _ _ _ _ _ _ _ Hwf Hind ltac:(discriminate) Hc) as [_ [Hlt [_ [HA HB]]]].
  intros l Hl p Hp. destruct (Nat.lt_ge_cases l (length h)) as [Hlo|Hhi].
  - destruct (HB l Hlo) as [_ Hcl]. specialize (Hcl p Hp). simpl in Hcl. lia.
  - destruct (HA l (conj Hhi Hl)) as [_ Hcl]. specialize (Hcl p Hp). simpl in Hcl. lia.
Qed.

Lemma copy_old_untouched : forall r g d h o h' o',
  heap_wf h -> row_indep r = true -> copy_row r g d h o = Some (h', o') ->
  forall x, x < length h -> obs h' x = obs h x /\ separated h' o' x.
Proof.
  intros r g d h o h' o' Hwf Hind Hc x Hx.
  split; [|exact (copy_sep false _ _ _ _ _ _ _ Hwf Hind ltac:(discriminate) Hc x Hx)].
  destruct (copy_row_inv _ _ _ _ _ _ _ Hc) as [F [_ [_ [_ ->]]]]. apply app_obs_old; assumption.
Qed.

Lemma need_meet_full : forall nd, need_meet nd full_need = nd.
Proof. intros [a b c d e f]. unfold need_meet. simpl. rewrite !andb_true_r. reflexivity. Qed.

Lemma guarded_eq_trans : forall (x y : bool) A (a b c : A),
  (x = true -> b = a) -> (y = true -> c = b) -> x && y = true -> c = a.
Proof. intros x y A a b c H1 H2 H. apply andb_true_iff in H. destruct H as [Hx Hy]. rewrite (H2 Hy). exact (H1 Hx). Qed.

Lemma faithful_trans : forall n1 n2 a b c,
  faithful_on n1 a b -> faithful_on n2 b c -> faithful_on (need_meet n1 n2) a c.
Proof.
  intros n1 n2 a b c [A1 [A2 [A3 [A4 [A5 [A6 [A7 A8]]]]]]] [B1 [B2 [B3 [B4 [B5 [B6 [B7 B8]]]]]]].
  unfold faithful_on, need_meet. simpl.
  split; [congruence|]. split; [exact B2|].
  split; [|repeat split; eapply guarded_eq_trans; eassumption].
  intros Hn Hs. apply andb_true_iff in Hn. destruct Hn as [Hn1 Hn2].
  destruct (A3 Hn1 Hs) as [E1 _].
  (* the intermediate object has a bond table since the source has one *)
  assert (Hb : o_bonds b <> None).
  { intro Hb. rewrite Hb in E1. simpl in E1. destruct (o_bonds a); simpl in E1; [discriminate|contradiction]. }
  destruct (B3 Hn2 Hb) as [E2 F2]. split; [congruence|exact F2].
Qed.

Definition steps_ok (nds : list need) (steps : list step) : Prop :=
  Forall2 (fun nd s => row_ok nd (fst (fst s)) = true) nds steps.

Theorem chain_sound : forall steps nds h o h' o',
  steps <> [] -> steps_ok nds steps -> heap_wf h -> copy_chain steps h o = Some (h', o') ->
  heap_wf h' /\ length h <= length h'
  /\ (forall x, x < length h -> obs h' x = obs h x /\ separated h' o' x)
  /\ exists ob ob', obs h o = Some ob /\ obs h' o' = Some ob' /\ faithful_on (meet_all nds) ob ob'.
Proof.
  induction steps as [|s rest IH]; intros nds h o h' o' Hne Hok Hwf Hc; [congruence|].
  destruct s as [[r g] d]. inversion Hok as [|nd s' nds' rest' Hrow Hrest]; subst. simpl in Hrow.
  simpl in Hc. destruct (copy_row r g d h o) as [[h1 o1]|] eqn:Ec; [|discriminate].
  destruct (row_ok_inv _ _ Hrow) as [Hind _].
  pose proof (copy_wf _ _ _ _ _ _ _ Hwf Hind Ec) as Hwf1.
  destruct (copy_regions false _ _ _ _ _ _ _ Hwf Hind ltac:(discriminate) Ec) as [_ [Hlt _]].
  destruct (copy_row_sound _ _ _ _ _ _ _ _ Hwf Hrow Ec) as [_ [_ [ob [ob1 [Ho [_ [Ho1 [_ Hf]]]]]]]].
  destruct rest as [|s2 rest2].
  - simpl in Hc. inversion Hc; subst h' o'. inversion Hrest; subst.
    split; [exact Hwf1|]. split; [lia|].
    split; [apply (copy_old_untouched _ _ _ _ _ _ _ Hwf Hind Ec)|].
    exists ob, ob1. split; [exact Ho|]. split; [exact Ho1|]. simpl. rewrite need_meet_full. exact Hf.
  - assert (Hne2 : s2 :: rest2 <> []) by discriminate.
    destruct (IH nds' h1 o1 h' o' Hne2 Hrest Hwf1 Hc) as [Hwf' [Hlen [Hold [ob1' [ob' [Ho1' [Ho' Hf']]]]]]].
    split; [exact Hwf'|]. split; [lia|].
    split.
    + intros x Hx. assert (Hx1 : x < length h1) by lia. destruct (Hold x Hx1) as [E S]. split; [|exact S].
      rewrite E. apply (copy_old_untouched _ _ _ _ _ _ _ Hwf Hind Ec). exact Hx.
    + rewrite Ho1 in Ho1'. inversion Ho1'; subst ob1'.
      exists ob, ob'. split; [exact Ho|]. split; [exact Ho'|]. simpl. apply (faithful_trans _ _ _ ob1); assumption.
Qed.

(* chains of tabulated routes: k0 -r1-> dst_of k0 r1 -r2-> ... *)
Lemma route_chain_ok : forall known t, table_ok known t = true ->
  forall rs k ss ns, route_chain t known k rs = Some (ss, ns) -> steps_ok ns ss /\ length ss = length rs.
Proof.
  intros known t Ht. induction rs as [|[r g] rest IH]; intros k ss ns H; simpl in H.
  - inversion H; subst. split; [constructor|reflexivity].
  - destruct (lookup_row t k r) as [x|] eqn:El; [|discriminate].
    destruct (route_chain t known (dst_of k r) rest) as [[ss' ns']|] eqn:Er; [|discriminate].
    destruct (lone k) eqn:Elone; [discriminate|]. inversion H; subst.
    destruct (IH _ _ _ Er) as [I1 I2]. split; [|simpl; congruence].
    constructor; [|exact I1]. exact (proj1 (table_row_ok known t Ht k r x El) Elone).
Qed.

