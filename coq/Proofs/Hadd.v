(* C16: lemmas about Model/Hadd.v, in three parts, each opening with the libraries it needs: over any field, the count
   formula, the regenerated tables, what the loop of one call appends (hadd_post_gen), repeated calls and sessions; over R
   (Reals, Field3R, Proofs/Rot), the placement geometry; in module C05link (MolEdit), the prefix property of C05's AddHs. *)
From Coq Require Import List ZArith QArith Qround Lia.
From Molli Require Import Common.Field3 Common.HExpr Model.Rot Gen.Valence Gen.HaddExpr Model.Hadd.
Import ListNotations.

(* the extracted expression (tie S) denotes the specification, for ALL integer attributes and ALL rational
   bonded valences: ceil(bv) is one opaque integer on both sides, the rest is linear arithmetic with abs/max *)
Lemma hs_expr_is_spec : forall v : henv, denote v hs_expr = count_spec v.
Proof.
  intros [ve fc spin bv]. unfold hs_expr, count_spec. cbn [denote v_ve v_fc v_spin v_bv].
  generalize (Qceiling bv). lia.
Qed.

Lemma row_ok_sound z g ve cov s : row_ok (z, g, ve, cov, s) = true ->
  (s = true -> exists gz rq, g = Some gz /\ (13 <= gz <= 16)%Z /\ ve = Some (gz - 10)%Z /\ cov = Some rq /\ (0 < rq)%Q) /\
  (forall gz, g = Some gz -> (13 <= gz <= 16)%Z -> s = true).
Proof.
  unfold row_ok. rewrite andb_true_iff, eqb_true_iff. intros [-> H2]. split.
  - intros Hs. rewrite Hs in H2. destruct g as [gz|], ve as [v|], cov as [rq|]; try discriminate.
    apply andb_true_iff in Hs, H2. rewrite !Z.leb_le in Hs. destruct H2 as [->%Z.eqb_eq R%negb_true_iff].
    exists gz, rq. repeat split; try apply Hs. apply Qnot_le_lt. rewrite <- Qle_bool_iff. congruence.
  - intros gz -> R. apply andb_true_iff. rewrite !Z.leb_le. exact R.
Qed.

Lemma el_row_ok z r : elements_ok = true -> el_row z = Some r -> row_ok r = true.
Proof. intros Hok E. apply find_some in E. exact (proj1 (forallb_forall _ _) Hok r (proj1 E)). Qed.

Local Open Scope nat_scope.
(* hydrogens actually added for a computed count k: k of them for 1..4, none otherwise *)
Definition n_added (k : Z) : nat := if ((0 <? k) && (k <=? 4))%Z then Z.to_nat k else 0%nat.
Definition added_to (t : nat) (nbs : list hbond) : nat := length (filter (fun b => Nat.eqb (hb_a1 b) t) nbs).

Lemma n_added_exact k : (0 <= k <= 4)%Z -> Z.of_nat (n_added k) = k.
Proof. intros H. unfold n_added. destruct (Z.ltb_spec 0 k), (Z.leb_spec k 4); cbn [andb]; lia. Qed.
Lemma n_added_nonpos k : (k <= 0)%Z -> n_added k = 0.
Proof. intros H. unfold n_added. destruct (Z.ltb_spec 0 k); [lia | reflexivity]. Qed.
(* why a second call adds nothing: with c >= 0 valences taken the formula is within 0..4, so all of it is placed; c grows by
   that much and the formula gives 0 *)
Lemma formula_settles (x c : Z) : (0 <= c)%Z ->
  let k := Z.max 0 (4 - Z.abs x - c) in Z.max 0 (4 - Z.abs x - (c + Z.of_nat (n_added k))) = 0%Z.
Proof. intros Hc k. subst k. rewrite n_added_exact; lia. Qed.

Lemma set_nth_length {A} (x : A) : forall l i, length (set_nth i x l) = length l.
Proof. induction l as [|y l IH]; intros [|i]; simpl; auto. Qed.
Lemma set_nth_same {A} (x : A) : forall l i, i < length l -> nth_error (set_nth i x l) i = Some x.
Proof. induction l as [|y l IH]; intros [|i] H; simpl in *; try lia; auto. apply IH. lia. Qed.
Lemma set_nth_other {A} (x : A) : forall l i j, i <> j -> nth_error (set_nth i x l) j = nth_error l j.
Proof. induction l as [|y l IH]; intros [|i] [|j] H; simpl; auto; try lia. Qed.
Lemma set_nth_app {A} (x : A) : forall l r i, i < length l -> set_nth i x (l ++ r) = set_nth i x l ++ r.
Proof. induction l as [|y l IH]; intros r [|i] H; simpl in *; try lia; auto. f_equal. apply IH. lia. Qed.
Lemma set_nth_id {A} : forall (l : list A) i x, nth_error l i = Some x -> set_nth i x l = l.
Proof. induction l as [|y l IH]; intros [|i] x H; simpl in *; try discriminate; f_equal; auto. congruence. Qed.
Lemma map_set_nth {A B} (f : A -> B) x : forall l i, map f (set_nth i x l) = set_nth i (f x) (map f l).
Proof. induction l as [|y l IH]; intros [|i]; simpl; f_equal; auto. Qed.

Lemma clear_hint_idem a : clear_hint (clear_hint a) = clear_hint a.
Proof. reflexivity. Qed.
Lemma clear_hint_h : clear_hint h_atom = h_atom.
Proof. reflexivity. Qed.
Lemma clear_hint_none a : ha_hint a = None -> clear_hint a = a.
Proof. destruct a. cbn. intros ->. reflexivity. Qed.
Lemma new_bond_a1 i j : hb_a1 (new_bond i j) = i. Proof. reflexivity. Qed.
Lemma new_bond_a2 i j : hb_a2 (new_bond i j) = j. Proof. reflexivity. Qed.
Lemma new_bond_order i j : order_of (new_bond i j) = 1%Q. Proof. reflexivity. Qed.

Lemma added_to_app t l r : added_to t (l ++ r) = added_to t l + added_to t r.
Proof. unfold added_to. rewrite filter_app, app_length. reflexivity. Qed.
Lemma added_to_new_same t n k : added_to t (map (new_bond t) (seq n k)) = k.
Proof.
  unfold added_to. revert n. induction k as [|k IH]; intros n; [reflexivity|].
  cbn [seq map filter]. rewrite new_bond_a1, Nat.eqb_refl. cbn [length]. f_equal. apply IH.
Qed.
Lemma added_to_none t nbs : Forall (fun b => hb_a1 b <> t) nbs -> added_to t nbs = 0.
Proof.
  unfold added_to. induction 1 as [|b l Hb%Nat.eqb_neq _ IH]; [reflexivity|]. cbn [filter]. rewrite Hb. exact IH.
Qed.

(* bonds whose second ends are the atoms n, n+1, ... : such a bond touches an older atom t only with its first end,
   so appending them changes the count of t only if some of them start at t *)
Lemma a2_from_seq nbs n : map hb_a2 nbs = seq n (length nbs) -> Forall (fun b => n <= hb_a2 b) nbs.
Proof.
  intros H. apply Forall_forall. intros b Hb%(in_map hb_a2). rewrite H in Hb. apply in_seq in Hb. lia.
Qed.
Lemma incident_far t n nbs : t < n -> Forall (fun b => n <= hb_a2 b) nbs ->
  filter (incident t) nbs = filter (fun b => Nat.eqb (hb_a1 b) t) nbs.
Proof.
  intros Ht Hn. apply filter_ext_in. intros b Hb. rewrite Forall_forall in Hn. specialize (Hn b Hb).
  unfold incident. replace (Nat.eqb (hb_a2 b) t) with false; [apply orb_false_r|]. symmetry. apply Nat.eqb_neq. lia.
Qed.
Lemma count_of_app_other bonds nbs t a n : t < n -> Forall (fun b => n <= hb_a2 b) nbs -> added_to t nbs = 0 ->
  count_of (bonds ++ nbs) t a = count_of bonds t a.
Proof.
  intros Ht Hn Hz%length_zero_iff_nil. unfold count_of, atom_env, bonded_valence.
  rewrite filter_app, (incident_far t n nbs), Hz, app_nil_r by assumption. reflexivity.
Qed.

Lemma Qfloor_shift (x : Q) (k : Z) : Qfloor (x + inject_Z k) = (Qfloor x + k)%Z.
Proof.
  destruct x as [xn xd]. unfold Qfloor, Qplus, inject_Z. cbn [Qnum Qden].
  rewrite Pos.mul_1_r, Z.mul_1_r. apply Z_div_plus. reflexivity.
Qed.
Lemma Qceiling_shift (x : Q) (k : Z) : Qceiling (x + inject_Z k) = (Qceiling x + k)%Z.
Proof.
  unfold Qceiling. rewrite (Qfloor_comp _ (- x + inject_Z (- k))), Qfloor_shift by (rewrite inject_Z_opp; ring). lia.
Qed.
Lemma Qceiling_nonneg (x : Q) : (0 <= x)%Q -> (0 <= Qceiling x)%Z.
Proof. exact (Qceiling_resp_le 0 x). Qed.

Definition osum (l : list hbond) (x : Q) : Q := fold_left (fun s b => (s + order_of b)%Q) l x.
Lemma bonded_valence_osum bonds t : bonded_valence bonds t = osum (filter (incident t) bonds) 0.
Proof. reflexivity. Qed.
Lemma osum_nonneg : forall l x, (0 <= x)%Q -> (forall b, In b l -> (0 <= order_of b)%Q) -> (0 <= osum l x)%Q.
Proof.
  induction l as [|b l IH]; intros x Hx Hl; [exact Hx|]. cbn [osum fold_left]. apply IH.
  - rewrite <- (Qplus_0_r 0). apply Qplus_le_compat; [exact Hx | apply Hl; left; reflexivity].
  - intros b' Hb'. apply Hl. right. exact Hb'.
Qed.
Lemma osum_ones : forall l x, (forall b, In b l -> order_of b = 1%Q) ->
  (osum l x == x + inject_Z (Z.of_nat (length l)))%Q.
Proof.
  induction l as [|b l IH]; intros x Hl; cbn [osum fold_left length].
  - cbn. ring.
  - rewrite IH, (Hl b (or_introl eq_refl)), Nat2Z.inj_succ by (intros b' Hb'; apply Hl; right; exact Hb').
    unfold Z.succ. rewrite inject_Z_plus. ring.
Qed.

Lemma bonded_valence_nonneg bonds t : (forall b, In b bonds -> (0 <= order_of b)%Q) -> (0 <= bonded_valence bonds t)%Q.
Proof. intros Ho. rewrite bonded_valence_osum. apply osum_nonneg; [apply Qle_refl|]. intros b Hb%filter_In. apply Ho, Hb. Qed.

Lemma bonded_valence_new bonds nbs t n : t < n ->
  Forall (fun b => n <= hb_a2 b) nbs -> (forall b, In b nbs -> order_of b = 1%Q) ->
  (bonded_valence (bonds ++ nbs) t == bonded_valence bonds t + inject_Z (Z.of_nat (added_to t nbs)))%Q.
Proof.
  intros Ht Hn H1. rewrite !bonded_valence_osum, filter_app, (incident_far t n nbs) by assumption.
  unfold osum at 1. rewrite fold_left_app.
  apply osum_ones. intros b Hb%filter_In. apply H1, Hb.
Qed.

Lemma indices_from_map {A B} (f : A -> B) (q : B -> bool) : forall l i,
  indices_from (fun a => q (f a)) i l = indices_from q i (map f l).
Proof. induction l as [|a l IH]; intros i; cbn [map indices_from]; [|rewrite IH]; reflexivity. Qed.
Lemma indices_from_app_false {A} (p : A -> bool) x n : p x = false -> forall l i,
  indices_from p i (l ++ repeat x n) = indices_from p i l.
Proof.
  intros Hx. induction l as [|a l IH]; intros i.
  - cbn [app]. revert i. induction n as [|n IHn]; intros i; [reflexivity|]. cbn [repeat indices_from]. rewrite Hx. apply IHn.
  - cbn [app indices_from]. rewrite IH. reflexivity.
Qed.
Lemma indices_from_spec {A} (p : A -> bool) : forall l i t, In t (indices_from p i l) ->
  i <= t < i + length l /\ exists a, nth_error l (t - i) = Some a /\ p a = true.
Proof.
  induction l as [|a l IH]; intros i t H; [destruct H|]. cbn [indices_from length] in *.
  assert (Tl : In t (indices_from p (S i) l) ->
               i <= t < i + S (length l) /\ exists a', nth_error (a :: l) (t - i) = Some a' /\ p a' = true).
  { intros [R E]%IH. split; [lia|]. replace (t - i) with (S (t - S i)) by lia. exact E. }
  destruct (p a) eqn:Pa; [destruct H as [<-|H]|]; auto.
  split; [lia|]. rewrite Nat.sub_diag. exists a. auto.
Qed.
Lemma indices_from_nodup {A} (p : A -> bool) : forall l i, NoDup (indices_from p i l).
Proof.
  induction l as [|a l IH]; intros i; [constructor|]. cbn [indices_from].
  destruct (p a); [|apply IH]. constructor; [|apply IH]. intros H%indices_from_spec. lia.
Qed.

Lemma default_targets_lt (A : list hatom) t : In t (default_targets A) -> t < length A.
Proof. intros Ht%indices_from_spec. lia. Qed.
(* the default selection looks at elements only: hints do not matter, appended hydrogens are not selected *)
Lemma default_targets_clear A : default_targets (map clear_hint A) = default_targets A.
Proof. symmetry. exact (indices_from_map clear_hint (fun a => el_sel (ha_el a)) A 0). Qed.
Lemma default_targets_hs A n : default_targets (A ++ repeat h_atom n) = default_targets A.
Proof. apply indices_from_app_false. reflexivity. Qed.

Section Calls.
Context {F : Type} (o : Fops F).

Lemma append_hs_spec : forall ps (m : hmol F) i,
  append_hs m i ps = mkHM (hm_atoms m ++ repeat h_atom (length ps))
                          (hm_bonds m ++ map (new_bond i) (seq (length (hm_atoms m)) (length ps))) (hm_xyz m ++ ps).
Proof.
  induction ps as [|p ps IH]; intros [A B X] i; unfold append_hs in *; cbn [fold_left].
  - cbn. rewrite !app_nil_r. reflexivity.
  - rewrite IH. cbn [hm_atoms hm_bonds hm_xyz length repeat seq map].
    rewrite app_length, Nat.add_1_r, <- !app_assoc. reflexivity.
Qed.

Lemma place_length (tet : list (vec F)) a nb L k w : length tet = 4 ->
  length (place o tet a nb L k w) = n_added k.
Proof.
  intros Ht. destruct tet as [|t0 [|t1 [|t2 [|t3 [|]]]]]; try discriminate.
  (* k <= 4 by computation; a larger k falls through the match of `place` *)
  destruct k as [|p|p]; try reflexivity.
  destruct p as [[p|p|]|[[p|p|]|[p|p|]|]|]; try reflexivity;
    unfold n_added; rewrite (proj2 (Z.leb_gt _ 4)) by lia; reflexivity.
Qed.

Lemma hadd_one_spec (m m' : hmol F) i w : hadd_one o m i w = Some m' ->
  exists a k ps, nth_error (hm_atoms m) i = Some a /\ count_of (hm_bonds m) i a = Some k /\
    ps = (if (0 <? k)%Z then positions o m i a k w else []) /\ length ps = n_added k /\
    m' = mkHM (set_nth i (clear_hint a) (hm_atoms m) ++ repeat h_atom (n_added k))
              (hm_bonds m ++ map (new_bond i) (seq (length (hm_atoms m)) (n_added k))) (hm_xyz m ++ ps).
Proof.
  unfold hadd_one. destruct (nth_error (hm_atoms m) i) as [a|]; [|discriminate].
  destruct (count_of (hm_bonds m) i a) as [k|] eqn:Hk; [|discriminate].
  intros H. exists a, k. eexists. split; [reflexivity|]. split; [exact Hk|]. split; [reflexivity|].
  assert (Hl : length (if (0 <? k)%Z then positions o m i a k w else []) = n_added k).
  { destruct (Z.ltb_spec 0 k); [apply place_length; reflexivity | symmetry; apply n_added_nonpos; assumption]. }
  split; [exact Hl|]. rewrite <- Hl. destruct (0 <? k)%Z; injection H as <-.
  - rewrite append_hs_spec. cbn [hm_atoms hm_bonds hm_xyz]. rewrite set_nth_length. reflexivity.
  - cbn. rewrite !app_nil_r. reflexivity.
Qed.

(* the whole loop.  Before it the atom list is `A ++ (e hydrogens added so far)`; targets are positions of A.
   What it leaves, given the old atoms A' as they are afterwards, the new bonds and the new rows: *)
Set Implicit Arguments.
Record hadd_shape (A : list hatom) (e : nat) (ts : list nat) (m m' : hmol F)
                  (A' : list hatom) (nbs : list hbond) (ps : list (vec F)) : Prop := {
  (* atoms: the old ones (only the hints of the targets are consumed), then one plain hydrogen per new bond *)
  hp_atoms : hm_atoms m' = A' ++ repeat h_atom (e + length nbs);
  hp_length : length A' = length A;
  hp_clear : map clear_hint A' = map clear_hint A;
  hp_other : forall j, ~ In j ts -> nth_error A' j = nth_error A j;
  hp_target : forall j, In j ts -> nth_error A' j = option_map clear_hint (nth_error A j);
  (* bonds: the old ones, then bond number j joins a target to new hydrogen number j *)
  hp_bonds : hm_bonds m' = hm_bonds m ++ nbs;
  hp_a2 : map hb_a2 nbs = seq (e + length A) (length nbs);
  hp_new : Forall (fun b => In (hb_a1 b) ts /\ b = new_bond (hb_a1 b) (hb_a2 b)) nbs;
  (* coordinates: the old rows, then one row per new hydrogen *)
  hp_xyz : hm_xyz m' = hm_xyz m ++ ps;
  hp_rows : length ps = length nbs;
  (* every target receives exactly the count computed on the molecule as it was before the call *)
  hp_count : forall t a, In t ts -> nth_error A t = Some a ->
               exists k, count_of (hm_bonds m) t a = Some k /\ added_to t nbs = n_added k }.
Unset Implicit Arguments.
Definition hadd_post (A : list hatom) (e : nat) (ts : list nat) (m m' : hmol F) : Prop :=
  exists A' nbs ps, hadd_shape A e ts m m' A' nbs ps.

(* the loop invariant: hadd_post for a run that starts after e hydrogens have been appended *)
Lemma hadd_post_gen : forall ts ws (m m' : hmol F) A e,
  hm_atoms m = A ++ repeat h_atom e ->
  (forall t, In t ts -> t < length A) -> NoDup ts ->
  hadd o m ts ws = Some m' -> hadd_post A e ts m m'.
Proof.
  induction ts as [|t ts IH]; intros ws m m' A e HA Hlt Hnd H; cbn [hadd] in H.
  - injection H as <-. exists A, [], []. constructor; cbn [length]; rewrite ?Nat.add_0_r, ?app_nil_r; auto;
      [intros j [] | intros t a []].
  - destruct ws as [|w ws]; [discriminate|].
    destruct (hadd_one o m t w) as [m1|] eqn:H1; [|discriminate].
    destruct (hadd_one_spec m m1 t w H1) as [a [k [ps1 [Ha [Hk [_ [Lp1 ->]]]]]]].
    pose proof (Hlt t (or_introl eq_refl)) as Ht. apply NoDup_cons_iff in Hnd. destruct Hnd as [Hnin Hnd].
    rewrite HA, nth_error_app1 in Ha by exact Ht.
    replace (length (hm_atoms m)) with (e + length A) in H by (rewrite HA, app_length, repeat_length; apply Nat.add_comm).
    set (n := n_added k) in *. set (A1 := set_nth t (clear_hint a) A).
    set (nb1 := map (new_bond t) (seq (e + length A) n)) in *.
    (* the step's own bonds: n of them, from t to the atoms e + length A, ... *)
    assert (LA1 : length A1 = length A) by apply set_nth_length.
    assert (Ln1 : length nb1 = n) by (unfold nb1; rewrite map_length; apply seq_length).
    assert (S1 : map hb_a2 nb1 = seq (e + length A) n) by (unfold nb1; rewrite map_map; apply map_id).
    assert (Own : Forall (fun b => hb_a1 b = t /\ b = new_bond (hb_a1 b) (hb_a2 b)) nb1).
    { apply Forall_forall. intros b Hb. apply in_map_iff in Hb. destruct Hb as [j [<- _]]. split; reflexivity. }
    apply (IH ws _ m' A1 (e + n)) in H as [A' [nbs [ps P]]];
      [ | cbn [hm_atoms]; rewrite HA, set_nth_app by exact Ht; rewrite <- app_assoc, <- repeat_app; reflexivity
      | intros t0 H0; rewrite LA1; apply Hlt; right; exact H0 | exact Hnd ].
    pose proof (hp_bonds P) as P6. pose proof (hp_new P) as P8. cbn [hm_bonds] in P6.
    (* ... the later bonds start at later targets, so `added_to` splits *)
    assert (Z1 : added_to t nbs = 0).
    { apply added_to_none. eapply Forall_impl; [|exact P8]. intros b [Hb _] E. rewrite E in Hb. contradiction. }
    exists A', (nb1 ++ nbs), (ps1 ++ ps). constructor; rewrite ?app_length, ?Ln1.
    + rewrite (hp_atoms P), Nat.add_assoc. reflexivity.
    + rewrite (hp_length P). exact LA1.
    + rewrite (hp_clear P). unfold A1. rewrite map_set_nth, clear_hint_idem. apply set_nth_id, map_nth_error, Ha.
    + intros j Hj. cbn [In] in Hj. rewrite (hp_other P) by tauto. apply set_nth_other. tauto.
    + intros j [<-|Hj].
      * rewrite (hp_other P) by exact Hnin. unfold A1. rewrite set_nth_same, Ha by exact Ht. reflexivity.
      * rewrite (hp_target P) by exact Hj. unfold A1. rewrite set_nth_other; [reflexivity|]. intros ->. contradiction.
    + rewrite P6, <- app_assoc. reflexivity.
    + rewrite map_app, S1, (hp_a2 P), LA1, seq_app. do 2 f_equal. lia.
    + apply Forall_app. split; [eapply Forall_impl; [|exact Own] | eapply Forall_impl; [|exact P8]];
        intros b [Hb1 Hb2]; split; cbn [In]; auto.
    + rewrite (hp_xyz P). cbn [hm_xyz]. rewrite <- app_assoc. reflexivity.
    + rewrite Lp1, (hp_rows P). reflexivity.
    + intros t0 a0 [<-|H0] Ha0; rewrite added_to_app.
      * exists k. rewrite Ha in Ha0. injection Ha0 as <-. split; [exact Hk|].
        unfold nb1. rewrite added_to_new_same, Z1. lia.
      * assert (Hne : t <> t0) by (intros ->; contradiction).
        assert (Z0 : added_to t0 nb1 = 0).
        { apply added_to_none. eapply Forall_impl; [|exact Own]. intros b [Hb _]. congruence. }
        destruct (hp_count P t0 (a:=a0) H0) as [k0 [Hk0 Hadd0]]; [unfold A1; rewrite set_nth_other by exact Hne; exact Ha0|].
        exists k0. rewrite Z0, Hadd0. split; [|reflexivity]. cbn [hm_bonds] in Hk0.
        rewrite <- Hk0. symmetry. apply (count_of_app_other _ _ _ _ (e + length A)); [| |exact Z0].
        -- specialize (Hlt t0 (or_intror H0)). lia.
        -- apply a2_from_seq. rewrite S1, Ln1. reflexivity.
Qed.

(* the whole call, from the initial molecule *)
Theorem hadd_main (m m' : hmol F) ts ws :
  (forall t, In t ts -> t < length (hm_atoms m)) -> NoDup ts ->
  hadd o m ts ws = Some m' -> hadd_post (hm_atoms m) 0 ts m m'.
Proof. intros Hlt Hnd H. apply (hadd_post_gen ts ws); [symmetry; apply app_nil_r | assumption..]. Qed.

Theorem hadd_idempotent (m m' : hmol F) ws :
  (forall a, In a (hm_atoms m) -> ha_hint a = None) ->
  (forall b, In b (hm_bonds m) -> (0 <= order_of b)%Q) ->
  hadd o m (default_targets (hm_atoms m)) ws = Some m' ->
  default_targets (hm_atoms m') = default_targets (hm_atoms m) /\
  forall t a', In t (default_targets (hm_atoms m')) -> nth_error (hm_atoms m') t = Some a' ->
    count_of (hm_bonds m') t a' = Some 0%Z.
Proof.
  intros Hh Ho H. set (ts := default_targets (hm_atoms m)) in *.
  destruct (hadd_main m m' ts ws) as [A' [nbs [ps P]]];
    [apply default_targets_lt | apply indices_from_nodup | exact H |].
  assert (Ets : default_targets (hm_atoms m') = ts).
  { rewrite (hp_atoms P), default_targets_hs, <- default_targets_clear, (hp_clear P). apply default_targets_clear. }
  split; [exact Ets|]. rewrite Ets. intros t a' Ht Ha'. pose proof (default_targets_lt _ _ Ht) as Htl.
  rewrite (hp_atoms P), nth_error_app1, (hp_target P t Ht) in Ha' by (rewrite (hp_length P); exact Htl).
  destruct (nth_error (hm_atoms m) t) as [a|] eqn:Ha; [|discriminate]. injection Ha' as <-.
  destruct (hp_count P t Ht Ha) as [k [Hk Hadd]].
  (* without a hint both counts are the formula; the bonded valence has grown by the n_added k new single bonds *)
  unfold count_of in Hk |- *. cbn [clear_hint ha_hint ha_el]. rewrite (Hh a (nth_error_In _ _ Ha)) in Hk.
  destruct (el_ve (ha_el a)) as [ve|]; [|discriminate]. rewrite hs_expr_is_spec in Hk |- *. f_equal.
  injection Hk as Hk. unfold count_spec, atom_env in Hk |- *.
  cbn [v_ve v_fc v_spin v_bv clear_hint ha_fc ha_spin] in Hk |- *.
  assert (H1 : forall b, In b nbs -> order_of b = 1%Q).
  { intros b Hb. destruct (proj1 (Forall_forall _ _) (hp_new P) b Hb) as [_ ->]. apply new_bond_order. }
  rewrite (hp_bonds P), (Qceiling_comp _ _ (bonded_valence_new _ nbs t _ Htl (a2_from_seq _ _ (hp_a2 P)) H1)), Qceiling_shift, Hadd.
  subst k. apply formula_settles, Qceiling_nonneg, bonded_valence_nonneg, Ho.
Qed.

(* the trace of a session, spelled out: the molecule before a call is the one the preceding step left (the caller's
   edit, or the result of the preceding call), and the result is `hadd` on THAT molecule -- nothing remembered
   from earlier calls or from the molecule as it was before the edits enters *)
Fixpoint chained (m : hmol F) (steps : list (sstep F)) (tr : list (hmol F * list nat * hmol F)) : Prop :=
  match steps with
  | [] => tr = []
  | SEdit m' :: r => chained m' r tr
  | SCall tg ws :: r =>
      match tr with
      | (b, ts, a) :: tr' => b = m /\ ts = targets_of tg m /\ hadd o m ts ws = Some a /\ chained a r tr'
      | [] => False
      end
  end.

Lemma run_session_chained : forall steps (m : hmol F) tr, run_session o m steps = Some tr -> chained m steps tr.
Proof.
  induction steps as [|[tg ws|m1] r IH]; intros m tr H; cbn [run_session chained] in *.
  - injection H as <-. reflexivity.
  - destruct (hadd o m (targets_of tg m) ws) as [m'|] eqn:E; [|discriminate].
    destruct (run_session o m' r) as [tr'|] eqn:E2; [|discriminate].
    injection H as <-. auto.
  - apply IH. exact H.
Qed.

(* what every call of every session does, in terms of the molecule b it was called on (as the edits left it):
   only hydrogens are appended, and each target receives n_added of the count computed from b's CURRENT element,
   charge, spin, hint and bonds *)
Definition call_ok (c : hmol F * list nat * hmol F) : Prop :=
  let b := fst (fst c) in let ts := snd (fst c) in let a := snd c in
  (forall t, In t ts -> t < length (hm_atoms b)) -> NoDup ts ->
  exists A' nbs ps,
    hm_atoms a = A' ++ repeat h_atom (length nbs) /\ map clear_hint A' = map clear_hint (hm_atoms b) /\
    hm_bonds a = hm_bonds b ++ nbs /\
    Forall (fun nb => In (hb_a1 nb) ts /\ nb = new_bond (hb_a1 nb) (hb_a2 nb)) nbs /\
    hm_xyz a = hm_xyz b ++ ps /\ length ps = length nbs /\
    forall t x, In t ts -> nth_error (hm_atoms b) t = Some x ->
      exists k, count_of (hm_bonds b) t x = Some k /\ added_to t nbs = n_added k.

Lemma hadd_zero : forall ts ws (m : hmol F), length ws = length ts ->
  (forall t, In t ts -> exists a, nth_error (hm_atoms m) t = Some a /\ ha_hint a = None /\ count_of (hm_bonds m) t a = Some 0%Z) ->
  hadd o m ts ws = Some m.
Proof.
  induction ts as [|t ts IH]; intros [|w ws] m Hl Hz; try discriminate; [reflexivity|]. cbn [hadd].
  destruct (Hz t (or_introl eq_refl)) as [a [Ha [Hh Hk]]].
  replace (hadd_one o m t w) with (Some m).
  - apply IH; [injection Hl; auto|]. intros t' Ht'. apply Hz. right. exact Ht'.
  - unfold hadd_one. rewrite Ha, Hk, (clear_hint_none a Hh), (set_nth_id _ _ _ Ha). destruct m; reflexivity.
Qed.

(* the two hypotheses of idempotence survive a call *)
Lemma hadd_keeps_domain (m m' : hmol F) ts ws :
  (forall t, In t ts -> t < length (hm_atoms m)) -> NoDup ts -> hadd o m ts ws = Some m' ->
  (forall a, In a (hm_atoms m) -> ha_hint a = None) -> (forall b, In b (hm_bonds m) -> (0 <= order_of b)%Q) ->
  (forall a, In a (hm_atoms m') -> ha_hint a = None) /\ (forall b, In b (hm_bonds m') -> (0 <= order_of b)%Q).
Proof.
  intros Hlt Hnd H Hh Ho.
  destruct (hadd_main m m' ts ws Hlt Hnd H) as [A' [nbs [ps P]]].
  rewrite (hp_atoms P), (hp_bonds P). split.
  - intros a [[j Hj]%In_nth_error | ->%repeat_spec]%in_app_or; [|reflexivity].
    destruct (in_dec Nat.eq_dec j ts) as [Hin|Hnin].
    + rewrite (hp_target P j Hin) in Hj. destruct (nth_error (hm_atoms m) j); [|discriminate]. injection Hj as <-. reflexivity.
    + rewrite (hp_other P j Hnin) in Hj. apply Hh. eapply nth_error_In. exact Hj.
  - intros b [Hb|Hb]%in_app_or; [apply Ho; exact Hb|].
    destruct (proj1 (Forall_forall _ _) (hp_new P) b Hb) as [_ ->]. discriminate.
Qed.

End Calls.

From Coq Require Import Reals Lra.
From Molli Require Import Common.Field3R Proofs.Rot.
Local Open Scope list_scope.
Local Open Scope R_scope.

(* v = n (v / n): a product with v is n times the product with the normalised vector *)
Lemma dot_unscale (x v : vecR) (n : R) : n <> 0 -> dot ROps x v = n * dot ROps x (vdiv ROps v n).
Proof. intros H. rewrite dot_vdiv_r. field. exact H. Qed.
Lemma vsub_as_vadd (x y : vecR) (k : R) : vsub ROps x (vscale ROps k y) = vadd ROps x (vscale ROps (- k) y).
Proof. vdestruct. f3. veq; ring. Qed.

(* v points at c: v . c = |v|^2, as hvec_raw does for c = centroid of the neighbours - atom (hvec_avg, hvec_three) *)
Definition towards (v c : vecR) : Prop := dot ROps v c = norm2 ROps v.

(* one hydrogen: a - L v/|v| *)
Theorem place_one (tet : list vecR) (a : vecR) (nb : list vecR) (L : R) (w : wit R) :
  let v := hvec_raw ROps a nb (w_nrm w) in
  0 < w_n w -> w_n w * w_n w = norm2 ROps v ->
  exists h, place ROps tet a nb L 1 w = [h] /\ dist2 ROps h a = L * L /\
            forall c, towards v c -> dot ROps (vsub ROps h a) c = - L * w_n w.
Proof.
  intros v Hn E. eexists. split; [reflexivity|]. fold v. clearbody v. unfold towards, norm2 in *.
  assert (Hn' : w_n w <> 0) by lra. revert E Hn'. generalize (w_n w). clear. intros n E Hn'.
  (* |h - a|^2 = L^2 (v.v) / n^2  and  (h - a).c = - L (v.c) / n *)
  split; [|intros c Hc].
  - transitivity (L * L * (dot ROps v v / (n * n))); [vdestruct; f3; field; exact Hn' | rewrite <- E; field; exact Hn'].
  - transitivity (- L * (dot ROps v c / n)); [vdestruct; f3; field; exact Hn' | rewrite Hc, <- E; field; exact Hn'].
Qed.

(* two hydrogens: a - L (kc u +/- ks zu), u and zu orthogonal unit vectors *)
Lemma two_h_unit (a u zu : vecR) (L kc ks : R) :
  unit u -> unit zu -> dot ROps u zu = 0 ->
  let h := vsub ROps a (vscale ROps L (vadd ROps (vscale ROps kc u) (vscale ROps ks zu))) in
  dist2 ROps h a = L * L * (kc * kc + ks * ks) /\ dot ROps (vsub ROps h a) u = - L * kc.
Proof.
  intros Hu Hz Ho. cbv zeta. unfold unit in *. split.
  - transitivity (L * L * (kc * kc * dot ROps u u + 2 * kc * ks * dot ROps u zu + ks * ks * dot ROps zu zu));
      [vdestruct; f3; ring | rewrite Hu, Hz, Ho; ring].
  - transitivity (- L * (kc * dot ROps u u + ks * dot ROps u zu)); [vdestruct; f3; ring | rewrite Hu, Ho; ring].
Qed.

(* the second direction is orthogonal to the first: a cross product of the two neighbour vectors whose mean is the
   first direction, or of the first direction with a coordinate axis *)
Lemma zdir_orth_two (a p1 p2 : vecR) (nrm : vecR) :
  dot ROps (hvec_raw ROps a [p1; p2] nrm) (cross ROps (vsub ROps p1 a) (vsub ROps p2 a)) = 0.
Proof. vdestruct. cbv [hvec_raw centroid vsum fold_right map length fnat]. f3. unfold Rdiv. ring. Qed.
Lemma zdir_orth (a : vecR) (nb : list vecR) (nrm : vecR) (n : R) : n <> 0 ->
  let v := hvec_raw ROps a nb nrm in
  dot ROps v (zdir ROps a nb (vdiv ROps v n)) = 0.
Proof.
  intros Hn v.
  assert (G : dot ROps v (cross ROps (vdiv ROps v n) (least_axis ROps (vdiv ROps v n))) = 0).
  { rewrite dot_comm, (dot_unscale _ v n Hn), cross_orth_l. ring. }
  destruct nb as [|p1 [|p2 [|p3 r]]]; try exact G. apply zdir_orth_two.
Qed.

Theorem place_two (tet : list vecR) (a : vecR) (nb : list vecR) (L : R) (w : wit R) :
  let v := hvec_raw ROps a nb (w_nrm w) in
  let z := zdir ROps a nb (vdiv ROps v (w_n w)) in
  0 < w_n w -> w_n w * w_n w = norm2 ROps v -> 0 < w_nz w -> w_nz w * w_nz w = norm2 ROps z ->
  exists h1 h2, place ROps tet a nb L 2 w = [h1; h2] /\
    forall h, h = h1 \/ h = h2 ->
      dist2 ROps h a = L * L * (10001056 / 10000000) /\ dot ROps (vsub ROps h a) v = - L * (5736 / 10000) * w_n w.
Proof.
  intros v z Hn E Hz Ez. assert (Hn0 : w_n w <> 0) by lra.
  pose proof (unit_vdiv v _ Hn E) as Uu. pose proof (unit_vdiv z _ Hz Ez) as Uz.
  assert (Huz : dot ROps (vdiv ROps v (w_n w)) (vdiv ROps z (w_nz w)) = 0).
  { rewrite dot_vdiv_l, dot_vdiv_r, (zdir_orth a nb (w_nrm w) _ Hn0 : dot ROps v z = 0). unfold Rdiv. ring. }
  do 2 eexists. split; [reflexivity|]. fold v z. intros h Hh. rewrite (dot_unscale _ v _ Hn0).
  (* both are instances of two_h_unit, with ks = k_sin and ks = - k_sin; 0.5736^2 + 0.8192^2 = 1.0001056 *)
  pose proof (fun ks => two_h_unit a _ _ L (k_cos ROps) ks Uu Uz Huz) as G. cbv zeta in G.
  destruct Hh as [-> | ->]; [|rewrite (vsub_as_vadd _ _ (k_sin ROps))]; rewrite (proj1 (G _)), (proj2 (G _));
    unfold k_cos, k_sin; cbn [fdiv fofZ ROps]; split; field.
Qed.

(* the coordinate axis least aligned with a unit vector is never parallel to it (this is what the repaired
   code relies on; crossing with a FIXED axis gave the zero vector for a bond along that axis) *)
Lemma fabs_spec (x : R) : 0 <= fabs ROps x /\ fabs ROps x * fabs ROps x = x * x.
Proof. unfold fabs. cbn [fleb f0 fopp ROps]. unfold Rleb. destruct (Rle_dec 0 x); split; nra. Qed.

Lemma least_axis_cross_nonzero (u : vecR) : unit u -> 2 / 3 <= norm2 ROps (cross ROps u (least_axis ROps u)).
Proof.
  unfold unit. destruct u as [[x y] z]. intros Hu. f3_in Hu. unfold least_axis.
  (* the chosen component has the least of three squares that sum to 1, so its square is at most 1/3;
     the cross product with that axis has squared norm 1 minus it *)
  destruct (fabs_spec x) as [X0 X2], (fabs_spec y) as [Y0 Y2], (fabs_spec z) as [Z0 Z2].
  revert X0 X2 Y0 Y2 Z0 Z2. generalize (fabs ROps x) (fabs ROps y) (fabs ROps z). intros ax ay az X0 X2 Y0 Y2 Z0 Z2.
  cbn [fleb ROps]. unfold Rleb.
  destruct (Rle_dec ax ay), (Rle_dec ax az); cbn [andb]; try destruct (Rle_dec ay az); f3; nra.
Qed.

(* three / four hydrogens: rows of the tetrahedron, turned by a rotation M that takes row 0 to v / n, scaled by L, attached to a *)
Lemma rot_scale_geom (M : matR) (a t t0 v : vecR) (L n : R) :
  orth M -> n <> 0 -> vm ROps t0 M = vdiv ROps v n ->
  let h := vadd ROps (vscale ROps L (vm ROps t M)) a in
  dist2 ROps h a = L * L * norm2 ROps t /\ dot ROps (vsub ROps h a) v = L * n * dot ROps t t0.
Proof.
  intros Oo Hn Mp h.
  assert (Hha : vsub ROps h a = vscale ROps L (vm ROps t M)).
  { subst h. generalize (vm ROps t M). intros y. vdestruct. f3. veq; ring. }
  unfold dist2, norm2. rewrite Hha, (dot_unscale _ v n Hn), <- Mp, !dot_vscale_l, (dot_comm (vm ROps t M)), dot_vscale_l.
  rewrite !(orth_preserves_dot M) by exact Oo. split; ring.
Qed.

Lemma vsum_shift (a : vecR) (nb : list vecR) :
  vsum ROps (map (fun p => vsub ROps p a) nb) = vsub ROps (vsum ROps nb) (vscale ROps (fnat ROps (length nb)) a).
Proof.
  induction nb as [|p nb IH].
  - destruct a as [[? ?] ?]. cbv [vsum fold_right map length fnat]. f3. cbn [fofZ ROps Z.of_nat]. veq; ring.
  - cbn [map length]. unfold vsum in *. cbn [fold_right]. rewrite IH.
    unfold fnat. rewrite Nat2Z.inj_succ. cbn [fofZ ROps]. rewrite succ_IZR.
    generalize (fold_right (vadd ROps) (vzero ROps) nb) (IZR (Z.of_nat (length nb))). intros sv r. vdestruct. f3. veq; ring.
Qed.
Lemma centroid_shift (a : vecR) (nb : list vecR) : nb <> [] ->
  centroid ROps (map (fun p => vsub ROps p a) nb) = vsub ROps (centroid ROps nb) a.
Proof.
  intros Hne. unfold centroid. rewrite vsum_shift, map_length.
  assert (Hl : fnat ROps (length nb) <> 0).
  { unfold fnat. cbn [fofZ ROps]. destruct nb; [contradiction|]. cbn [length]. rewrite Nat2Z.inj_succ, succ_IZR.
    pose proof (IZR_le 0 (Z.of_nat (length nb)) (Nat2Z.is_nonneg _)). lra. }
  revert Hl. generalize (fnat ROps (length nb)) (vsum ROps nb). intros r sv Hr. vdestruct. f3. veq; field; exact Hr.
Qed.

(* hvec_raw "points towards the neighbours": v . (centroid - a) = |v|^2, in the averaging branch (1, 2, >= 4
   neighbours) and in the oriented-normal branch (3 neighbours off the atom's plane) *)
Definition avg_branch {A} (nb : list A) : Prop := nb <> [] /\ length nb <> 3%nat.

Lemma hvec_avg (a nrm : vecR) (nb : list vecR) : avg_branch nb ->
  hvec_raw ROps a nb nrm = vsub ROps (centroid ROps nb) a.
Proof.
  intros [Hne H3]. rewrite <- centroid_shift by exact Hne.
  destruct nb as [|p1 [|p2 [|p3 [|p4 r]]]]; try reflexivity; contradiction.
Qed.

Lemma hvec_three (a nrm p1 p2 p3 : vecR) : unit nrm ->
  let c := vsub ROps (centroid ROps [p1; p2; p3]) a in
  abs_le ROps (dot ROps nrm c) (c_align ROps) = false ->
  towards (hvec_raw ROps a [p1; p2; p3] nrm) c.
Proof.
  intros Un c Hal. unfold towards, hvec_raw, norm2. fold c. rewrite Hal.
  rewrite !dot_vscale_l, (dot_comm nrm (vscale _ _ _)), dot_vscale_l, Un. ring.
Qed.

(* witnesses exist whenever the geometry is not degenerate: nothing is divided by zero *)
Lemma witness_exists (v : vecR) : 0 < norm2 ROps v -> exists n, 0 < n /\ n * n = norm2 ROps v.
Proof.
  intros H. exists (sqrt (norm2 ROps v)). split; [apply sqrt_lt_R0; exact H | apply sqrt_sqrt; lra].
Qed.
Lemma norm2_sub_pos (c a : vecR) : c <> a -> 0 < norm2 ROps (vsub ROps c a).
Proof. intros H. apply norm2_pos. intros E. apply H. vdestruct. eqs E. veq; lra. Qed.

Lemma hvec_nonzero (a nrm : vecR) (nb : list vecR) : unit nrm ->
  (avg_branch nb -> centroid ROps nb <> a) ->
  0 < norm2 ROps (hvec_raw ROps a nb nrm).
Proof.
  intros Un Hc.
  assert (Avg : avg_branch nb -> 0 < norm2 ROps (hvec_raw ROps a nb nrm)).
  { intros B. rewrite (hvec_avg a nrm nb B). apply norm2_sub_pos, Hc, B. }
  destruct nb as [|p1 [|p2 [|p3 [|p4 r]]]]; try (apply Avg; split; discriminate).
  - cbv [hvec_raw]. f3. lra.
  - unfold hvec_raw. set (al := dot ROps nrm (vsub ROps (centroid ROps [p1; p2; p3]) a)).
    destruct (abs_le ROps al (c_align ROps)) eqn:Hal; unfold norm2; [rewrite Un; lra|].
    rewrite dot_vscale_l, dot_comm, dot_vscale_l, Un.
    unfold abs_le, c_align in Hal. cbn [fleb fopp fdiv fofZ ROps] in Hal.
    apply andb_false_iff in Hal. destruct Hal as [Hal|Hal]; apply Rleb_false in Hal; nra.
Qed.

Lemma zdir_nonzero (a : vecR) (nb : list vecR) (u : vecR) : unit u ->
  (forall p1 p2, nb = [p1; p2] -> cross ROps (vsub ROps p1 a) (vsub ROps p2 a) <> vzero ROps) ->
  0 < norm2 ROps (zdir ROps a nb u).
Proof.
  intros Uu H2.
  assert (G : 0 < norm2 ROps (cross ROps u (least_axis ROps u))) by (pose proof (least_axis_cross_nonzero u Uu); lra).
  destruct nb as [|p1 [|p2 [|p3 r]]]; try exact G. apply norm2_pos, H2. reflexivity.
Qed.

From Coq Require Import Qreals.
Local Open Scope R_scope.

Lemma fofQ_R (q : Q) : fofQ ROps q = Q2R q.
Proof. reflexivity. Qed.
Definition vQ2R (v : vecQ) : vecR := vofQ ROps v.
Lemma dot_vQ2R (a b : vecQ) : dot ROps (vQ2R a) (vQ2R b) = Q2R (dotQ a b).
Proof.
  destruct a as [[a1 a2] a3]. destruct b as [[b1 b2] b3]. unfold vQ2R, vofQ, dotQ. rewrite !fofQ_R.
  f3. rewrite !Q2R_plus, !Q2R_mult. reflexivity.
Qed.
Lemma Qle_bool_R (x y : Q) : Qle_bool x y = true -> Q2R x <= Q2R y.
Proof. intros H. apply Qle_Rle, Qle_bool_iff, H. Qed.

Lemma tet_ok_R (t0 t1 t2 t3 : vecQ) : tet_ok [t0; t1; t2; t3] = true ->
  norm2 ROps (vQ2R t0) = 1 /\
  Forall (fun t => 1 - 1 / 100000000 <= norm2 ROps t <= 1 + 1 / 100000000) (map vQ2R [t0; t1; t2; t3]) /\
  Forall (fun t => - (34 / 100) <= dot ROps t (vQ2R t0) <= - (33 / 100)) (map vQ2R [t1; t2; t3]).
Proof.
  unfold tet_ok, norm2. rewrite andb_true_iff, forallb_forall. intros [H0 Hr].
  assert (N0 : dot ROps (vQ2R t0) (vQ2R t0) = 1).
  { rewrite dot_vQ2R, (Qeq_eqR _ _ (Qeq_bool_eq _ _ H0)). unfold Q2R. simpl. lra. }
  assert (Hr' : forall t, In t [t1; t2; t3] ->
            1 - 1 / 100000000 <= Q2R (dotQ t t) <= 1 + 1 / 100000000 /\ - (34 / 100) <= Q2R (dotQ t t0) <= - (33 / 100)).
  { intros t Ht. specialize (Hr t Ht). rewrite !andb_true_iff in Hr. destruct Hr as [[[A B] C] D].
    apply Qle_bool_R in A, B, C, D. rewrite Q2R_minus in A. rewrite Q2R_plus in B. rewrite Q2R_opp in C, D.
    revert A B C D. generalize (Q2R (dotQ t t)) (Q2R (dotQ t t0)). unfold Q2R, tet_tol. simpl. intros. lra. }
  rewrite !Forall_map. split; [exact N0|]. split; [constructor; [cbv beta; rewrite N0; lra|]|]; apply Forall_forall;
    intros t Ht; rewrite dot_vQ2R; apply (Hr' t Ht).
Qed.

Theorem place_tet_table (tet : list vecQ) (a : vecR) (nb : list vecR) (L : R) (hs : Z) (w : wit R) :
  tet_ok tet = true ->
  let v := hvec_raw ROps a nb (w_nrm w) in
  (hs = 3 \/ hs = 4)%Z -> 0 <= L ->
  0 < w_n w -> w_n w * w_n w = norm2 ROps v ->
  unit (w_ov w) -> dot ROps (w_ov w) (vdiv ROps v (w_n w)) = 0 ->
  length (place ROps (map vQ2R tet) a nb L hs w) = Z.to_nat hs /\
  Forall (fun h => L * L * (1 - 1 / 100000000) <= dist2 ROps h a <= L * L * (1 + 1 / 100000000))
         (place ROps (map vQ2R tet) a nb L hs w) /\
  (hs = 3%Z -> Forall (fun h => dot ROps (vsub ROps h a) v <= - (33 / 100) * L * w_n w)
                      (place ROps (map vQ2R tet) a nb L hs w)).
Proof.
  intros Hok v Hhs HL Hn E Uo Hov.
  destruct tet as [|t0 [|t1 [|t2 [|t3 [|t4 r]]]]]; try discriminate.
  destruct (tet_ok_R t0 t1 t2 t3 Hok) as [N0 [Nr Dr]]. cbn [map].
  (* the rows are turned by a proper rotation M that takes row 0 to v / |v| *)
  destruct (rot_from_vectors_correct (rot_tol ROps) (vQ2R t0) (vdiv ROps v (w_n w)) (w_ov w) 1 1) as [[Oo _] Mp];
    [unfold rot_tol; cbn [fdiv fofZ ROps]; lra | lra | lra | lra | | exact Uo | exact Hov |].
  { rewrite Rmult_1_r. symmetry. apply (unit_vdiv v _ Hn E). }
  rewrite !vdiv_one in Mp. set (M := rot_from_vectors _ _ _ _ _ _ _) in *.
  assert (G := fun t => rot_scale_geom M a t _ v L _ Oo (Rgt_not_eq _ _ Hn) Mp). cbv zeta in G.
  replace (place ROps _ a nb L hs w)
    with (map (fun t => vadd ROps (vscale ROps L (vm ROps t M)) a) (skipn (Z.to_nat (4 - hs)) (map vQ2R [t0; t1; t2; t3])))
    by (destruct Hhs as [-> | ->]; reflexivity).
  assert (HLL : 0 <= L * L) by nra. assert (HLn : 0 <= L * w_n w) by nra.
  rewrite !Forall_map. split; [destruct Hhs as [-> | ->]; reflexivity|]. split.
  (* row by row: distance from L^2 |t|^2, component along v from L n (t . t0) *)
  - eapply Forall_impl; [|destruct Hhs as [-> | ->]; [exact (Forall_inv_tail Nr) | exact Nr]].
    intros t R. cbv beta in R |- *. rewrite (proj1 (G t)). nra.
  - intros ->. eapply Forall_impl; [|exact Dr]. intros t R. cbv beta in R |- *. rewrite (proj2 (G t)). nra.
Qed.

(* Model/MolEdit.v (C05) models add_implicit_hydrogens structurally, with the number and the coordinate rows of
   the hydrogens as arguments of the operation AddHs.  Its theorems (Inv preserved, every old atom keeps its row
   and charge) are used as they are in Props/C16.v; what they do not say -- the old atom, bond, coordinate and charge
   lists are PREFIXES of the new ones, the new atoms are hydrogens, every new bond joins a target to a new hydrogen --
   is OnlyAdds, established here for every outcome of add_hs_one and of a fold of such operations. *)
From Molli Require Model.MolEdit Proofs.MolEdit.
Module C05link.
Import Molli.Model.MolEdit Molli.Proofs.MolEdit.
Local Open Scope nat_scope.
Local Open Scope list_scope.

Definition OnlyAdds (targets : list positive) (s s' : st) : Prop :=
  exists na nb nc nq,
    MolEdit.atoms s' = MolEdit.atoms s ++ na /\ MolEdit.bonds s' = MolEdit.bonds s ++ nb /\
    coords s' = coords s ++ nc /\ charges s' = charges s ++ nq /\ has_q s' = has_q s /\
    (next_a s <= next_a s')%positive /\
    Forall (fun a => a_el a = el_H /\ (next_a s <= a_id a)%positive) na /\
    Forall (fun b => In (b_a1 b) targets /\ In (b_a2 b) (map a_id na)) nb /\
    length nc = length na /\ length nb <= length na /\ Forall (fun q => q = CNum 0) nq.

Lemma OnlyAdds_refl T s : OnlyAdds T s s.
Proof.
  exists [], [], [], []. rewrite !app_nil_r. repeat split; auto. apply Pos.le_refl.
Qed.

Lemma OnlyAdds_trans T s1 s2 s3 : OnlyAdds T s1 s2 -> OnlyAdds T s2 s3 -> OnlyAdds T s1 s3.
Proof.
  intros [na [nb [nc [nq [A1 [A2 [A3 [A4 [A5 [A6 [A7 [A8 [A9 [A10 A11]]]]]]]]]]]]]]
         [na' [nb' [nc' [nq' [B1 [B2 [B3 [B4 [B5 [B6 [B7 [B8 [B9 [B10 B11]]]]]]]]]]]]]].
  exists (na ++ na'), (nb ++ nb'), (nc ++ nc'), (nq ++ nq').
  rewrite B1, B2, B3, B4, A1, A2, A3, A4, <- !app_assoc, !app_length.
  repeat split; auto.
  - congruence.
  - eapply Pos.le_trans; eauto.
  - apply Forall_app. split; [exact A7|]. eapply Forall_impl; [|exact B7].
    intros a [E1 E2]. split; [exact E1 | eapply Pos.le_trans; eauto].
  - apply Forall_app. split; (eapply Forall_impl; [|eassumption]); intros b [E1 E2]; (split; [exact E1|]);
      rewrite map_app; apply in_or_app; [left|right]; exact E2.
  - apply Nat.add_le_mono; assumption.
  - apply Forall_app. split; assumption.
Qed.

(* an outcome that leaves a state behind (returned or raised) has only added to s *)
Definition adds (T : list positive) (s : st) (r : res) : Prop :=
  match r with Ok s' | Err s' => OnlyAdds T s s' | _ => True end.

Lemma adds_fold {X} T (G : st -> X -> res) : forall l,
  (forall s x, In x l -> adds T s (G s x)) ->
  forall s, adds T s (fold_left (fun r x => bind r (fun s0 => G s0 x)) l (Ok s)).
Proof.
  induction l as [|x l IH]; intros HG s; cbn [fold_left bind]; [apply OnlyAdds_refl|].
  pose proof (HG s x (or_introl eq_refl)) as Hx. destruct (G s x) as [s1|s1| |].
  - specialize (IH (fun s y Hy => HG s y (or_intror Hy)) s1).
    destruct (fold_left _ l (Ok s1)); cbn [adds] in *; auto; eapply OnlyAdds_trans; eauto.
  - rewrite fold_bind_stuck by (intros; discriminate). exact Hx.
  - rewrite fold_bind_stuck by (intros; discriminate). exact I.
  - rewrite fold_bind_stuck by (intros; discriminate). exact I.
Qed.

(* one hydrogen: add_atom(H, c) then append_bond(Bond(x, h)) *)
Lemma one_h_adds T s x c : In x T ->
  adds T s (bind (add_atom s el_H None (Some c) None) (fun s'' => conn_append_bond s'' x (next_a s))).
Proof.
  intros Hx. rewrite add_atom_spec. cbn [bind]. unfold conn_append_bond.
  destruct (is_member (added s el_H None c 0) x && is_member (added s el_H None c 0) (next_a s))%bool; [|exact I].
  exists [mkAtom (next_a s) el_H None OThis], [mkBond (next_b s) x (next_a s) OThis], [c],
         (if has_q s then [CNum 0] else []).
  unfold added. cbn [MolEdit.atoms MolEdit.bonds coords charges has_q next_a next_b].
  repeat split; auto.
  - destruct (has_q s); [reflexivity | rewrite app_nil_r; reflexivity].
  - lia.
  - constructor; [|constructor]. cbn. split; [reflexivity | apply Pos.le_refl].
  - constructor; [|constructor]. cbn. split; [exact Hx | left; reflexivity].
  - destruct (has_q s); repeat constructor.
Qed.

Lemma add_hs_one_adds T s x cs : In x T -> adds T s (add_hs_one s x cs).
Proof.
  intros Hx. unfold add_hs_one. destruct (is_member s x); [|apply OnlyAdds_refl].
  apply (adds_fold T (fun s0 c => bind (add_atom s0 el_H None (Some c) None) (fun s'' => conn_append_bond s'' x (next_a s0)))).
  intros s0 c _. apply one_h_adds, Hx.
Qed.

End C05link.
