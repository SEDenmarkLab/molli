(* C05: the fuelled breadth-first search inside remove_substituent never runs out of fuel, hence no operation of
   the model ever returns OutOfFuel: the exclusion "step s o <> OutOfFuel" in the C05 theorems is vacuous and the
   `run` of a history never stops for that reason.
   Argument: every iteration pops one queue element; an element is pushed only if it is not yet in `vis`, it then
   enters `vis`, and it is an endpoint of some bond; so  |queue| + |{bond endpoints not in vis}|  drops by at least
   one per iteration and is at most 1 + 2 * |bonds| at the start.  Proofs/Graph.v (bfs_fuel_enough_gen) has the same
   argument for the BFS of Model/Graph.v, a separate copy of the search over another representation of the bonds. *)
From Coq Require Import List PArith Lia.
Import ListNotations.
From Molli Require Import Model.MolEdit Proofs.MolEdit.

Definition endpoints (s : st) : list positive := flat_map (fun b => [b_a1 b; b_a2 b]) (bonds s).

Lemma endpoints_length s : length (endpoints s) = 2 * length (bonds s).
Proof. unfold endpoints. induction (bonds s) as [|b l IH]; simpl; [reflexivity|]. rewrite IH. lia. Qed.

Lemma neighbours_endpoints s x a : In a (neighbours s x) -> In a (endpoints s).
Proof.
  unfold neighbours, endpoints. intros H. apply in_map_iff in H. destruct H as [b [Hb Hin]].
  apply filter_In in Hin. destruct Hin as [Hin _]. apply in_flat_map. exists b. split; [exact Hin|].
  destruct (Pos.eqb (b_a1 b) x); subst a; simpl; auto.
Qed.

(* endpoints not yet visited *)
Definition unvisited (E vis : list positive) : nat := length (filter (fun e => negb (mem e vis)) E).

Lemma mem_cons e a vis : mem e (a :: vis) = (Pos.eqb e a || mem e vis)%bool.
Proof. reflexivity. Qed.

Lemma unvisited_cons e E vis : unvisited (e :: E) vis = (if negb (mem e vis) then 1 else 0) + unvisited E vis.
Proof. unfold unvisited. cbn [filter]. destruct (negb (mem e vis)); reflexivity. Qed.

Lemma unvisited_notin E vis a : ~ In a E -> unvisited E (a :: vis) = unvisited E vis.
Proof.
  intros Hn. unfold unvisited. f_equal. apply filter_ext_in. intros e He. rewrite mem_cons.
  assert (Hne : Pos.eqb e a = false) by (apply Pos.eqb_neq; intros ->; contradiction).
  rewrite Hne. reflexivity.
Qed.

Lemma unvisited_push E vis a : NoDup E -> In a E -> mem a vis = false -> unvisited E (a :: vis) + 1 <= unvisited E vis.
Proof.
  induction E as [|e E IH]; intros Hnd Hin Hm; [contradiction|].
  inversion Hnd as [|? ? Hne HndE]; subst. rewrite !unvisited_cons, mem_cons.
  destruct (Pos.eqb e a) eqn:Eea.
  - apply Pos.eqb_eq in Eea. subst e. rewrite Hm. cbn [orb negb]. rewrite (unvisited_notin E vis a Hne). lia.
  - cbn [orb]. destruct Hin as [->|Hin]; [rewrite Pos.eqb_refl in Eea; discriminate|].
    specialize (IH HndE Hin Hm). destruct (negb (mem e vis)); lia.
Qed.

Lemma fold_visit_measure E : NoDup E -> forall nb, (forall a, In a nb -> In a E) ->
  forall vis q out, let '(vis', q', _) := fold_left bfs_visit nb (vis, q, out) in
                    length q' + unvisited E vis' <= length q + unvisited E vis.
Proof.
  intros Hnd nb. induction nb as [|a nb IH]; intros Hin vis q out; simpl; [lia|].
  destruct (mem a vis) eqn:Em.
  - apply IH. intros b Hb. apply Hin. right. exact Hb.
  - specialize (IH (fun b Hb => Hin b (or_intror Hb)) (a :: vis) (q ++ [a]) (a :: out)).
    destruct (fold_left bfs_visit nb (a :: vis, q ++ [a], a :: out)) as [[vis' q'] out'].
    rewrite app_length in IH. simpl in IH.
    pose proof (unvisited_push E vis a Hnd (Hin a (or_introl eq_refl)) Em). lia.
Qed.

Lemma bfs_loop_total s E : NoDup E -> (forall x a, In a (neighbours s x) -> In a E) ->
  forall fuel vis q out, length q + unvisited E vis <= fuel -> bfs_loop fuel s vis q out <> None.
Proof.
  intros Hnd Hnb fuel. induction fuel as [|f IH]; intros vis q out Hm.
  - destruct q; simpl in *; [discriminate|lia].
  - destruct q as [|x q']; simpl; [discriminate|].
    pose proof (fold_visit_measure E Hnd (neighbours s x) (Hnb x) vis q' out) as M.
    destruct (fold_left bfs_visit (neighbours s x) (vis, q', out)) as [[vis' q''] out'].
    apply IH. simpl in Hm. lia.
Qed.

Lemma filter_length_le {A} (p : A -> bool) l : length (filter p l) <= length l.
Proof. induction l as [|x l IH]; simpl; [lia|]. destruct (p x); simpl; lia. Qed.

Theorem bfs_fuel_sufficient s vis out a : bfs_loop (bfs_fuel s) s vis [a] out <> None.
Proof.
  set (E := nodup Pos.eq_dec (endpoints s)).
  apply (bfs_loop_total s E).
  - apply NoDup_nodup.
  - intros x b Hb. apply nodup_In. apply (neighbours_endpoints s x b Hb).
  - unfold bfs_fuel, unvisited. simpl.
    pose proof (filter_length_le (fun e => negb (mem e vis)) E).
    assert (length E <= length (endpoints s)).
    { apply NoDup_incl_length; [apply NoDup_nodup|]. intros z Hz. apply nodup_In in Hz. exact Hz. }
    rewrite endpoints_length in *. lia.
Qed.

(* no operation ever reports exhausted fuel: the four operations every other one is built from have no such
   outcome, and the search has fuel enough *)
Lemma no_fuel_post s r : r <> OutOfFuel -> post (fun _ _ => True) True False s r.
Proof. destruct r; simpl; auto. Qed.

Theorem step_no_fuel s o : post (fun _ _ => True) True False s (step s o).
Proof.
  assert (Hb : forall s x y, post (fun _ _ => True) True False s (conn_del_bond s x y)).
  { intros s0 x y. apply no_fuel_post. unfold conn_del_bond. destruct (remove_first _ _); discriminate. }
  apply step_post; auto.
  - intros s0 e l c q. apply no_fuel_post. rewrite add_atom_spec. destruct c; discriminate.
  - intros s0 sl. apply del_atom_post; auto. clear. intros s sl. apply no_fuel_post. unfold pm_del_atom.
    destruct (get_atom s sl); [destruct (remove_first _ _)|]; discriminate.
  - intros s0 x y. apply no_fuel_post. unfold conn_append_bond. destruct (_ && _)%bool; discriminate.
  - intros s0 vis a out. apply bfs_fuel_sufficient.
Qed.
