(* The bytes of the UKV model: block encoding, the abstract record list with its index, updates of the table of
   contents, the scan of map_blocks over whole and torn blocks, headers. *)
From Coq Require Import NArith PeanoNat List Bool Lia.
Import ListNotations.
Open Scope N_scope.
From Molli Require Import Model.UKV.
From Molli Require Import Common.ListFacts.

Lemma beq_refl a : beq a a = true.
Proof. induction a as [|x a IH]; simpl; [reflexivity|]. rewrite N.eqb_refl, IH. reflexivity. Qed.

Lemma beq_eq a : forall b, beq a b = true -> a = b.
Proof.
  induction a as [|x a IH]; intros [|y b] H; simpl in H; try discriminate; [reflexivity|].
  apply andb_prop in H. destruct H as [H1 H2]. apply N.eqb_eq in H1. subst. f_equal. apply IH; exact H2.
Qed.

Lemma beq_neq a b : a <> b -> beq a b = false.
Proof. intros H. destruct (beq a b) eqn:E; [|reflexivity]. apply beq_eq in E. contradiction. Qed.

Lemma len_app (a b : bytes) : len (a ++ b) = len a + len b.
Proof. unfold len. rewrite app_length. lia. Qed.

Lemma len_nil : len [] = 0. Proof. reflexivity. Qed.

Lemma len_cons x (a : bytes) : len (x :: a) = 1 + len a.
Proof. unfold len. simpl length. lia. Qed.

Lemma firstn_len_app (a b : bytes) : firstn (N.to_nat (len a)) (a ++ b) = a.
Proof. unfold len. rewrite Nat2N.id, firstn_app, Nat.sub_diag, firstn_all. simpl. apply app_nil_r. Qed.

Lemma firstn_len_plus (a b : bytes) n : firstn (N.to_nat (len a + N.of_nat n)) (a ++ b) = a ++ firstn n b.
Proof.
  unfold len. replace (N.to_nat (N.of_nat (length a) + N.of_nat n)) with (length a + n)%nat by lia.
  apply firstn_app_2.
Qed.

Lemma skipn_len_app (a b : bytes) : skipn (N.to_nat (len a)) (a ++ b) = b.
Proof. unfold len. rewrite Nat2N.id, skipn_app, Nat.sub_diag, skipn_all. reflexivity. Qed.

(* big-endian fields read back: one byte at a time, so that no tactic has to solve for quotients *)
Lemma byte_step x : x / 256 * 256 + x mod 256 = x.
Proof. rewrite N.mul_comm. symmetry. apply N.div_mod'. Qed.

Lemma be16_val v : v < 65536 -> v / 256 mod 256 * 256 + v mod 256 = v.
Proof.
  intros H. rewrite (N.mod_small (v / 256)) by (apply N.div_lt_upper_bound; [discriminate|exact H]).
  apply byte_step.
Qed.

Lemma be32_val v : v < 4294967296 ->
  rd32 (v / 16777216 mod 256) (v / 65536 mod 256) (v / 256 mod 256) (v mod 256) = v.
Proof.
  intros H. unfold rd32. change 16777216 with (256 * 256 * 256). change 65536 with (256 * 256).
  rewrite <- !N.div_div by discriminate.
  rewrite (N.mod_small (v / 256 / 256 / 256)) by (do 3 (apply N.div_lt_upper_bound; [discriminate|]); exact H).
  rewrite !byte_step. reflexivity.
Qed.

Lemma len_encb k v : len (encb k v) = 5 + len k + len v.
Proof. unfold encb, be32. rewrite len_cons, !len_app. unfold len at 1. simpl length. lia. Qed.

Lemma length_encb k v : (length (encb k v) = 5 + length k + length v)%nat.
Proof. unfold encb, be32. simpl. rewrite !app_length. lia. Qed.

Definition kv := (bytes * bytes)%type.
Definition wfkv (p : kv) : Prop := len (fst p) < 256 /\ len (snd p) < 4294967296.
Definition blocks (rs : list kv) : bytes := concat (map (fun p => encb (fst p) (snd p)) rs).

Fixpoint index_from (pos : N) (rs : list kv) : toc_t :=
  match rs with
  | [] => []
  | p :: rs' => (fst p, mkrec pos (len (fst p)) (len (snd p))) :: index_from (pos + 5 + len (fst p) + len (snd p)) rs'
  end.

Fixpoint end_from (pos : N) (rs : list kv) : N :=
  match rs with
  | [] => pos
  | p :: rs' => end_from (pos + 5 + len (fst p) + len (snd p)) rs'
  end.

Fixpoint assoc (rs : list kv) (k : bytes) : option bytes :=
  match rs with
  | [] => None
  | p :: rs' => if beq k (fst p) then Some (snd p) else assoc rs' k
  end.

Lemma assoc_app rs qs k : assoc (rs ++ qs) k = match assoc rs k with Some v => Some v | None => assoc qs k end.
Proof. induction rs as [|p rs IH]; simpl; [reflexivity|]. destruct (beq k (fst p)); [reflexivity|exact IH]. Qed.

Lemma assoc_app_l rs qs k v : assoc rs k = Some v -> assoc (rs ++ qs) k = Some v.
Proof. intros E. rewrite assoc_app, E. reflexivity. Qed.

(* a record list extends itself: the trivial case of "rs' = rs ++ qs" *)
Lemma ext_refl {A} (l : list A) : exists qs, l = l ++ qs.
Proof. exists []. symmetry. apply app_nil_r. Qed.

Lemma blocks_app a b : blocks (a ++ b) = blocks a ++ blocks b.
Proof. unfold blocks. rewrite map_app, concat_app. reflexivity. Qed.

Lemma blocks_cons p rs : blocks (p :: rs) = encb (fst p) (snd p) ++ blocks rs.
Proof. reflexivity. Qed.

Lemma end_from_len pos rs : end_from pos rs = pos + len (blocks rs).
Proof.
  revert pos. induction rs as [|p rs IH]; intros pos; simpl.
  - unfold blocks, len. simpl. lia.
  - rewrite IH, blocks_cons, len_app, len_encb. lia.
Qed.

Lemma index_from_app pos a b :
  index_from pos (a ++ b) = index_from pos a ++ index_from (end_from pos a) b.
Proof. revert pos. induction a as [|p a IH]; intros pos; simpl; [reflexivity|]. rewrite IH. reflexivity. Qed.

Lemma end_from_app pos a b : end_from pos (a ++ b) = end_from (end_from pos a) b.
Proof. revert pos. induction a as [|p a IH]; intros pos; simpl; [reflexivity|]. apply IH. Qed.

Lemma map_fst_index pos rs : map fst (index_from pos rs) = map fst rs.
Proof. revert pos. induction rs as [|p rs IH]; intros pos; simpl; [reflexivity|]. rewrite IH. reflexivity. Qed.

(* every block has at least 5 bytes *)
Lemma length_blocks_ge rs : (length rs <= length (blocks rs))%nat.
Proof.
  induction rs as [|p rs IH]; [simpl; lia|]. rewrite blocks_cons, app_length, length_encb. simpl. lia.
Qed.

Lemma len_0_nil (l : bytes) : len l = 0 -> l = [].
Proof. destruct l; [reflexivity|rewrite len_cons; lia]. Qed.

Lemma blocks_len0_nil rs : len (blocks rs) = 0 -> rs = [].
Proof. destruct rs as [|p rs]; [reflexivity|]. rewrite blocks_cons, len_app, len_encb. lia. Qed.

Lemma lookup_none_iff t k : lookup t k = None <-> ~ In k (map fst t).
Proof.
  induction t as [|[k' r] t IH]; simpl; [tauto|].
  destruct (beq k k') eqn:E.
  - apply beq_eq in E. subst. split; [discriminate|]. intros H. exfalso. apply H. left. reflexivity.
  - rewrite IH. split.
    + intros H [H1|H1]; [subst; rewrite beq_refl in E; discriminate|contradiction].
    + intros H H1. apply H. right. exact H1.
Qed.

Lemma update_fresh t k r : lookup t k = None -> update t k r = t ++ [(k, r)].
Proof.
  induction t as [|[k' r'] t IH]; simpl; intros H; [reflexivity|].
  destruct (beq k k'); [discriminate|]. rewrite IH by exact H. reflexivity.
Qed.

(* what scan does to the table of contents over the blocks of [ix]: one update per block, in order *)
Definition upd_all (t : toc_t) (ix : toc_t) : toc_t := fold_left (fun t p => update t (fst p) (snd p)) ix t.

(* updates under other keys pass the first entry by *)
Lemma upd_all_cons k r t l : ~ In k (map fst l) -> upd_all ((k, r) :: t) l = (k, r) :: upd_all t l.
Proof.
  revert t. induction l as [|[k' r'] l IH]; intros t Hn; [reflexivity|].
  unfold upd_all in *. simpl. rewrite (beq_neq k' k) by (intros ->; apply Hn; left; reflexivity).
  apply IH. intros Hin. apply Hn. right. exact Hin.
Qed.

(* a rescan of all records over the table of a prefix: the prefix's entries are rewritten as they are, the rest appended *)
Lemma upd_all_prefix a b : NoDup (map fst (a ++ b)) -> upd_all a (a ++ b) = a ++ b.
Proof.
  induction a as [|[k r] a IHa]; simpl; intros Hnd.
  - induction b as [|[k r] b IHb]; [reflexivity|]. inversion Hnd; subst.
    change (upd_all [] ((k, r) :: b)) with (upd_all [(k, r)] b).
    rewrite upd_all_cons, IHb by assumption. reflexivity.
  - inversion Hnd; subst.
    change (upd_all ((k, r) :: a) ((k, r) :: a ++ b)) with (upd_all (update ((k, r) :: a) k r) (a ++ b)).
    simpl update. rewrite beq_refl, upd_all_cons, IHa by assumption. reflexivity.
Qed.

Lemma nodup_drop_mid {A} (a m c : list A) : NoDup (a ++ m ++ c) -> NoDup (a ++ c).
Proof.
  induction m as [|x m IH]; simpl; intros Hn; [exact Hn|].
  apply IH. eapply NoDup_remove_1. exact Hn.
Qed.

Lemma NoDup_app_l {A} (a b : list A) : NoDup (a ++ b) -> NoDup a.
Proof. intros Hn. now apply NoDup_app in Hn. Qed.

Lemma NoDup_app_r {A} (a b : list A) : NoDup (a ++ b) -> NoDup b.
Proof. intros Hn. now apply NoDup_app in Hn. Qed.

(* the index of a record list has an entry exactly for the keys the list maps *)
Lemma lookup_index_none pos rs k : lookup (index_from pos rs) k = None <-> assoc rs k = None.
Proof.
  revert pos. induction rs as [|p rs IH]; intros pos; simpl; [tauto|].
  destruct (beq k (fst p)); [split; discriminate|apply IH].
Qed.

Lemma lookup_index_assoc rs : forall pos k,
  match lookup (index_from pos rs) k, assoc rs k with
  | Some _, Some _ | None, None => True
  | _, _ => False
  end.
Proof.
  intros pos k. pose proof (lookup_index_none pos rs k) as [L R].
  destruct (lookup (index_from pos rs) k), (assoc rs k); try exact I; [discriminate (R eq_refl)|discriminate (L eq_refl)].
Qed.

(* code that branches on the table of contents branches on the abstract map *)
Lemma lookup_index_case {X} pos rs k (a b : X) :
  match lookup (index_from pos rs) k with Some _ => a | None => b end =
  match assoc rs k with Some _ => a | None => b end.
Proof.
  pose proof (lookup_index_assoc rs pos k) as L.
  destruct (lookup (index_from pos rs) k), (assoc rs k); (reflexivity || contradiction).
Qed.

Lemma assoc_none_iff rs k : assoc rs k = None <-> ~ In k (map fst rs).
Proof. rewrite <- (lookup_index_none 0 rs k), lookup_none_iff, map_fst_index. reflexivity. Qed.

Lemma assoc_in rs k v : NoDup (map fst rs) -> In (k, v) rs -> assoc rs k = Some v.
Proof.
  induction rs as [|p rs IH]; simpl; intros Hnd Hin; [contradiction|].
  inversion Hnd as [|x l Hnotin Hnd']; subst.
  destruct Hin as [Heq|Hin].
  - subst. simpl. rewrite beq_refl. reflexivity.
  - destruct (beq k (fst p)) eqn:E.
    + apply beq_eq in E. subst. exfalso. apply Hnotin. apply (in_map fst) in Hin. exact Hin.
    + apply IH; assumption.
Qed.

Lemma assoc_some_in rs k v : assoc rs k = Some v -> In (k, v) rs.
Proof.
  induction rs as [|p rs IH]; simpl; [discriminate|].
  destruct (beq k (fst p)) eqn:E.
  - intros H. inversion H. apply beq_eq in E. subst. left. destruct p; reflexivity.
  - intros H. right. apply IH. exact H.
Qed.

Lemma sub_app_mid (pre v post : bytes) : sub (pre ++ v ++ post) (len pre) (len v) = v.
Proof. unfold sub. rewrite skipn_len_app, firstn_len_app. reflexivity. Qed.

Lemma sub_block pre k v post : sub (pre ++ encb k v ++ post) (len pre + 5 + len k) (len v) = v.
Proof.
  replace (pre ++ encb k v ++ post) with ((pre ++ len k :: be32 (len v) ++ k) ++ v ++ post).
  2:{ unfold encb. rewrite <- !app_assoc. simpl. rewrite <- !app_assoc. reflexivity. }
  replace (len pre + 5 + len k) with (len (pre ++ len k :: be32 (len v) ++ k)).
  2:{ rewrite len_app, len_cons, len_app. unfold be32. unfold len at 2. simpl length. lia. }
  apply sub_app_mid.
Qed.

Lemma get_index rs : forall pre tl k r,
  lookup (index_from (len pre) rs) k = Some r ->
  exists v, assoc rs k = Some v /\ sub (pre ++ blocks rs ++ tl) (r_posv r) (r_vlen r) = v.
Proof.
  induction rs as [|p rs IH]; intros pre tl k r H; simpl in H; [discriminate|].
  simpl assoc. destruct (beq k (fst p)) eqn:E.
  - inversion H; subst. exists (snd p). split; [reflexivity|].
    unfold r_posv, r_vlen, r_pos, r_klen. rewrite blocks_cons, <- app_assoc. apply sub_block.
  - replace (len pre + 5 + len (fst p) + len (snd p)) with (len (pre ++ encb (fst p) (snd p))) in H
      by (rewrite len_app, len_encb; lia).
    destruct (IH _ tl _ _ H) as [v [Hv Hs]]. exists v. split; [exact Hv|].
    rewrite blocks_cons. rewrite <- Hs. f_equal. rewrite <- !app_assoc. reflexivity.
Qed.

(* the `last` field scan leaves: the key of the last block read, or what it was given *)
Definition last_key (lk : option bytes) (rs : list kv) : option bytes :=
  match rs with [] => lk | _ => Some (fst (List.last rs ([], []))) end.

Lemma scan_one fuel k v tl pos t lk :
  len v < 4294967296 ->
  scan (S fuel) (encb k v ++ tl) pos t lk =
  scan fuel tl (pos + 5 + len k + len v) (update t k (mkrec pos (len k) (len v))) (Some k).
Proof.
  intros Hv. unfold encb, be32. cbn [app scan].
  rewrite be32_val by exact Hv. rewrite <- app_assoc.
  replace (len k + len v <=? len (k ++ v ++ tl)) with true
    by (symmetry; apply N.leb_le; rewrite !len_app; lia).
  rewrite firstn_len_app.
  replace (len k + len v) with (len (k ++ v)) by apply len_app.
  rewrite app_assoc, skipn_len_app. reflexivity.
Qed.

Lemma scan_all rs : forall fuel tl pos t lk,
  Forall wfkv rs -> (length rs <= fuel)%nat ->
  scan fuel (blocks rs ++ tl) pos t lk =
  scan (fuel - length rs) tl (end_from pos rs) (upd_all t (index_from pos rs)) (last_key lk rs).
Proof.
  induction rs as [|p rs IH]; intros fuel tl pos t lk Hwf Hf.
  - simpl. rewrite Nat.sub_0_r. reflexivity.
  - inversion Hwf as [|x l Hp Hrest]; subst. destruct Hp as [_ Hv].
    destruct fuel as [|fuel]; [simpl in Hf; lia|].
    rewrite blocks_cons, <- app_assoc, scan_one by exact Hv.
    rewrite IH; [|exact Hrest|simpl in Hf; lia].
    simpl length. simpl Nat.sub. simpl end_from. unfold upd_all. simpl fold_left.
    f_equal. destruct rs; reflexivity.
Qed.

(* a torn tail: nothing, or a strict prefix of one well-formed block *)
Definition torn (tl : bytes) : Prop :=
  tl = [] \/ exists k v n, wfkv (k, v) /\ (n < length (encb k v))%nat /\ tl = firstn n (encb k v).

Lemma torn_nil : torn [].
Proof. left. reflexivity. Qed.

Lemma scan_torn fuel tl pos t lk : torn tl -> scan fuel tl pos t lk = (t, lk, pos).
Proof.
  intros [->|[k [v [n [[Hk Hv] [Hn ->]]]]]]; destruct fuel as [|fuel]; try reflexivity.
  simpl in Hk, Hv. unfold encb, be32 in *. cbn [app] in *.
  do 5 (destruct n as [|n]; [reflexivity|]). cbn [firstn scan].
  rewrite be32_val by exact Hv.
  replace (len k + len v <=? len (firstn n (k ++ v))) with false; [reflexivity|].
  symmetry. apply N.leb_gt. unfold len in *. rewrite firstn_length. simpl in Hn. rewrite app_length in *. lia.
Qed.

(* a well-formed header: its own length fields say where it ends, whatever follows it *)
Definition hdr_ok (H : bytes) : Prop := forall x, bof_of (H ++ x) = len H.

(* a header as its readers (bof_of, read_header) meet it: 32 fixed bytes -- h1, six length bytes that decode to the
   lengths of h2 and b0, padding -- then h2 and b0 *)
Lemma mk_header_fields h1 h2 b0 :
  length h1 = 16%nat -> len h2 < 65536 -> len b0 < 4294967296 ->
  exists pre a b c d e g,
    mk_header h1 h2 b0 = pre ++ h2 ++ b0 /\ len pre = 32 /\
    (forall y, firstn 16 (pre ++ y) = h1 /\ exists t, skipn 16 (pre ++ y) = a :: b :: c :: d :: e :: g :: t) /\
    a * 256 + b = len h2 /\ rd32 c d e g = len b0.
Proof.
  intros L1 L2 L0. unfold mk_header.
  exists (h1 ++ (len h2 / 256 mod 256 :: len h2 mod 256 :: be32 (len b0)) ++ repeat 0 10). do 6 eexists.
  split; [rewrite <- !app_assoc; reflexivity|].
  split; [unfold len; rewrite !app_length, L1; reflexivity|].
  split; [|split; [apply be16_val; exact L2|apply be32_val; exact L0]].
  intros y. rewrite <- !app_assoc, <- L1. split.
  - rewrite firstn_app, firstn_all, Nat.sub_diag, firstn_O. apply app_nil_r.
  - eexists. rewrite skipn_app, skipn_all, Nat.sub_diag. reflexivity.
Qed.

Lemma mk_header_ok h1 h2 b0 :
  length h1 = 16%nat -> len h2 < 65536 -> len b0 < 4294967296 -> hdr_ok (mk_header h1 h2 b0).
Proof.
  intros L1 L2 L0 x.
  destruct (mk_header_fields h1 h2 b0 L1 L2 L0) as [pre [a [b [c [d [e [g [E [Lp [P [E2 E0]]]]]]]]]]].
  unfold bof_of. rewrite E, <- !app_assoc. destruct (P (h2 ++ b0 ++ x)) as [_ [t ->]].
  rewrite E2, E0, !len_app, Lp. symmetry. apply N.add_assoc.
Qed.
