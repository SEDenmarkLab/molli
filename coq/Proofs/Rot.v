(* C11 over the real numbers: the two rotation constructors of Model/Rot.v (rotation_matrix_from_vectors, both
   branches, and rotation_matrix_from_axis) return proper rotations with the documented effect. *)
From Coq Require Import Reals Nsatz Psatz.
From Molli Require Import Common.Field3 Common.Field3R Model.Rot.
Local Open Scope R_scope.

Ltac rot_unfold := cbv [rodrigues antiparallel rot_from_vectors skew axis_rot rot_from_axis].
(* turn the (single) division of the goal into a variable k with its defining equation k * d = 1 *)
Ltac inv_as_var Hd :=
  unfold Rdiv;
  match goal with
  | |- context [ / ?d ] =>
      let k := fresh "k" in let Hk := fresh "Hk" in
      set (k := / d); assert (Hk : k * d = 1) by (apply Rinv_l; exact Hd); clearbody k
  end.


(* NB: vectors are universally quantified in each statement (not Section variables) so that
   `vdestruct` can split them into coordinates. *)

(* How every coordinate proof starts: with the hypotheses still part of the goal, split the vectors into
   coordinates and expose the arithmetic everywhere; what is left is for ring / nsatz. *)
Ltac coords := unfold proper, unit, orth; vdestruct; rot_unfold; f3.

Lemma dot_comm (x y : vecR) : dot ROps x y = dot ROps y x.
Proof. coords. ring. Qed.
Lemma lagrange (a b : vecR) :
  dot ROps (cross ROps a b) (cross ROps a b) = dot ROps a a * dot ROps b b - dot ROps a b * dot ROps a b.
Proof. coords. ring. Qed.
(* the equation `unit (a, b, d)` unfolds to, turned into a rewrite rule for `ring [..]` *)
Lemma sum_sq_1 (a b d : R) : a * a + b * b + d * d = 1 -> a * a = 1 - b * b - d * d.
Proof. lra. Qed.
Lemma norm2_nonneg (x : vecR) : 0 <= norm2 ROps x.
Proof. coords. nra. Qed.
Lemma vm_vscale (k : R) (x : vecR) (M : matR) : vm ROps (vscale ROps k x) M = vscale ROps k (vm ROps x M).
Proof. coords. veq; ring. Qed.
Lemma vm_vzero M : vm ROps (vzero ROps) M = vzero ROps.
Proof. coords. veq; ring. Qed.
Lemma vm_vdiv (x : vecR) (n : R) (M : matR) : vm ROps (vdiv ROps x n) M = vdiv ROps (vm ROps x M) n.
Proof. coords. unfold Rdiv. veq; ring. Qed.
Lemma dot_vscale_l (k : R) (x y : vecR) : dot ROps (vscale ROps k x) y = k * dot ROps x y.
Proof. coords. ring. Qed.
Lemma triple_vscale_l (k : R) (x y z : vecR) : triple ROps (vscale ROps k x) y z = k * triple ROps x y z.
Proof. coords. ring. Qed.
Lemma dot_vdiv_r (x v : vecR) (n : R) : dot ROps x (vdiv ROps v n) = dot ROps x v / n.
Proof. coords. unfold Rdiv. ring. Qed.
Lemma dot_vdiv_l (x v : vecR) (n : R) : dot ROps (vdiv ROps v n) x = dot ROps v x / n.
Proof. coords. unfold Rdiv. ring. Qed.
Lemma vdiv_one (x : vecR) : vdiv ROps x 1 = x.
Proof. coords. veq; field. Qed.
Lemma norm2_vopp (v : vecR) : norm2 ROps (vopp ROps v) = norm2 ROps v.
Proof. coords. ring. Qed.
Lemma dot_vopp_r (x v : vecR) : dot ROps x (vopp ROps v) = - dot ROps x v.
Proof. coords. ring. Qed.
Lemma vsub_vzero_r (y : vecR) : vsub ROps y (vzero ROps) = y.
Proof. coords. veq; ring. Qed.
Lemma cross_orth_l (u x : vecR) : dot ROps (cross ROps u x) u = 0.
Proof. coords. ring. Qed.
Lemma norm2_pos (v : vecR) : v <> vzero ROps -> 0 < norm2 ROps v.
Proof.
  destruct v as [[x y] z]. intros H. f3. destruct (Rle_lt_dec (x * x + y * y + z * z) 0) as [G|G]; [|exact G].
  exfalso. apply H. f3. veq; nra.
Qed.
Lemma vscale_vdiv (v : vecR) (n : R) : n <> 0 -> vscale ROps n (vdiv ROps v n) = v.
Proof. coords. intros Hn. veq; field; exact Hn. Qed.
Lemma unit_vdiv (v : vecR) (n : R) : 0 < n -> n * n = norm2 ROps v -> unit (vdiv ROps v n).
Proof. coords. intros Hn H. assert (Hn' : n <> 0) by lra. inv_as_var Hn'. nsatz. Qed.

(* Both constructors build a matrix of this form: rotation_matrix_from_axis with a unit u, the Rodrigues
   formula with u = b x a (not a unit vector), s = 1, 1 - c = 1 / (1 + a.b).  For ANY u it is a proper
   rotation as soon as the coefficients satisfy one equation. *)
Lemma axis_proper_gen (u : vecR) (s c : R) :
  s * s = (1 - c) * (2 - (1 - c) * dot ROps u u) -> proper (axis_rot ROps u s c).
Proof. coords. intros H. split; [veq|]; ring [H]. Qed.
Lemma axis_proper (u : vecR) (s c : R) : unit u -> s * s + c * c = 1 -> proper (axis_rot ROps u s c).
Proof. unfold unit. intros Hu Hsc. apply axis_proper_gen. rewrite Hu. lra. Qed.

Lemma rod_as_axis (a b : vecR) :
  rodrigues ROps a b = axis_rot ROps (cross ROps b a) 1 (1 - / (1 + dot ROps a b)).
Proof. coords. unfold Rdiv. veq; ring. Qed.

(* the row a through that matrix, for any a, b and any coefficient k (a polynomial identity) *)
Lemma rod_row (a b : vecR) (k : R) :
  vm ROps a (axis_rot ROps (cross ROps b a) 1 (1 - k))
  = vadd ROps (vscale ROps (1 - dot ROps a b + k * (dot ROps a b * dot ROps a b - dot ROps a a * dot ROps b b)) a)
              (vscale ROps (dot ROps a a) b).
Proof. coords. veq; ring. Qed.

Lemma rod_correct (a b : vecR) : unit a -> unit b -> 1 + dot ROps a b <> 0 ->
  proper (rodrigues ROps a b) /\ vm ROps a (rodrigues ROps a b) = b.
Proof.
  unfold unit. intros Ha Hb Hc. rewrite rod_as_axis. split.
  - apply axis_proper_gen. rewrite lagrange, Ha, Hb, (dot_comm b a). field. exact Hc.
  - rewrite rod_row, Ha, Hb.
    replace (1 - dot ROps a b + / (1 + dot ROps a b) * (dot ROps a b * dot ROps a b - 1 * 1)) with 0 by (field; exact Hc).
    clear. coords. veq; ring.
Qed.

Lemma norm2_residue (a o b : vecR) (p q : R) :
  norm2 ROps (vsub ROps a (vadd ROps (vscale ROps p o) (vscale ROps q b)))
  = dot ROps a a - 2 * p * dot ROps a o - 2 * q * dot ROps a b
    + p * p * dot ROps o o + q * q * dot ROps b b + 2 * p * q * dot ROps o b.
Proof. coords. ring. Qed.
(* Bessel: the components of a unit vector along two orthonormal directions *)
Lemma bessel2 (a b ov : vecR) : unit a -> unit b -> unit ov -> dot ROps ov b = 0 ->
  dot ROps a ov * dot ROps a ov + dot ROps a b * dot ROps a b <= 1.
Proof.
  unfold unit. intros Ha Hb Ho Hob.
  (* what is left of a after taking out both components has a square length >= 0 *)
  pose proof (norm2_nonneg (vsub ROps a (vadd ROps (vscale ROps (dot ROps a ov) ov) (vscale ROps (dot ROps a b) b)))) as N.
  rewrite norm2_residue, Ha, Hb, Ho, Hob in N. lra.
Qed.

(* so, once a.b <> 0 (in the code: a.b <= -1 + tol < 0), the first factor's denominator 1 + a.ov is not 0 *)
Lemma anti_denominator (a b ov : vecR) : unit a -> unit b -> unit ov -> dot ROps ov b = 0 ->
  dot ROps a b <> 0 -> 1 + dot ROps a ov <> 0.
Proof.
  intros Ha Hb Ho Hob Hab Hp. pose proof (bessel2 a b ov Ha Hb Ho Hob) as B.
  pose proof (Rsqr_pos_lt _ Hab) as Q. unfold Rsqr in Q.
  replace (dot ROps a ov) with (-1) in B by lra. lra.
Qed.

Lemma antiparallel_correct (a b ov : vecR) : unit a -> unit b -> unit ov -> dot ROps ov b = 0 ->
  dot ROps a b <> 0 -> proper (antiparallel ROps a b ov) /\ vm ROps a (antiparallel ROps a b ov) = b.
Proof.
  intros Ha Hb Ho Hob Hab.
  destruct (rod_correct a ov Ha Ho (anti_denominator a b ov Ha Hb Ho Hob Hab)) as [P1 M1].
  destruct (rod_correct ov b Ho Hb) as [P2 M2]; [rewrite Hob; lra|].
  unfold antiparallel. split; [now apply proper_mmul | now rewrite vm_mmul, M1].
Qed.

Theorem rot_from_vectors_correct (tol : R) (v1 v2 ov : vecR) (n1 n2 : R) :
  0 <= tol < 1 ->
  0 < n1 -> n1 * n1 = norm2 ROps v1 -> 0 < n2 -> n2 * n2 = norm2 ROps v2 ->
  unit ov -> dot ROps ov v2 = 0 ->
  proper (rot_from_vectors ROps tol v1 n1 v2 n2 ov) /\
  vm ROps (vdiv ROps v1 n1) (rot_from_vectors ROps tol v1 n1 v2 n2 ov) = vdiv ROps v2 n2.
Proof.
  intros Htol Hn1 E1 Hn2 E2 Ho Hov.
  pose proof (unit_vdiv v1 n1 Hn1 E1) as Ua. pose proof (unit_vdiv v2 n2 Hn2 E2) as Ub.
  assert (Hob : dot ROps ov (vdiv ROps v2 n2) = 0) by (rewrite dot_vdiv_r, Hov; unfold Rdiv; ring).
  unfold rot_from_vectors. cbv zeta.
  destruct (fleb ROps _ _) eqn:Br; [apply Rleb_true in Br | apply Rleb_false in Br]; cbn [ROps fadd fopp f1] in Br.
  - apply antiparallel_correct; try assumption. lra.
  - apply rod_correct; try assumption. lra.
Qed.

Lemma axis_fixes (u : vecR) (s c : R) : vm ROps u (axis_rot ROps u s c) = u.
Proof. coords. veq; ring. Qed.
Lemma axis_trace (u : vecR) (s c : R) : unit u -> trace ROps (axis_rot ROps u s c) = 1 + 2 * c.
Proof. coords. intros Hu. apply sum_sq_1 in Hu. ring [Hu]. Qed.
(* The angle, including its sense.  For the ROW action x R used by `coords @ R`, with p the part of x across u:
   dot x (x R) = c |p|^2 + (u.x)^2  and  triple u x (x R) = - s |p|^2.  The COLUMN action R x is the row action of
   the transpose, which is the same matrix with - s for s: a right-handed turn by the angle. *)
Lemma axis_cos_row (u x : vecR) (s c : R) : unit u ->
  dot ROps x (vm ROps x (axis_rot ROps u s c))
  = c * (dot ROps x x - dot ROps u x * dot ROps u x) + dot ROps u x * dot ROps u x.
Proof. coords. intros Hu. apply sum_sq_1 in Hu. ring [Hu]. Qed.
Lemma axis_sense_row (u x : vecR) (s c : R) : unit u ->
  triple ROps u x (vm ROps x (axis_rot ROps u s c)) = - s * (dot ROps x x - dot ROps u x * dot ROps u x).
Proof. coords. intros Hu. apply sum_sq_1 in Hu. ring [Hu]. Qed.
Lemma axis_rot_trans (u : vecR) (s c : R) : mtrans (axis_rot ROps u s c) = axis_rot ROps u (- s) c.
Proof. coords. veq; ring. Qed.

Theorem rot_from_axis_correct (ax : vecR) (n s c : R) :
  0 < n -> n * n = norm2 ROps ax -> s * s + c * c = 1 ->
  let M := rot_from_axis ROps ax n s c in
  proper M /\ vm ROps ax M = ax /\ trace ROps M = 1 + 2 * c /\
  (forall x, dot ROps x (mv ROps M x) * (n * n) = c * (dot ROps x x * (n * n) - dot ROps ax x * dot ROps ax x) + dot ROps ax x * dot ROps ax x) /\
  (forall x, triple ROps ax x (mv ROps M x) * n = s * (dot ROps x x * (n * n) - dot ROps ax x * dot ROps ax x)).
Proof.
  intros Hn E Hsc. pose proof (unit_vdiv ax n Hn E) as U. unfold rot_from_axis, mv. cbv zeta.
  (* everything in terms of the unit vector u = ax / n *)
  set (u := vdiv ROps ax n) in *.
  assert (Hax : ax = vscale ROps n u) by (subst u; symmetry; apply vscale_vdiv; lra).
  clearbody u. subst ax. rewrite axis_rot_trans, vm_vscale, axis_fixes.
  split; [now apply axis_proper|]. split; [reflexivity|]. split; [now apply axis_trace|]. split; intros x.
  - rewrite dot_vscale_l, axis_cos_row by exact U. ring.
  - rewrite triple_vscale_l, dot_vscale_l, axis_sense_row by exact U. ring.
Qed.
