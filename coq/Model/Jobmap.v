(* C18 -- "jobmap computes each item once, reuses only valid results, resumes cleanly".
   Executable model of molli/pipeline/job.py `jobmap` (to_be_done, per-item cache test, dispatch, finalisation; single
   and vectorised jobs) over
     - the source keys (with the number of sub-items a vectorised job expands each into),
     - the destination map,
     - the cache directory  <cache>/output/<name>.out : name -> corrupt | (input hash, exit code, return file present, ...),
     - an execution counter per name,
   with the outcome of the n-th execution of an item given by an oracle (Section variable); for the correspondence runs
   the oracle is computed from per-execution COMMAND scripts (run_cmds: several commands, named or not, a failure at any
   position, the return file written before / by / after the failing command).
   The input hash is modelled by the job argument it was computed from: within one cache file name (= one source item)
   the JobInput is a function of the arguments only, and sha3-512 is taken to be collision free on the inputs used.
   No proofs in this file (Proofs/Jobmap.v). *)
From Coq Require Import List Bool NArith ZArith String Ascii.
Import ListNotations.
From Molli Require Import Model.Job.
Local Open Scope string_scope.

(* how a command that does not succeed ends: it exits with a positive status, or it is KILLED BY A SIGNAL (OOM killer,
   scheduler, segfault, kill): subprocess reports the negative signal number, and run_local records that as the exit
   code of the job.  Either way the recorded code is not 0. *)
Inductive ecode := Exit (k : positive) | Signal (s : positive).
Definition ecode_Z (e : ecode) : Z := match e with Exit k => Zpos k | Signal s => Zneg s end.

(* scripted outcome of one execution of one (sub-)item *)
Inductive okind :=
| OSucceed                  (* commands succeed, return file written          -> exit code 0 *)
| OFail (code : ecode)      (* a command fails / is killed before the return file exists -> exit code `code` *)
| OFailFile (code : ecode)  (* the return file is written, then a command fails / is killed -> exit code `code` *)
| OOmit.                    (* commands succeed but the return file is missing -> exit code 1 (run_local) *)

(* a JobOutput as jobmap sees it *)
Record output := mk_out {
  o_arg : string;       (* stands for input_hash: the job argument the input was prepared with *)
  o_code : Z;           (* JobOutput.exitcode *)
  o_file : bool;        (* the requested return file is among JobOutput.files *)
  o_attempt : N }.      (* which execution of the item produced it (carried in the payload) *)

Inductive centry := CCorrupt | COut (o : output).

(* a processed result: for every (sub-)item the argument and the attempt its output came from *)
Definition value := list (string * N).

Record jstate := mk_js {
  js_src : list (string * nat);          (* source keys; for a vectorised job: number of conformers *)
  js_dst : list (string * value);
  js_cache : list (string * centry);
  js_count : list (string * N) }.

Record jparams := mk_jp {
  jp_arg : string;       (* kwargs of the job: change the JobInput, hence its hash *)
  jp_strict : bool;      (* strict_hash *)
  jp_vec : bool }.       (* vectorised job (Job.vectorize): one sub-item per conformer *)

Definition digit (i : nat) : string :=
  match i with 0 => "0" | 1 => "1" | 2 => "2" | 3 => "3" | 4 => "4" | 5 => "5" | 6 => "6" | 7 => "7" | 8 => "8" | 9 => "9"
  | _ => "?" end%nat.

(* cache file names of one source item: <key>.out, or <key>.<i>.out for i < L *)
Definition names (p : jparams) (kl : string * nat) : list string :=
  if jp_vec p then map (fun i => fst kl ++ "." ++ digit i) (seq 0 (snd kl)) else [fst kl].

Definition cnt (st : jstate) (nm : string) : N := match dget nm (js_count st) with Some n => n | None => 0%N end.

(* (not strict_hash or _out.input_hash == _inp.hash) and _out.exitcode == 0, for an output file that exists and loads *)
Definition valid (p : jparams) (e : option centry) : bool :=
  match e with
  | Some (COut o) => (negb (jp_strict p) || String.eqb (o_arg o) (jp_arg p)) && Z.eqb (o_code o) 0
  | _ => false
  end.

Definition out_of (arg : string) (k : okind) (n : N) : output :=
  match k with
  | OSucceed => mk_out arg 0 true n
  | OFail c => mk_out arg (ecode_Z c) false n
  | OFailFile c => mk_out arg (ecode_Z c) true n
  | OOmit => mk_out arg 1 false n
  end.

Definition mem (x : string) (l : list string) : bool := existsb (String.eqb x) l.

(* ---- the COMMANDS of one execution.  A JobInput carries a list of commands (command, name or None); run_local runs
   them in order and stops at the first one that fails; only a NAMED command's stdout/stderr are recorded.  What one
   command of one execution does, as far as jobmap can tell: does it write the return file, and its exit code. *)
Record cstep := mk_cs {
  cs_named : bool;               (* named (recorded) or None: makes no difference to the outcome (run_cmds ignores it) *)
  cs_write : bool;               (* writes the return file (before it exits / is killed) *)
  cs_code : option ecode;        (* None: exit code 0; Some c: the command fails with exit status / dies from signal c *)
  cs_crash : bool }.             (* (only for a command that does not succeed) not the command but the RUNNER process
                                    ends here -- it is killed, or the command's program does not exist and
                                    subprocess.run raises inside _molli_run --: no output file is written at all *)

(* the outcome of an execution from its commands: they run in order up to and INCLUDING the first failing one (named
   or not, last or not), whose exit code is the recorded one; the return file exists iff an executed command wrote it;
   all commands succeeded: exit code 0 iff the return file exists.  `file`: the return file exists already. *)
Fixpoint run_cmds (file : bool) (l : list cstep) : okind :=
  match l with
  | [] => if file then OSucceed else OOmit
  | c :: r =>
      let file' := file || cs_write c in
      match cs_code c with
      | None => run_cmds file' r
      | Some k => if file' then OFailFile k else OFail k
      end
  end.

(* does the runner die during this execution?  (at its first command that does not succeed) *)
Fixpoint crash_cmds (l : list cstep) : bool :=
  match l with
  | [] => false
  | c :: r => match cs_code c with None => crash_cmds r | Some _ => cs_crash c end
  end.

(* outcome oracle given by per-execution command scripts *)
Definition cmd_outcome (script : string -> N -> list cstep) (nm : string) (n : N) : okind := run_cmds false (script nm n).

(* the same commands as an oracle for the run_local model of Model/Job.v (C17): command type = cstep, the return file
   is `rf`, a writing command stores `payload` in it *)
Definition cs_exit (c : cstep) : Z := match cs_code c with Some k => ecode_Z k | None => 0%Z end.
Definition step_exec (rf payload : string) (c : cstep) (e : env) (f : fs) : cmd_result :=
  mk_res (cs_exit c) "" "" (if cs_write c then dset rf payload f else f) [].

Section Jobmap.
  Variable outcome : string -> N -> okind.     (* what the n-th execution of item `name` does *)

  (* one _molli_run of item nm: the output file is (over)written, the counter advances *)
  Definition fresh (p : jparams) (st : jstate) (nm : string) : output :=
    out_of (jp_arg p) (outcome nm (cnt st nm)) (cnt st nm).
  Definition exec_one (p : jparams) (st : jstate) (nm : string) : jstate :=
    mk_js (js_src st) (js_dst st) (dset nm (COut (fresh p st nm)) (js_cache st)) (dset nm (cnt st nm + 1)%N (js_count st)).

  (* to_be_done = all_keys - skip_keys *)
  Definition todo (st : jstate) : list (string * nat) :=
    filter (fun kl => negb (dhas (fst kl) (js_dst st))) (js_src st).
  (* jobs_to_run: the sub-items of the work items that have no valid cached output *)
  Definition runlist (p : jparams) (st : jstate) : list string :=
    flat_map (fun kl => filter (fun nm => negb (valid p (dget nm (js_cache st)))) (names p kl)) (todo st).

  (* finalisation of one work item: every output loads, reports success, and post finds the return file *)
  Definition good (e : option centry) : option output :=
    match e with
    | Some (COut o) => if Z.eqb (o_code o) 0 && o_file o then Some o else None
    | _ => None
    end.
  Fixpoint all_good (cache : list (string * centry)) (nms : list string) : option value :=
    match nms with
    | [] => Some []
    | nm :: r => match good (dget nm cache), all_good cache r with
                 | Some o, Some v => Some ((o_arg o, o_attempt o) :: v)
                 | _, _ => None
                 end
    end.
  Definition finalise (p : jparams) (cache : list (string * centry)) (d : list (string * value)) (kl : string * nat)
    : list (string * value) :=
    match all_good cache (names p kl) with Some v => dset (fst kl) v d | None => d end.

  Definition jobmap (p : jparams) (st : jstate) : jstate :=
    let td := todo st in
    let st1 := fold_left (exec_one p) (runlist p st) st in
    mk_js (js_src st1) (fold_left (finalise p (js_cache st1)) td (js_dst st1)) (js_cache st1) (js_count st1).

  (* histories: runs interleaved with what the outside world does to the cache and the destination *)
  Inductive jevent :=
  | JRun (p : jparams)
  | JCorrupt (nm : string)                 (* the cached output file is damaged *)
  | JPut (k : string) (v : value)          (* somebody stores a result in the destination (any key) *)
  | JNewDst.                               (* the next runs go to a new, empty destination (same cache directory) *)

  Definition jstep (st : jstate) (ev : jevent) : jstate :=
    match ev with
    | JRun p => jobmap p st
    | JCorrupt nm => mk_js (js_src st) (js_dst st) (dset nm CCorrupt (js_cache st)) (js_count st)
    | JPut k v => mk_js (js_src st) (dset k v (js_dst st)) (js_cache st) (js_count st)
    | JNewDst => mk_js (js_src st) [] (js_cache st) (js_count st)
    end.

  (* states after every event *)
  Fixpoint jtrace (st : jstate) (evs : list jevent) : list jstate :=
    match evs with [] => [] | ev :: r => let st1 := jstep st ev in st1 :: jtrace st1 r end.
End Jobmap.


(* ------------------------------------------------------------------ round 3: the handle's view, a runner that dies *)
(* (1) `Collection.keys()` returns the key set the HANDLE holds in memory; it is refreshed from the file only on
   entering reading()/writing().  jobmap computes `skip_keys` from that view: todo_seen is the work list for a given
   view; jobmap takes the view inside `with destination.reading()`, i.e. the keys of the file (jobmapX below; a
   fresh handle, or one whose file another handle / process wrote to, holds a stale view -- Props/C18.v: C18_stale_view_refuted).
   (2) The runner process of an execution may die before it writes its output file (it is killed; the program of a
   command does not exist and subprocess.run raises): `crashes nm n`.  The execution took place (counter), but no
   output is written.  jobmap removes the old output it judged unsuitable BEFORE it dispatches the item (repair
   df05caa), so the cache has no entry for the item afterwards.  before_repair = true is the code before that repair:
   the old output stays, and the finalisation loads it without looking at its input hash
   (Props/C18.v: C18_stale_output_stored_refuted_before_repair). *)
Definition drm {V} (k : string) (d : list (string * V)) : list (string * V) :=
  filter (fun kv => negb (String.eqb k (fst kv))) d.

Section JobmapX.
  Variable outcome : string -> N -> okind.
  Variable crashes : string -> N -> bool.
  Variable before_repair : bool.

  Definition exec_oneX (p : jparams) (st : jstate) (nm : string) : jstate :=
    if crashes nm (cnt st nm)
    then mk_js (js_src st) (js_dst st) (if before_repair then js_cache st else drm nm (js_cache st))
               (dset nm (cnt st nm + 1)%N (js_count st))
    else exec_one outcome p st nm.

  Definition todo_seen (seen : list string) (st : jstate) : list (string * nat) :=
    filter (fun kl => negb (mem (fst kl) seen)) (js_src st).
  Definition runlist_seen (p : jparams) (seen : list string) (st : jstate) : list string :=
    flat_map (fun kl => filter (fun nm => negb (valid p (dget nm (js_cache st)))) (names p kl)) (todo_seen seen st).

  Definition jobmapX_seen (p : jparams) (seen : list string) (st : jstate) : jstate :=
    let td := todo_seen seen st in
    let st1 := fold_left (exec_oneX p) (runlist_seen p seen st) st in
    mk_js (js_src st1) (fold_left (finalise p (js_cache st1)) td (js_dst st1)) (js_cache st1) (js_count st1).

  (* with destination.reading(): skip_keys = destination.keys() *)
  Definition jobmapX (p : jparams) (st : jstate) : jstate := jobmapX_seen p (map fst (js_dst st)) st.

  Definition jstepX (st : jstate) (ev : jevent) : jstate :=
    match ev with JRun p => jobmapX p st | _ => jstep outcome st ev end.
  Fixpoint jtraceX (st : jstate) (evs : list jevent) : list jstate :=
    match evs with [] => [] | ev :: r => let st1 := jstepX st ev in st1 :: jtraceX st1 r end.
End JobmapX.

(* new entries of the destination come from outputs of THIS input (the job argument stands for the input hash) *)
Definition value_of_arg (a : string) (v : value) : bool := forallb (fun x => String.eqb (fst x) a) v.

(* ------------------------------------------------------------------ correspondence *)
(* scripted outcome streams: name -> the command scripts of attempt 0, 1, ...; beyond the list: success *)
Definition plan_outcome (plans : list (string * list (list cstep))) (nm : string) (n : N) : okind :=
  match dget nm plans with
  | Some l => match nth_error l (N.to_nat n) with Some cmds => run_cmds false cmds | None => OSucceed end
  | None => OSucceed
  end.

Definition plan_crashes (plans : list (string * list (list cstep))) (nm : string) (n : N) : bool :=
  match dget nm plans with
  | Some l => match nth_error l (N.to_nat n) with Some cmds => crash_cmds cmds | None => false end
  | None => false
  end.

Definition out_eqb (a b : output) : bool :=
  String.eqb (o_arg a) (o_arg b) && Z.eqb (o_code a) (o_code b) && Bool.eqb (o_file a) (o_file b) && N.eqb (o_attempt a) (o_attempt b).
Definition centry_eqb (a b : centry) : bool :=
  match a, b with CCorrupt, CCorrupt => true | COut x, COut y => out_eqb x y | _, _ => false end.
Definition value_eqb (a b : value) : bool :=
  list_eqb (fun x y => String.eqb (fst x) (fst y) && N.eqb (snd x) (snd y)) a b.

(* equality of dicts as maps (the order in which jobmap walks a set of keys is not observable) *)
Definition map_sub {V} (e : V -> V -> bool) (a b : list (string * V)) : bool :=
  forallb (fun kv => match dget (fst kv) b with Some w => e (snd kv) w | None => false end) a.
Definition map_eqb {V} (e : V -> V -> bool) (a b : list (string * V)) : bool := map_sub e a b && map_sub e b a.
(* counters: an absent counter file = 0 *)
Definition count_sub (a b : list (string * N)) : bool :=
  forallb (fun kv => N.eqb (snd kv) (match dget (fst kv) b with Some n => n | None => 0%N end)) a.

Record jobs := mk_jobs {           (* what the harness saw after one event *)
  jo_dst : list (string * value);
  jo_cache : list (string * centry);
  jo_count : list (string * N) }.

Definition jobs_eqb (st : jstate) (o : jobs) : bool :=
  map_eqb value_eqb (js_dst st) (jo_dst o) && map_eqb centry_eqb (js_cache st) (jo_cache o)
  && count_sub (js_count st) (jo_count o) && count_sub (jo_count o) (js_count st).

Record jcase := mk_jcase {
  jc_plans : list (string * list (list cstep));
  jc_init : jstate;
  jc_events : list jevent;
  jc_obs : list jobs }.

Fixpoint all2 {A B} (e : A -> B -> bool) (a : list A) (b : list B) : bool :=
  match a, b with [], [] => true | x :: a', y :: b' => e x y && all2 e a' b' | _, _ => false end.

Definition check_jcase (c : jcase) : bool :=
  all2 jobs_eqb (jtraceX (plan_outcome (jc_plans c)) (plan_crashes (jc_plans c)) false (jc_init c) (jc_events c)) (jc_obs c).
