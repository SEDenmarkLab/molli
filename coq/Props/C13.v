(* C13 -- CDXML parsing reproduces the drawing: constitution, charges, and handedness.   LABEL: PARTIAL.

   Full statement (properties.jsonl):  each labelled fragment of a CDXML file parses to a molecule with one atom per
   drawn node, one bond per drawn bond with the drawn order, the drawn isotopes, formal charges and radical counts
   (total charge and multiplicity follow), and attachment points where drawn.  Mirroring the stereo marks (wedge <->
   hash) leaves the constitution unchanged and inverts the handedness of every non-planar centre of the model,
   parsing is deterministic, and a label always resolves to the same fragment.

   What is PROVED here, about the executable model Model/Cdx.v (the same definitions the correspondence shards run
   against CDXMLFile on every bundled fragment and on generated variants):
     T  the decision tables of the RUNNING parser (regenerated into Gen/CdxTables.v on every run) equal the model on
        the whole probe product, and the probe product is complete                      (the C13_..._table_... theorems);
     1  per-node / per-bond decisions for ALL attribute values                          (C13_node_decisions and following);
     2  fragment assembly for ALL node / bond lists: one atom per node, one bond per bond (hapto bonds: one Ligand
        bond per attached atom), charge = sum, multiplicity = sum + 1, nested joins     (C13_one_atom_per_node and following);
     3  wedge <-> hash: the constitution is unchanged (also through nested fragments), the sign of every stereo
        action is negated and nothing else; on a planar drawing whose stereo bonds take the out-of-plane ROTATION
        branch (plane normal +ez), the ring branch or the Bold/Hash translation branch, the 3-D model of the mirrored drawing is the
        mirror image, so every signed volume changes sign                               (the C13_mirror_... theorems);
     4  __getitem__ is a function of (file, key): the cache only memoises              (C13_label_deterministic).
   What is NOT proved (covered by the differential run / the oracle only):
     - XML text -> element tree; the KD-tree query (modelled as "5 nearest in L1", compared differentially);
     - mean_plane (SVD): the normal is an argument; "+ez on coplanar neighbours" is a hypothesis of the mirror
       theorems, checked differentially wherever the geometric model applies;
     - stereo bonds whose centre's neighbours already left the plane z = const (accumulated displacements);
     - hapto centres (z of the centre is set from max - min of its neighbours: even under the mirror), excluded by
       the property;  Structure.join's geometry (C12). *)
From Coq Require Import List ZArith NArith QArith String Bool Reals.
From Molli Require Import Common.Field3 Common.Field3R Model.Rot Model.Cdx Proofs.Cdx Gen.CdxTables.
From Coq Require Import Lra Lia.
From Molli Require Import Common.ListFacts.
Import ListNotations.

(* T: the running parser's decision tables *)
(* every probe node (NodeType x Element x Isotope x Charge x Radical x NumHydrogens x AtomNumber x
   ExternalConnectionNum x GenericNickname/label text) was turned by the parser into exactly the model's atom
   (or refused exactly when the model refuses), and the rows are the whole product *)
Theorem C13_node_table_agrees : forallb (forallb node_row_ok) node_tables = true.
Proof. vm_compute. reflexivity. Qed.
Print Assumptions C13_node_table_agrees.
Theorem C13_node_table_complete : map fst (List.concat node_tables) = node_domain.
Proof.
  (* 8064 probe nodes: a VM-checked cast compares the two evaluated lists directly; `vm_compute. reflexivity.` would
     build both normal forms as terms and compare them again at Qed *)
  exact (@eq_refl _ node_domain <: map fst (List.concat node_tables) = node_domain).
Qed.
Print Assumptions C13_node_table_complete.

(* Order x Display -> bond type and Bond.order *)
Theorem C13_bond_table_agrees :
  forallb bond_row_ok bond_table = true /\ map (fun r => (fst (fst r), snd (fst r))) bond_table = bond_domain.
Proof. vm_compute. split; reflexivity. Qed.
Print Assumptions C13_bond_table_agrees.

(* Display -> which end is the stereo centre, and the sign, read off the parsed geometry of a ring probe and of a
   star probe for every Display value *)
Theorem C13_display_table_agrees :
  forallb display_row_ok display_table = true /\ map (fun r => fst (fst r)) display_table = all_displays.
Proof. vm_compute. split; reflexivity. Qed.
Print Assumptions C13_display_table_agrees.

(* mirror antisymmetry ON THE OBSERVED TABLE: swapping wedge <-> hash negates every sign of the observed pattern and
   keeps which atoms move / which end is lifted more *)
Theorem C13_mirror_table : forall d,
  exists r r', row_of display_table d = Some r /\ row_of display_table (mirror_display d) = Some r' /\
               (snd (fst r'), snd r') = neg_row r.
Proof. intros d. apply mirror_table_sound; [vm_compute; reflexivity | apply all_displays_complete]. Qed.
Print Assumptions C13_mirror_table.

(* 1: decisions, for all attribute values *)
Theorem C13_node_decisions (n : xnode) (a : atom) : parse_atom_node n = Ok a ->
  a_iso a = n_iso n /\ a_charge a = odflt 0%Z (n_charge n) /\ a_spin a = rad_code (n_rad n) /\ a_implh a = n_numh n /\
  (if is_special (n_type n) then a_atype a = ATAttachment /\ a_elem a = 0%Z
   else a_atype a = ATRegular /\ a_elem a = odflt 6%Z (n_elem n) /\ a_label a = n_anum n).
Proof. exact (parse_atom_node_spec n a). Qed.
Print Assumptions C13_node_decisions.

(* the parser refuses a node only for an element number outside 0..118 or an Unspecified node without label text *)
Theorem C13_node_accepted (n : xnode) :
  (is_special (n_type n) = false -> valid_element (odflt 6%Z (n_elem n)) = true) ->
  (n_type n = NTUnspecified -> n_text n <> None) ->
  exists a, parse_atom_node n = Ok a.
Proof.
  unfold parse_atom_node. intros Hv Ht.
  destruct (n_type n) eqn:E; simpl in *; try (rewrite Hv by reflexivity); eauto.
  destruct (n_text n); [eauto | exfalso; apply Ht; reflexivity].
Qed.
Print Assumptions C13_node_accepted.

(* a drawn order (absent = 1, 1..6, 1.5) on a bond that is not dashed gives a bond type whose Bond.order is it *)
Theorem C13_drawn_order (o : xorder) (d : display) (q : Q) :
  drawn_order o = Some q -> d <> DDash -> exists t, parse_bond_type o d = Ok t /\ Qeq (order_of_btype t) q.
Proof.
  intros Ho Hd. rewrite (parse_bond_type_not_dash o d Hd). destruct o as [|z| |]; simpl in Ho; try discriminate.
  - inversion Ho; subst. now exists BT_Single.
  - destruct ((1 <=? z)%Z && (z <=? 6)%Z) eqn:R; [|discriminate]. inversion Ho; subst.
    rewrite andb_true_iff, !Z.leb_le in R.
    assert (Hz : (z = 1 \/ z = 2 \/ z = 3 \/ z = 4 \/ z = 5 \/ z = 6)%Z) by lia.
    destruct Hz as [->|[->|[->|[->|[->| ->]]]]]; (eexists; split; reflexivity).
  - inversion Ho; subst. now exists BT_Aromatic.
Qed.
Print Assumptions C13_drawn_order.
Theorem C13_dash_is_ligand (o : xorder) (t : N) : parse_bond_type o DDash = Ok t -> t = BT_Ligand.
Proof.
  unfold parse_bond_type. destruct o as [|z| |]; try discriminate.
  - intros H; inversion H; reflexivity.
  - destruct (zmem z bondtype_values); [|discriminate]. intros H; inversion H; reflexivity.
  - intros H; inversion H; reflexivity.
Qed.
Print Assumptions C13_dash_is_ligand.

(* 2: assembly, for all node / bond lists *)
(* one atom per drawn node (multi-attachment pseudo-nodes aside), in drawing order, each the parsed node (hapto
   centres re-typed); total charge = sum of drawn formal charges; multiplicity = sum of drawn radical codes + 1 *)
Theorem C13_one_atom_per_node (ns : list xnode) (xbs : list xbond) (m : mol) : assemble ns xbs = Ok m ->
  List.length (m_atoms m) = List.length (plain ns) /\
  Forall2 (fun n a => exists a0, parse_atom_node n = Ok a0 /\ (a = a0 \/ a = set_atype ATCoord a0)) (plain ns) (m_atoms m) /\
  m_charge m = zsum (map drawn_charge (plain ns)) /\
  m_mult m = (zsum (map drawn_spin (plain ns)) + 1)%Z.
Proof.
  intros H. destruct (assemble_inv _ _ _ H) as [ats [bs [cs [I2 [_ ->]]]]]. simpl.
  unfold mark_centers, total_charge, total_spin. rewrite mark_from_length, !mark_from_map by reflexivity.
  split; [symmetry; exact (Forall2_length _ _ _ I2)|]. split; [exact (Forall2_compose _ _ _ _ _ I2 (mark_from_rel cs ats 0))|].
  split; [|f_equal]; f_equal; symmetry; apply (Forall2_map_eq _ _ _ _ _ I2);
    intros n a P; apply parse_atom_node_spec in P; unfold drawn_charge, drawn_spin; symmetry; tauto.
Qed.
Print Assumptions C13_one_atom_per_node.

(* without multi-attachment nodes: exactly one bond per drawn bond, in drawing order, between the atoms of the
   drawn ends, with the drawn type; and every atom is exactly the parsed node *)
Theorem C13_one_bond_per_bond (ns : list xnode) (xbs : list xbond) (m : mol) :
  filter is_multi ns = [] -> assemble ns xbs = Ok m ->
  Forall2 (bond_of_drawn (map n_id ns)) xbs (m_bonds m) /\
  Forall2 (fun n a => parse_atom_node n = Ok a) ns (m_atoms m).
Proof.
  intros Hm H. destruct (assemble_inv _ _ _ H) as [ats [bs [cs [I2 [B ->]]]]]. rewrite Hm in B.
  rewrite (plain_no_multi ns Hm) in *. destruct (scan_bonds_spec _ _ _ _ _ B) as [gs [F [-> ->]]]. simpl.
  assert (G : Forall2 (bond_of_drawn (map n_id ns)) xbs (List.concat (map fst gs)) /\ somes (map snd gs) = []).
  { clear - F. induction F as [|xb [g c] xbs gs Hb _ [IH1 IH2]]; [split; constructor|].
    destruct (bonds_of_plain [] _ xb g c eq_refl eq_refl Hb) as [-> [b [-> Hd]]]. simpl. split; [now constructor | exact IH2]. }
  destruct G as [G ->]. split; [exact G|]. unfold mark_centers. now rewrite mark_from_nil.
Qed.
Print Assumptions C13_one_bond_per_bond.

(* in general: the bond list is the concatenation, in drawing order, of each drawn bond's contribution ... *)
Theorem C13_bonds_in_drawing_order (ns : list xnode) (xbs : list xbond) (m : mol) : assemble ns xbs = Ok m ->
  let ma := map (fun n => (n_id n, n_attach n)) (filter is_multi ns) in
  let ids := map n_id (plain ns) in
  exists groups, m_bonds m = List.concat groups /\
                 Forall2 (fun xb g => exists c, bonds_of ma ids xb = Ok (g, c)) xbs groups.
Proof.
  intros H. destruct (assemble_inv _ _ _ H) as [ats [bs [cs [_ [B ->]]]]].
  destruct (scan_bonds_spec _ _ _ _ _ B) as [gs [F [-> _]]]. exists (map fst gs). split; [reflexivity|].
  clear - F. induction F as [|xb [g c] xbs gs Hb _ IH]; constructor; eauto.
Qed.
Print Assumptions C13_bonds_in_drawing_order.
(* ... which is ONE bond for a bond between two ordinary nodes ... *)
Theorem C13_plain_bond ma ids xb g c :
  dict_get (xb_B xb) ma = None -> dict_get (xb_E xb) ma = None -> bonds_of ma ids xb = Ok (g, c) ->
  c = None /\ exists b, g = b :: nil /\ bond_of_drawn ids xb b.
Proof. exact (bonds_of_plain ma ids xb g c). Qed.
Print Assumptions C13_plain_bond.
(* ... and one Ligand bond of fractional order 1/n per attached atom for a bond to a multi-attachment node *)
Theorem C13_hapto_bond ma ids xb g c center att :
  (dict_get (xb_B xb) ma = Some att /\ center = xb_E xb) \/
  (dict_get (xb_B xb) ma = None /\ dict_get (xb_E xb) ma = Some att /\ center = xb_B xb) ->
  bonds_of ma ids xb = Ok (g, c) ->
  att <> [] /\ (exists ci, atom_index ids center = Ok ci /\ c = Some ci) /\
  Forall2 (hapto_bond ids center (List.length att)) att g.
Proof.
  intros Hc H. apply hapto_bonds_spec. now rewrite <- (bonds_of_hapto_bonds ma ids xb center att Hc).
Qed.
Print Assumptions C13_hapto_bond.

(* an expanded (nested) node: the two attachment points disappear, every other atom is carried over unchanged,
   the two bonds to the attachment points become one *)
Theorem C13_join_counts (r s m : mol) (key : string) : join_sub r key s = Ok m ->
  exists i j, find_label key (m_atoms r) 0 = Some i /\ find_ap (m_atoms s) 0 = Some j /\
    m_atoms m = remove_nth i (m_atoms r) ++ remove_nth j (m_atoms s) /\
    (List.length (m_atoms m) + 2 = List.length (m_atoms r) + List.length (m_atoms s))%nat /\
    (List.length (m_bonds m) + 1 = List.length (m_bonds r) + List.length (m_bonds s))%nat.
Proof.
  unfold join_sub. intros H.
  destruct (find_label key (m_atoms r) 0) as [i|] eqn:Fi; [|discriminate].
  destruct (find_ap (m_atoms s) 0) as [j|] eqn:Fj; [|discriminate].
  destruct (filter (touches i) (m_bonds r)) as [|bi [|? ?]] eqn:Bi; try discriminate.
  destruct (filter (touches j) (m_bonds s)) as [|bj [|? ?]] eqn:Bj; try discriminate.
  inversion H; subst; clear H. exists i, j. simpl. repeat split; try reflexivity.
  - apply find_label_lt in Fi. apply find_ap_lt in Fj.
    pose proof (remove_nth_length (m_atoms r) i ltac:(lia)). pose proof (remove_nth_length (m_atoms s) j ltac:(lia)).
    rewrite app_length. lia.
  - pose proof (filter_partition_length (touches i) (m_bonds r)) as P1. pose proof (filter_partition_length (touches j) (m_bonds s)) as P2.
    rewrite Bi in P1. rewrite Bj in P2. simpl in P1, P2.
    rewrite !app_length, !map_length. simpl. lia.
Qed.
Print Assumptions C13_join_counts.

(* whatever the nesting: charge = sum of the atoms' formal charges, multiplicity = sum of radical codes + 1 *)
Theorem C13_charge_mult (f : xfrag) (m : mol) : expand f = Ok m ->
  m_charge m = zsum (map a_charge (m_atoms m)) /\ m_mult m = (zsum (map a_spin (m_atoms m)) + 1)%Z.
Proof. exact (expand_charge_mult f m). Qed.
Print Assumptions C13_charge_mult.

(* 3: wedge <-> hash *)
(* decision level: the sign of the stereo action is negated, the end that is the centre is kept, the bond type is
   untouched, unmarked bonds are untouched, and mirroring twice is the identity *)
Theorem C13_mirror_decisions (o : xorder) (d : display) :
  display_action (mirror_display d) = neg_action (display_action d) /\
  parse_bond_type o (mirror_display d) = parse_bond_type o d /\
  mirror_display (mirror_display d) = d /\
  (display_action d = None -> mirror_display d = d) /\
  (display_action d <> None -> mirror_display d <> d).
Proof.
  exact (conj (display_action_mirror d) (conj (parse_bond_type_mirror o d) (conj (mirror_display_invol d)
        (conj (mirror_fixes_unmarked d) (mirror_marked d))))).
Qed.
Print Assumptions C13_mirror_decisions.

(* the constitution of the mirrored drawing is the constitution of the drawing, nested fragments included *)
Theorem C13_mirror_constitution (f : xfrag) : expand (mirror_frag f) = expand f.
Proof.
  induction f as [nodes xbs IH] using xfrag_ind'. simpl mirror_frag. rewrite !expand_unfold, map_map. simpl fst.
  change (fun x : xnode * option xfrag => fst x) with (@fst xnode (option xfrag)). rewrite assemble_mirror.
  generalize (assemble (map fst nodes) xbs). induction IH as [|p l Hp _ IHl]; intros acc; simpl; [reflexivity|].
  rewrite <- IHl. f_equal. unfold expand_step, sub_ok in *. simpl. destruct (snd p) as [s|]; [|reflexivity]. now rewrite Hp.
Qed.
Print Assumptions C13_mirror_constitution.

Local Open Scope R_scope.
(* one out-of-plane rotation (the non-ring branch) with plane normal +ez: rotating the mirrored coordinates by the
   opposite angle gives the mirror image -- for ANY coordinates, selection, pivot and angle.
   (M . R(theta) . M = R(-theta) for an axis in the drawing plane.) *)
Theorem C13_mirror_acyclic (X : list vecR) sel i1 i2 (s c nz nax : R) (ov ov' : vecR) : 0 < nz ->
  step_acyclic ROps (map (mirror ROps) X) sel i1 i2 (- s) c (0, 0, nz) nz ov' nax
  = map (mirror ROps) (step_acyclic ROps X sel i1 i2 s c (0, 0, nz) nz ov nax).
Proof. exact (step_acyclic_mirror X sel i1 i2 s c nz nax ov ov'). Qed.
Print Assumptions C13_mirror_acyclic.

(* a whole drawing: stereo bonds taken in order, each through the rotation branch (normal +ez), the ring branch or the
   Bold/Hash branch: the mirrored marks on the mirrored start give the mirror image *)
Theorem C13_mirror_equivariant (p : plan R) : Forall (fun q => good_kind (snd q)) p -> forall X : list vecR,
  run_plan ROps (map (mirror ROps) X) (mirror_plan ROps p) = map (mirror ROps) (run_plan ROps X p).
Proof. exact (run_plan_mirror p). Qed.
Print Assumptions C13_mirror_equivariant.

(* ... hence, starting from the planar drawing: every signed volume (every centre, every neighbour triple) changes sign *)
Theorem C13_mirror_inverts_handedness (p : plan R) (X : list vecR) :
  planar X -> Forall (fun q => good_kind (snd q)) p ->
  run_plan ROps X (mirror_plan ROps p) = map (mirror ROps) (run_plan ROps X p) /\
  forall i j k l,
    let Y := run_plan ROps X p in let Y' := run_plan ROps X (mirror_plan ROps p) in
    signed_volume ROps (List.nth i Y' (vzero ROps)) (List.nth j Y' (vzero ROps)) (List.nth k Y' (vzero ROps)) (List.nth l Y' (vzero ROps))
    = - signed_volume ROps (List.nth i Y (vzero ROps)) (List.nth j Y (vzero ROps)) (List.nth k Y (vzero ROps)) (List.nth l Y (vzero ROps)).
Proof.
  intros HX Hp. pose proof (run_plan_mirror_planar p X HX Hp) as E. split; [exact E|].
  intros i j k l. cbv zeta. rewrite E, !nth_map_mirror. apply signed_volume_mirror.
Qed.
Print Assumptions C13_mirror_inverts_handedness.

(* the hypotheses are satisfiable by a non-trivial drawing: a centre with three neighbours, one wedge bond
   (quarter turn), and the resulting signed volume is not zero *)
Example C13_mirror_nonvacuous :
  let X : list vecR := [(0, 0, 0); (1, 0, 0); (- (1/2), 4/5, 0); (- (1/2), - (4/5), 0)] in
  let p : plan R := ((1, KAcyc [1%nat] 0%nat 1%nat 1 0 (0, 0, 1) 1 (1, 0, 0) 1) :: nil) in
  planar X /\ Forall (fun q => good_kind (snd q)) p /\
  let Y := run_plan ROps X p in
  signed_volume ROps (List.nth 0 Y (vzero ROps)) (List.nth 1 Y (vzero ROps)) (List.nth 2 Y (vzero ROps)) (List.nth 3 Y (vzero ROps)) <> 0.
Proof.
  intros X p. split; [|split].
  - intros q [<-|[<-|[<-|[<-|[]]]]]; cdx; f3; veq; ring.
  - constructor; [|constructor]. simpl. exists 1. repeat split. lra.
  - subst X p. unfold run_plan, run_steps. cbn [map fold_left fst snd code_step run_step].
    unfold step_acyclic. rewrite outa_plane_up by lra.
    match goal with |- ?v <> 0 => assert (E : v = 4 / 5) end.
    { cbv [sub_translate sub_transform update_rows update_from in_idx existsb Nat.eqb orb List.nth]. cdx. f3. simpl. field. }
    rewrite E. lra.
Qed.

(* the ring branch.  BEFORE the repair (/repo commit 5477cee) it displaced by sign * (0, 0.5, 0.75 | 1.5): the y part
   was odd in the sign too, so the hash model was not the mirror image of the wedge model and a ring stereo
   centre came out with the same handedness for both marks.  The repaired branch displaces by
   (0, 0.5, sign * 0.75 | 1.5): it is covered by C13_mirror_equivariant (good_kind holds for KRing), and on the
   same witness the two models now have opposite, non-zero handedness. *)
Theorem C13_ring_branch_refuted_before_repair :
  (forall a1 a2 s1 s2, ring_moves_before_repair ROps (- (1)) a1 a2 s1 s2 <> shift_mirror ROps (ring_moves_before_repair ROps 1 a1 a2 s1 s2)) /\
  (planar ring_witness /\
   let Y s := step_shift ROps ring_witness (ring_moves_before_repair ROps s 0%nat 1%nat ((3%nat :: nil) :: nil) nil) in
   let vol Y := signed_volume ROps (List.nth 0 Y (vzero ROps)) (List.nth 1 Y (vzero ROps)) (List.nth 2 Y (vzero ROps)) (List.nth 3 Y (vzero ROps)) in
   vol (Y 1) = - (3 / 16) /\ vol (Y (- (1))) = - (3 / 16)).
Proof.
  split; [|split].
  - (* the y component of the first displacement: -1/2 against +1/2 *)
    intros a1 a2 s1 s2 H.
    apply (f_equal (fun l : list (list nat * vecR) => match l with (_, (_, y, _)) :: _ => y | _ => 0 end)) in H.
    cbv [ring_moves_before_repair shift_mirror map fst snd vscale mirror fmul fdiv f0 f1 fofZ fopp ROps app] in H. lra.
  - intros p [<-|[<-|[<-|[<-|[]]]]]; cdx; f3; veq; ring.
  - cbv [ring_moves_before_repair step_shift sub_translate update_rows update_from in_idx existsb
         map fold_left fst snd app List.nth ring_witness Nat.eqb orb]. cdx. f3. simpl. split; field.
Qed.
Print Assumptions C13_ring_branch_refuted_before_repair.
Theorem C13_ring_branch_mirror (x : R) a1 a2 s1 s2 :
  ring_moves ROps (- x) a1 a2 s1 s2 = shift_mirror ROps (ring_moves ROps x a1 a2 s1 s2) /\
  good_kind (KRing a1 a2 s1 s2).
Proof. exact (conj (ring_moves_mirror x a1 a2 s1 s2) I). Qed.
Print Assumptions C13_ring_branch_mirror.
Example C13_ring_branch_nonvacuous :
  let Y s := run_plan ROps ring_witness ((s, KRing 0%nat 1%nat ((3%nat :: nil) :: nil) nil) :: nil) in
  let vol Y := signed_volume ROps (List.nth 0 Y (vzero ROps)) (List.nth 1 Y (vzero ROps)) (List.nth 2 Y (vzero ROps)) (List.nth 3 Y (vzero ROps)) in
  vol (Y (- (1))) = - vol (Y 1) /\ vol (Y 1) <> 0.
Proof.
  cbv [run_plan run_steps run_step code_step ring_moves step_shift sub_translate update_rows update_from in_idx existsb
       map fold_left fst snd app List.nth ring_witness Nat.eqb orb]. cdx. f3. simpl. split; [field | lra].
Qed.
Local Close Scope R_scope.

(* 4: determinism of label resolution *)
(* whatever was accessed before, in whatever order, every access to `key` answers `resolve key`:
   the cache only memoises *)
Theorem C13_label_deterministic (f : string -> option nat) (keys : list string) :
  run_gets f [] keys = map f keys.
Proof. exact (run_gets_spec f keys [] (cache_ok_nil f)). Qed.
Print Assumptions C13_label_deterministic.

(* sessions: whatever the caller did before -- lookups of any labels on any CDXMLFile object of the file, through any
   accessor, direct parses, IN-PLACE EDITS of molecules handed out earlier -- every lookup answers what the drawing says
   (the only state a CDXMLFile object keeps is the label -> fragment cache, which only memoises) *)
Theorem C13_session_lookup_describes_drawing (f : string -> option nat) (parse : option nat -> res mol) (evs : list sev) :
  session_answers f parse s_init evs = somes (map (lookup_spec f parse) evs).
Proof. exact (session_answers_spec f parse evs s_init (caches_ok_init f)). Qed.
Print Assumptions C13_session_lookup_describes_drawing.
(* ... and a molecule handed out belongs to the caller: it changes only through the caller's own edits of it *)
Theorem C13_session_result_belongs_to_caller (f : string -> option nat) (parse : option nat -> res mol) (evs : list sev)
  (st : sstate) (h : nat) (m : mol) :
  nth_error (s_heap st) h = Some m -> forallb (fun e => negb (edits_of h e)) evs = true ->
  nth_error (s_heap (session_end f parse st evs)) h = Some m.
Proof.
  unfold session_end. revert st h m. induction evs as [|e evs IH]; intros st h m H N; [exact H|].
  simpl in N. apply andb_true_iff in N as [N1 N2]. simpl. apply IH; [|exact N2].
  destruct e as [o k obs|i obs|h' m'|h' obs]; simpl.
  - destruct (getitem f (s_caches st o) k) as [a c']. simpl. apply alloc_keeps, H.
  - apply alloc_keeps, H.
  - simpl in N1. rewrite set_nth_other; [exact H|]. intros E. subst. rewrite Nat.eqb_refl in N1. discriminate.
  - exact H.
Qed.
Print Assumptions C13_session_result_belongs_to_caller.
(* non-vacuity: look "a" up, edit the result (it becomes the empty molecule), look "a" up again, parse drawing 0 directly:
   three answers, all the drawing; the first molecule holds the edit, the second one is untouched *)
Example C13_session_nonvacuous :
  let nd i := mkNode i NTAbsent None None None RadAbsent None None None None None [] in
  let fr := (XFrag [(nd "1", None); (nd "2", None)] [mkXBond "1" "2" OAbsent DAbsent])%string in
  let f := fun k => cache_get k [("a", 0%nat)]%string in
  let evs := [EGet 0 "a" Raise; EEdit 0 (mkMol [] [] 0 1); EGet 0 "a" Raise; EParse 0 Raise]%string in
  session_answers f (parse_at [fr]) s_init evs = [expand fr; expand fr; expand fr]
  /\ (exists m, expand fr = Ok m /\ List.length (m_atoms m) = 2%nat
        /\ s_heap (session_end f (parse_at [fr]) s_init evs) = [mkMol [] [] 0 1; m; m]).
Proof. vm_compute. split; [reflexivity|]. eexists. repeat split; reflexivity. Qed.

(* non-vacuity of the assembly theorems: a hapto drawing (centre bonded to a multi-attachment node over three
   atoms, one charged radical) assembles, with 4 atoms, 3 Ligand bonds, charge -1, multiplicity 2 *)
Example C13_assemble_nonvacuous :
  let nd i t q r att := mkNode i t None None q r None None None None None att in
  let ns := [nd "1" NTAbsent None RadAbsent []; nd "2" NTAbsent (Some (-1)%Z) RadDoublet []; nd "3" NTAbsent None RadAbsent [];
             nd "4" NTAbsent None RadAbsent []; nd "9" NTMulti None RadAbsent ["1"; "2"; "3"]]%string in
  match assemble ns [mkXBond "9" "4" OAbsent DAbsent]%string with
  | Ok m => List.length (m_atoms m) = 4%nat /\ List.length (m_bonds m) = 3%nat /\ m_charge m = (-1)%Z /\ m_mult m = 2%Z
  | Raise => False
  end.
Proof. vm_compute. repeat split; reflexivity. Qed.
