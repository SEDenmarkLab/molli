(* C02 / C04 -- the tie between Model/Backend.v and molli/storage/backends.py by TRANSLATION (second layer).
   Gen/BackendCode.v is regenerated on every run from CollectionBackendBase.put / get / flush and
   UkvCollectionBackend._write / _read / update_keys (harness/ukv_translate.py -> terms of Model/MiniPyB.v); calls on
   self._ukvfile carry the translated UKVFile methods of Gen/UKVCode.v.  For EVERY state of the backend object, of its
   UKVFile and of the file, running the translated bodies is what b_put / b_get / flush of Model/Backend.v compute:
   the functions C02_listed_readable, C02_collection_put, C02_flush_fails_atomically and the collection-level
   correspondence are about.  Proofs in Proofs/BackendCode.v, BackendMode.v, BackendSession.v, BackendWhole.v. *)
From Coq Require Import NArith ZArith List Bool String.
Import ListNotations.
From Molli Require Import Model.UKV Model.MiniPy Model.Backend Model.MiniPyB Gen.UKVCode Gen.BackendCode
  Proofs.UKVCode Proofs.BackendCode Proofs.BackendMode Proofs.BackendSession Proofs.BackendWhole.
Local Open Scope string_scope.
Local Open Scope N_scope.

(* flush(): the queue is written out in order through the translated UKVFile.put; the first failing write stops it, drops
   that item, repairs the key listing from the file's keys and the still-queued keys, and propagates; the buffer
   accounting is reset only when everything was written *)
Theorem C02_code_flush : forall fuel s f b,
  (List.length (queue b) < fuel)%nat -> BRep s f b ->
  let '(s', o) := bexec fuel flush_prog s in
  let '(f', b', e) := flush f b in
  o = bout_of e /\ BRep s' f' b' /\ bloc s' "key" = bloc s' "key".
Proof.
  intros fuel s f b Hn R. pose proof (flush_code fuel s f b Hn R) as F.
  destruct (bexec fuel flush_prog s) as [s' o]. destruct (flush f b) as [[f' b'] e]. destruct F as [F1 F2]. auto.
Qed.
Print Assumptions C02_code_flush.

(* put(key, value): refused on a read-only collection; else queued, listed, accounted, and flushed when over budget --
   for every buffer size (incl. negative = write through) *)
Theorem C02_code_bput : forall fuel s f b k v,
  (S (List.length (queue b)) < fuel)%nat -> BRep s f b -> bloc s "key" = Some k -> bloc s "value" = Some v ->
  let '(s', o) := bexec fuel bput_prog s in
  let '(f', b', r) := b_put f b k v in
  BRep s' f' b' /\ o = bout_of_res r.
Proof. exact bput_code. Qed.
Print Assumptions C02_code_bput.

(* get(key): a key that is still buffered is flushed first; then the translated UKVFile.get *)
Theorem C02_code_bget : forall fuel s f b k,
  (List.length (queue b) < fuel)%nat -> BRep s f b -> bloc s "key" = Some k ->
  let '(s', o) := bexec fuel bget_prog s in
  let '(f', b', r) := b_get f b k in
  BRep s' f' b' /\ o = bout_of_res r.
Proof. exact bget_code. Qed.
Print Assumptions C02_code_bget.

(* the loop of flush() alone, for any amount of fuel beyond the queue length *)
Theorem C02_code_flush_loop : forall fuel n s f b,
  (List.length (bq s) < n)%nat -> BRep s f b ->
  let '(s', o) := bwloop (bexec fuel loop_body) "key" "value" n s in
  let '(f', b', e) := flush_loop n f b in
  o = bout_of e /\ BRep s' f' (match e with None => set_used b' (used b) | Some _ => b' end).
Proof. exact flush_loop_code. Qed.
Print Assumptions C02_code_flush_loop.

(* begin_read() / begin_write(): the first session constructs the UKVFile (the translated __init__), later ones reopen it; the
   handle becomes Model.UKV.open_ of the backend's handle (h0 before the first session) -- so a stale cached table is refreshed
   and, in a writing session, a torn tail is cut.  end_read() / end_write(): the handle is closed. *)
Theorem C04_code_begin_read : forall fuel s f b hh1 hh2 bb0 rest,
  (List.length f < fuel)%nat -> BRep s f b ->
  f = (mk_header hh1 hh2 bb0 ++ rest)%list -> List.length hh1 = 16%nat -> len hh2 < 65536 -> len bb0 < 4294967296 ->
  (has_uk b = false -> uk b = h0) -> (forall k, last (uk b) = Some k -> lookup (toc (uk b)) k <> None) ->
  let '(s', o) := bexec fuel begin_read_prog s in
  let '(f', h') := open_ f (uk b) MR in
  o = BONormal /\ BRep s' f' (opened b h').
Proof. intros fuel s f b hh1 hh2 bb0 rest Hfuel R Hf L1 L2 L0. apply (begin_code fuel MR begin_read_prog); [reflexivity|exact Hfuel|exact R|exists hh1, hh2, bb0, rest; auto]. Qed.
Print Assumptions C04_code_begin_read.

Theorem C04_code_begin_write : forall fuel s f b hh1 hh2 bb0 rest,
  (List.length f < fuel)%nat -> BRep s f b ->
  f = (mk_header hh1 hh2 bb0 ++ rest)%list -> List.length hh1 = 16%nat -> len hh2 < 65536 -> len bb0 < 4294967296 ->
  (has_uk b = false -> uk b = h0) -> (forall k, last (uk b) = Some k -> lookup (toc (uk b)) k <> None) ->
  let '(s', o) := bexec fuel begin_write_prog s in
  let '(f', h') := open_ f (uk b) MA in
  o = BONormal /\ BRep s' f' (opened b h').
Proof. intros fuel s f b hh1 hh2 bb0 rest Hfuel R Hf L1 L2 L0. apply (begin_code fuel MA begin_write_prog); [reflexivity|exact Hfuel|exact R|exists hh1, hh2, bb0, rest; auto]. Qed.
Print Assumptions C04_code_begin_write.

Theorem C04_code_end_session : forall fuel prog s f b,
  prog = BUkvCall close_prog [] -> BRep s f b -> has_uk b = true ->
  (lookup_env (attrs (inner s)) "mode" = Some (VStr "r") \/ lookup_env (attrs (inner s)) "mode" = Some (VStr "a")) ->
  let '(s', o) := bexec fuel prog s in
  o = BONormal /\ BRep s' f (with_uk b (close_ (uk b))).
Proof. exact end_code. Qed.
Print Assumptions C04_code_end_session.

Example C04_code_end_progs : end_read_prog = BUkvCall close_prog [] /\ end_write_prog = BUkvCall close_prog [].
Proof. split; reflexivity. Qed.

(* ---------- the session context managers themselves (Proofs/BackendSession.v) ----------
   reading() / writing() are generator functions; the translator splits each at its single `yield self` into the part that runs
   on entry and the part that runs when the with-block ends.  For EVERY state: the entry part is b_begin_r / b_begin_w of
   Model/Backend.v (lock taken, file (re)opened and mapped, _state set, listing refreshed -- or, for a read-only backend asked
   to write, UnsupportedOperation with nothing changed and no lock taken); the exit part is b_end_r / b_end_w (flush, close,
   _state idle) and the lock is released on EVERY path, also when the final flush of a writing session raises. *)
Theorem C04_code_reading_enter : forall fuel s f b hh1 hh2 bb0 rest,
  (List.length f < fuel)%nat -> BRep s f b ->
  f = (mk_header hh1 hh2 bb0 ++ rest)%list -> List.length hh1 = 16%nat -> len hh2 < 65536 -> len bb0 < 4294967296 ->
  (has_uk b = false -> uk b = h0) -> (forall k, last (uk b) = Some k -> lookup (toc (uk b)) k <> None) ->
  bheld s = None ->
  let '(s', o) := bexec fuel reading_enter_prog s in
  let '(f', b', r) := b_begin_r f b in
  o = BONormal /\ r = BOk /\ BRep s' f' b' /\ bheld s' = Some false /\ ((has_inner s = true -> has_mode s) -> has_mode s').
Proof. intros fuel s f b hh1 hh2 bb0 rest Hfuel R Hf L1 L2 L0. apply reading_enter_code; [exact Hfuel|exact R|exists hh1, hh2, bb0, rest; auto]. Qed.
Print Assumptions C04_code_reading_enter.

Theorem C04_code_writing_enter : forall fuel s f b hh1 hh2 bb0 rest,
  (List.length f < fuel)%nat -> BRep s f b ->
  f = (mk_header hh1 hh2 bb0 ++ rest)%list -> List.length hh1 = 16%nat -> len hh2 < 65536 -> len bb0 < 4294967296 ->
  (has_uk b = false -> uk b = h0) -> (forall k, last (uk b) = Some k -> lookup (toc (uk b)) k <> None) ->
  bheld s = None ->
  let '(s', o) := bexec fuel writing_enter_prog s in
  let '(f', b', r) := b_begin_w f b in
  o = bout_of_res r /\ BRep s' f' b' /\ bheld s' = (if ro b then None else Some true) /\
  ((has_inner s = true -> has_mode s) -> has_inner s' = true -> has_mode s').
Proof. intros fuel s f b hh1 hh2 bb0 rest Hfuel R Hf L1 L2 L0. apply writing_enter_code; [exact Hfuel|exact R|exists hh1, hh2, bb0, rest; auto]. Qed.
Print Assumptions C04_code_writing_enter.

Theorem C04_code_reading_exit : forall fuel s f b,
  BRep s f b -> has_uk b = true -> has_mode s -> bheld s = Some false ->
  let '(s', o) := bexec fuel reading_exit_prog s in
  let '(f', b', r) := b_end_r f b in
  o = BONormal /\ r = BOk /\ f' = f /\ BRep s' f b' /\ bheld s' = None.
Proof. exact reading_exit_code. Qed.
Print Assumptions C04_code_reading_exit.

Theorem C04_code_writing_exit : forall fuel s f b,
  (List.length (queue b) < fuel)%nat -> BRep s f b -> has_uk b = true -> has_mode s -> bheld s = Some true ->
  let '(s', o) := bexec fuel writing_exit_prog s in
  let '(f', b', r) := b_end_w f b in
  o = bout_of_res r /\ BRep s' f' b' /\ bheld s' = None.
Proof. exact writing_exit_code. Qed.
Print Assumptions C04_code_writing_exit.

(* Entry and exit compose -- a whole reading session on ANY backend state whose UKVFile (if it has one) carries a mode "r"/"a":
   what the exit part needs is what the entry part leaves (Proofs/BackendMode.v: begin_read / begin_write establish the mode
   attribute: the constructor assigns it, a reopen assigns `mode or self.mode`, nothing else on the way does). *)
Theorem C04_code_reading_session : forall fuel s f b hh1 hh2 bb0 rest,
  (List.length f < fuel)%nat -> BRep s f b ->
  f = (mk_header hh1 hh2 bb0 ++ rest)%list -> List.length hh1 = 16%nat -> len hh2 < 65536 -> len bb0 < 4294967296 ->
  (has_uk b = false -> uk b = h0) -> (forall k, last (uk b) = Some k -> lookup (toc (uk b)) k <> None) ->
  bheld s = None -> (has_inner s = true -> has_mode s) ->
  let '(s1, o1) := bexec fuel reading_enter_prog s in
  let '(s2, o2) := bexec fuel reading_exit_prog s1 in
  let '(f1, b1, _) := b_begin_r f b in
  let '(f2, b2, _) := b_end_r f1 b1 in
  o1 = BONormal /\ o2 = BONormal /\ BRep s2 f2 b2 /\ bheld s2 = None /\ st b2 = SIdle.
Proof. intros fuel s f b hh1 hh2 bb0 rest Hfuel R Hf L1 L2 L0. apply reading_session_code; [exact Hfuel|exact R|exists hh1, hh2, bb0, rest; auto]. Qed.
Print Assumptions C04_code_reading_session.

(* A whole writing session through the translated code -- writing().__enter__, one put, writing().__exit__ -- is the model's
   b_begin_w ; b_put ; b_end_w for every backend state, file, key and value and ANY buffer size (the put may reach the file at
   once, at the end of the session, or fail there), and ends with the lock released and the state idle. *)
Theorem C04_code_writing_session_put : forall fuel s f b hh1 hh2 bb0 rest k v,
  (List.length f < fuel)%nat -> (S (S (List.length (queue b))) < fuel)%nat -> BRep s f b -> ro b = false ->
  f = (mk_header hh1 hh2 bb0 ++ rest)%list -> List.length hh1 = 16%nat -> len hh2 < 65536 -> len bb0 < 4294967296 ->
  (has_uk b = false -> uk b = h0) -> (forall k0, last (uk b) = Some k0 -> lookup (toc (uk b)) k0 <> None) ->
  bheld s = None -> (has_inner s = true -> has_mode s) ->
  bloc s "key" = Some k -> bloc s "value" = Some v ->
  let '(s1, o1) := bexec fuel writing_enter_prog s in
  let '(s2, o2) := bexec fuel bput_prog s1 in
  let '(s3, o3) := bexec fuel writing_exit_prog s2 in
  let '(f1, b1, _) := b_begin_w f b in
  let '(f2, b2, r2) := b_put f1 b1 k v in
  let '(f3, b3, r3) := b_end_w f2 b2 in
  o1 = BONormal /\ o2 = bout_of_res r2 /\ o3 = bout_of_res r3 /\ BRep s3 f3 b3 /\ bheld s3 = None /\ st b3 = SIdle.
Proof. intros fuel s f b hh1 hh2 bb0 rest k v Hfuel Hq R Hro Hf L1 L2 L0. apply writing_session_put_code; [exact Hfuel|exact Hq|exact R|exact Hro|exists hh1, hh2, bb0, rest; auto]. Qed.
Print Assumptions C04_code_writing_session_put.

(* put / get / flush and everything they call leave the UKVFile's mode attribute and the lock alone (decided on the
   translated terms, so re-established from the source on every run) *)
Example C04_code_frames :
  bsets_attr "mode" flush_prog = false /\ bsets_attr "mode" bput_prog = false /\ bsets_attr "mode" bget_prog = false /\
  no_lock flush_prog = true /\ no_lock bput_prog = true /\ no_lock bget_prog = true /\
  no_lock begin_read_prog = true /\ no_lock begin_write_prog = true /\ no_lock end_read_prog = true /\ no_lock end_write_prog = true.
Proof. repeat split; reflexivity. Qed.

(* Non-vacuity: the translated layers RUN together on a concrete state: a buffered put, then a get that flushes it. *)
Definition ex_inner : state :=
  mkst (repeat 0 32) (mks 0 true false)
       (env_of [("_toc", VToc []); ("_last", VNone); ("_eof", VInt 32); ("_closed", VBool false); ("mode", VStr "a")]) empty_env.
Definition ex_b : bstate := mkbs ex_inner true [] [] 0%Z 1000%Z false SWriting (Some true) (fun x => if String.eqb x "key" then Some [7] else if String.eqb x "value" then Some [1; 2] else None).
Example C02_code_backend_runs :
  let '(s1, o1) := bexec 10 bput_prog ex_b in
  o1 = BONormal /\ bq s1 = [([7], [1; 2])] /\ file (inner s1) = repeat 0 32 /\
  let '(s2, o2) := bexec 10 bget_prog s1 in
  o2 = BOReturn (Some [1; 2]) /\ bq s2 = [] /\ file (inner s2) = (repeat 0 32 ++ [1; 0; 0; 0; 2; 7; 1; 2])%list.
Proof. vm_compute. repeat split; reflexivity. Qed.

(* a whole writing session through the translated code, on a closed handle: enter (reopen in mode a), a buffered put, exit (flush, close, idle, lock released) *)
Definition ex_closed : state :=
  mkst (mk_header (repeat 77 16) [1; 2] [9]) (mks 0 false true)
       (env_of [("_toc", VToc []); ("_last", VNone); ("_eof", VNone); ("_closed", VBool true); ("mode", VStr "a")]) empty_env.
Definition ex_bs : bstate := mkbs ex_closed true [] [] 0%Z 1000%Z false SIdle None
  (fun x => if String.eqb x "key" then Some [7] else if String.eqb x "value" then Some [1; 2] else None).
Example C04_code_session_runs :
  let '(s1, o1) := bexec 100 writing_enter_prog ex_bs in
  o1 = BONormal /\ bsess s1 = SWriting /\ bheld s1 = Some true /\
  let '(s2, o2) := bexec 100 bput_prog s1 in
  o2 = BONormal /\ bq s2 = [([7], [1; 2])] /\
  let '(s3, o3) := bexec 100 writing_exit_prog s2 in
  o3 = BONormal /\ bq s3 = [] /\ bsess s3 = SIdle /\ bheld s3 = None /\
  file (inner s3) = (mk_header (repeat 77 16) [1; 2] [9] ++ [1; 0; 0; 0; 2; 7; 1; 2])%list.
Proof. vm_compute. repeat split; reflexivity. Qed.
