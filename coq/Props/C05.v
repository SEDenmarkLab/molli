(* C05 -- atoms, bonds, coordinates and charges stay aligned under every edit history.
   The property theorems; the model is Model/MolEdit.v (the definitions evaluated by the
   correspondence shards of every run), the lemmas they are assembled from are in Proofs/MolEdit*.v.

   Inv s  :=  one coordinate row per atom /\ (Molecule: one charge per atom, every charge numeric;
              Structure: no charge array) /\ no atom twice /\ every atom reports this molecule as
              parent and has a name below the fresh-name supply /\ no bond twice /\ every bond
              reports this molecule as parent and joins two atoms OF THIS MOLECULE.
   row_of s x = (coordinate row, charge) found at the index of atom x -- the abstract map
              atom -> (coordinate, charge).                                                    *)
From Coq Require Import List Bool ZArith NArith PArith.
Import ListNotations.
From Molli Require Import Model.MolEdit Proofs.MolEdit.

(* ---- the invariant is decidable: `inv_b init = true` evaluated by the kernel on every initial state
        observed from the implementation (loaded, cloned, empty) establishes Inv for it *)
Theorem C05_inv_decidable : forall s, inv_b s = true <-> Inv s.
Proof. exact inv_b_iff. Qed.
Print Assumptions C05_inv_decidable.

(* ---- holds initially: empty, file-loaded, cloned *)
Theorem C05_inv_init_empty : forall q, Inv (empty q).
Proof. intros q. apply inv_b_iff. destruct q; reflexivity. Qed.
Print Assumptions C05_inv_init_empty.

Theorem C05_inv_init_loaded : forall q rows bs,
  (forall x y, In (x, y) bs ->
     (x < pos_add_nat 1 (length rows))%positive /\ (y < pos_add_nat 1 (length rows))%positive) ->
  Inv (load q rows bs).
Proof.
  intros q rows bs Hb. unfold Inv, load, ids, bids. simpl. rewrite !map_length, load_atoms_length.
  split; [reflexivity|]. split.
  { destruct q; [|reflexivity]. split; [apply map_length|].
    apply Forall_forall. intros c Hc. apply in_map_iff in Hc. destruct Hc as [r [<- _]]. eexists; reflexivity. }
  split; [apply load_atoms_nodup|]. split; [intros a Ha; split; apply (load_atoms_spec _ _ _ Ha)|].
  split; [apply load_bonds_nodup|].
  intros b H. destruct (load_bonds_spec _ _ _ H) as [A [_ [C D]]]. destruct (Hb _ _ D).
  repeat split; auto; apply load_atoms_mem; auto; apply Pos.le_1_l.
Qed.
Print Assumptions C05_inv_init_loaded.

Theorem C05_inv_init_cloned : forall k s, Inv s ->
  Inv (clone k s) /\ forall y, row_of (clone k s) (y + k)%positive = row_of s y.
Proof. intros k s H. split; [exact (Inv_clone k s H)|exact (clone_row k s)]. Qed.
Print Assumptions C05_inv_init_cloned.

(* ---- preserved by EVERY operation, whether it returns or raises ... *)
Theorem C05_inv_step : forall s o s', Inv s -> (step s o = Ok s' \/ step s o = Err s') -> Inv s'.
Proof. exact inv_step. Qed.
Print Assumptions C05_inv_step.

(* ---- ... hence after EVERY history (a failed operation is followed by the next one) *)
Theorem C05_inv_history : forall s h s', Inv s -> run s h = Some s' -> Inv s'.
Proof. intros s h s' HI H. apply (run_good h s s' H HI). Qed.
Print Assumptions C05_inv_history.

(* ---- every surviving atom keeps the coordinate row and the charge it had; the atoms present
        afterwards are old ones or carry fresh names *)
Theorem C05_keeps_step : forall s o s', Inv s -> (step s o = Ok s' \/ step s o = Err s') ->
  (forall y, In y (ids s) -> In y (ids s') -> row_of s' y = row_of s y) /\
  (forall y, In y (ids s') -> In y (ids s) \/ (next_a s <= y)%positive).
Proof. exact keeps_step. Qed.
Print Assumptions C05_keeps_step.

Theorem C05_keeps_history : forall s h s', Inv s -> run s h = Some s' ->
  (forall y, In y (ids s) -> In y (ids s') -> row_of s' y = row_of s y) /\
  (forall y, In y (ids s') -> In y (ids s) \/ (next_a s <= y)%positive).
Proof. intros s h s' HI H. destruct (run_good h s s' H HI) as [_ [_ [_ [_ [G4 G5]]]]]. auto. Qed.
Print Assumptions C05_keeps_history.

(* ---- a new atom gets exactly the row and the charge it was given (0 when none was given) *)
Theorem C05_new_atom_row : forall s e l c q, Inv s ->
  exists s', step s (AddAtom e l (Some c) q) = Ok s' /\
    ids s' = ids s ++ [next_a s] /\
    row_of s' (next_a s)
    = Some (c, if has_q s then Some (CNum (match q with Some t => t | None => 0%Z end)) else None).
Proof. intros s e l c q HI. destruct (add_atom_row s e l c q HI) as [s' [H [_ R]]]. eauto. Qed.
Print Assumptions C05_new_atom_row.

(* ---- the SPELLING of optional arguments (Model/MolEditCall.v: `call` records how the arguments were written,
        `elab` is what the call means).  The optional charge of add_atom omitted / an explicit None (positional or
        keyword) are one operation; a number as float / int / numpy scalar / 0-d array, a coordinate as list / tuple /
        ndarray of any dtype / view of a caller's buffer, keyword or positional, likewise; new_atom without a
        coordinate is new_atom at the origin; label / ap_label left out is label None. *)
From Molli Require Import Model.MolEditCall Proofs.MolEditCall.

Theorem C05_spelling_irrelevant :
  (forall e l c kw, elab (CallAddAtom e l c (QNone kw)) = elab (CallAddAtom e l c QOmitted)) /\
  (forall e l f f' c nf nf' kw kw' t,
     elab (CallAddAtom e l (CGiven f c) (QNum nf kw t)) = elab (CallAddAtom e l (CGiven f' c) (QNum nf' kw' t))) /\
  (forall ef ef' e i i' l f f' kw kw' c,
     elab (CallNewAtom ef e i l (NCGiven f kw c)) = elab (CallNewAtom ef' e i' l (NCGiven f' kw' c))) /\
  (forall ef e i f kw c,
     elab (CallNewAtom ef e i LOmitted (NCGiven f kw c)) = elab (CallNewAtom ef e i (LGiven None) (NCGiven f kw c))) /\
  (forall ef e i l f kw,
     elab (CallNewAtom ef e i l NCOmitted) = elab (CallNewAtom ef e i l (NCGiven f kw origin_row))) /\
  (forall s1 s2, elab (CallRemoveSubst s1 s2 LOmitted) = elab (CallRemoveSubst s1 s2 (LGiven None))).
Proof. repeat split; reflexivity. Qed.
Print Assumptions C05_spelling_irrelevant.

(* however the optional charge is spelled, the new atom is the last one, has the row it was given and a NUMERIC
   charge (the number given, 0 when none was), and the invariant -- every charge a number -- still holds *)
Theorem C05_optional_charge_numeric : forall s e l f c q, Inv s ->
  exists s', step s (elab (CallAddAtom e l (CGiven f c) q)) = Ok s' /\ Inv s' /\
    ids s' = ids s ++ [next_a s] /\
    row_of s' (next_a s) = Some (c, if has_q s then Some (CNum (q_or_0 q)) else None).
Proof. intros s e l f c q. exact (add_atom_row s e l c (qval q)). Qed.
Print Assumptions C05_optional_charge_numeric.

Theorem C05_new_atom_default_row : forall s ef e i l c, Inv s ->
  exists s', step s (elab (CallNewAtom ef e i l c)) = Ok s' /\ Inv s' /\
    ids s' = ids s ++ [next_a s] /\
    row_of s' (next_a s) = Some (ncval c, if has_q s then Some (CNum 0%Z) else None).
Proof. intros s ef e i l c. exact (add_atom_row s e (lval l) (ncval c) None). Qed.
Print Assumptions C05_new_atom_default_row.

Theorem C05_call_inv_step : forall s c s', Inv s -> (step s (elab c) = Ok s' \/ step s (elab c) = Err s') -> Inv s'.
Proof. intros s c. exact (inv_step s (elab c)). Qed.
Print Assumptions C05_call_inv_step.

(* what appending the argument as it arrives does: an explicit None leaves a non-number in the charge array
   WHATEVER default the signature declares (None, or 0.0 "moved into the signature"); with the default None an
   omitted charge does too (the defect repaired by fa20a13) *)
Theorem C05_charge_as_is_refuted : forall dflt s e l c kw s', has_q s = true ->
  add_atom_charge_as_is dflt s e l c (QNone kw) = Ok s' -> ~ Inv s'.
Proof. intros dflt s e l c kw s' Hq. exact (charge_as_is_breaks dflt s e l c (QNone kw) s' Hq eq_refl). Qed.
Print Assumptions C05_charge_as_is_refuted.

Theorem C05_charge_as_is_omitted_refuted : forall s e l c s', has_q s = true ->
  add_atom_charge_as_is None s e l c QOmitted = Ok s' -> ~ Inv s'.
Proof. intros s e l c s' Hq. exact (charge_as_is_breaks None s e l c QOmitted s' Hq eq_refl). Qed.
Print Assumptions C05_charge_as_is_omitted_refuted.

(* non-vacuity: an explicit None after a keyword float32 charge, new_atom with everything left out; the as-is
   variant with the default 0.0 in the signature does return, with a None in the array *)
Example C05_spelling_nonvacuous :
  (exists s', run (empty true)
                  [ elab (CallAddAtom 6%N (Some 1%N) (CGiven CTuple 11%Z) (QNum NNp32 true 7%Z));
                    elab (CallAddAtom 8%N None (CGiven CView 12%Z) (QNone false));
                    elab (CallNewAtom ESym 1%N IOmitted LOmitted NCOmitted);
                    elab (CallRemoveSubst (ByIdx 0) (ByIdx 1) LOmitted) ] = Some s'
              /\ inv_b s' = true
              /\ charges s' = [CNum 7%Z; CNum 0%Z; CNum 0%Z]
              /\ row_of s' 3%positive = Some (origin_row, Some (CNum 0%Z))) /\
  (exists s', add_atom_charge_as_is (Some 0%Z) (empty true) 8%N None (CGiven CList 12%Z) (QNone true) = Ok s'
              /\ charges s' = [CNone] /\ inv_b s' = false).
Proof. vm_compute. split; eexists; repeat split. Qed.

(* ---- the row an atom shows is the row at its index; idx / get_atom_index are its position *)
Theorem C05_idx_correct : forall s i a, Inv s -> nth_error (atoms s) i = Some a ->
  idx_of s (a_id a) = Z.of_nat i /\
  get_atom_index s (ByObj (a_id a)) = Some i /\
  exists c, nth_error (coords s) i = Some c /\ row_of s (a_id a) = Some (c, nth_error (charges s) i).
Proof.
  intros s i a [H1 [_ [H3 _]]] Hn. pose proof (nodup_find_idx (atoms s) i H3 Hn) as Hf.
  unfold idx_of, row_of. simpl. rewrite Hf. split; [reflexivity|]. split; [reflexivity|].
  destruct (nth_error (coords s) i) as [c|] eqn:E; [eauto|].
  apply nth_error_None in E. rewrite H1 in E. apply nth_error_None in E. congruence.
Qed.
Print Assumptions C05_idx_correct.

(* ---- deleting an atom (however designated) removes that atom, exactly its bonds, nothing else *)
Theorem C05_del_exact : forall s sl s', Inv s -> del_atom s sl = Ok s' ->
  exists a, get_atom s sl = Some a /\ In a (atoms s) /\
    bonds s' = filter (fun b => negb (incident (a_id a) b)) (bonds s) /\
    (forall y, In y (ids s') <-> In y (ids s) /\ y <> a_id a) /\
    S (length (atoms s')) = length (atoms s).
Proof. exact del_atom_exact. Qed.
Print Assumptions C05_del_exact.

(* ---- a failed operation changes nothing.
   FULL statement (`err_unchanged` in DESIGN.md, section C05): for every op, step s o = Err s' -> s' = s.
   Proved (1) for the atomic operations (add_atom incl. a malformed coordinate, new_atom, del_atom,
   connect, append_bond(s), del_bond) and (2) for remove_substituent(a1, a2) whenever the two
   designators -- Atom, position, label or element -- name different atoms: once the checks at its
   beginning have passed, none of the deletions, the add_atom or the connect can raise (uses the BFS
   invariant: every yielded atom is an atom of the molecule, none is yielded twice, a1 is never
   yielded; and that a1 and a2 are resolved once, before anything is deleted).
   NOT proved, because false for the code as it is: remove_substituent(a, a) on a self-loop deletes a
   and then fails to connect; add_implicit_hydrogens with several targets raises at a later target that
   is not an atom of the molecule after the earlier ones were completed.  For those C05_inv_step and
   C05_keeps_step still cover the state that is left behind. *)
Theorem C05_err_unchanged_partial : forall s o s', Inv s -> atomic o = true -> step s o = Err s' -> s' = s.
Proof. exact err_unchanged. Qed.
Print Assumptions C05_err_unchanged_partial.

Theorem C05_err_unchanged_remove_substituent_partial : forall s s1 s2 l s', Inv s ->
  (forall a1 a2, get_atom s s1 = Some a1 -> get_atom s s2 = Some a2 -> a_id a2 <> a_id a1) ->
  step s (RemoveSubst s1 s2 l) = Err s' -> s' = s.
Proof.
  intros s s1 s2 l s' HI Hne H. simpl in H. unfold remove_substituent in H.
  destruct (get_atom s s1) as [a1|] eqn:E1; [|congruence].
  destruct (get_atom s s2) as [a2|] eqn:E2; [|congruence].
  destruct (get_atom_index s (ByObj (a_id a2))) as [i2|]; [|congruence].
  destruct (nth_error (coords s) i2) as [c2|]; [|congruence].
  destruct (mem (a_id a2) (neighbours s (a_id a1))) eqn:Em; [|congruence].
  destruct (bfs_loop (bfs_fuel s) s [a_id a2; a_id a1] [a_id a2] [a_id a2]) as [out|] eqn:Eb; [|discriminate].
  exfalso.
  exact (rs_tail_no_err s (a_id a1) (a_id a2) out l c2 s' HI (get_atom_member _ _ _ E1) (get_atom_member _ _ _ E2)
           (Hne a1 a2 eq_refl eq_refl) Eb H).
Qed.
Print Assumptions C05_err_unchanged_remove_substituent_partial.

(* ---- shared Atom objects.  The Atom objects of a molecule can be listed by other containers too: a
        Substructure view (bond operations are defined on it), a Conformer of an ensemble, or any container
        that was built from / handed the same objects without copying and thereby ADOPTED them (their parent
        pointer now names that container, or nothing once it is gone).  Whether an atom belongs to the
        molecule is a question about the molecule's atom LIST, never about that pointer:
          own_all s  =  s with every atom's parent pointer reset to "this molecule";
          AInv s     =  Inv (own_all s): everything Inv says except the atoms' parent pointers. *)
From Molli Require Import Proofs.MolEditView.

(* no operation decides anything from an atom's parent pointer ... *)
Theorem C05_membership_not_by_parent : forall s o, step (own_all s) o = rmap own_all (step s o).
Proof. exact step_parent_blind. Qed.
Print Assumptions C05_membership_not_by_parent.

(* ... and no operation re-points an atom that is already there *)
Theorem C05_no_op_repoints_atoms : forall s o s', (step s o = Ok s' \/ step s o = Err s') ->
  forall a, In a (atoms s') -> In a (atoms s) \/ a_par a = OThis.
Proof. exact step_atoms_frame. Qed.
Print Assumptions C05_no_op_repoints_atoms.

(* a bond operation through a Substructure view leaves the molecule exactly as it was *)
Theorem C05_view_op_frame : forall s va o s',
  (xstep s (ViaSub va o) = Ok s' \/ xstep s (ViaSub va o) = Err s') -> s' = s.
Proof. exact via_sub_same. Qed.
Print Assumptions C05_view_op_frame.

Theorem C05_aligned_spelled : forall s, AInv s ->
  length (coords s) = length (atoms s) /\
  (if has_q s then length (charges s) = length (atoms s) /\ Forall numeric (charges s) else charges s = []) /\
  NoDup (ids s) /\
  (forall a, In a (atoms s) -> (a_id a < next_a s)%positive) /\
  NoDup (bids s) /\
  (forall b, In b (bonds s) ->
     b_par b = OThis /\ (b_id b < next_b s)%positive /\ In (b_a1 b) (ids s) /\ In (b_a2 b) (ids s)).
Proof. exact AInv_unfold. Qed.
Print Assumptions C05_aligned_spelled.

(* alignment is preserved by every step of the extended alphabet (edit of the molecule / bond operation
   through a view / adoption of some of its atoms by another container), whether it returns or raises,
   hence after every interleaved history; surviving atoms keep their row and charge *)
Theorem C05_aligned_xstep : forall s x s', AInv s -> (xstep s x = Ok s' \/ xstep s x = Err s') -> AInv s'.
Proof. intros s x s' HA H. apply (xstep_good s x s' H HA). Qed.
Print Assumptions C05_aligned_xstep.

Theorem C05_aligned_xhistory : forall s h s', AInv s -> xrun s h = Some s' ->
  AInv s' /\
  (forall y, In y (ids s) -> In y (ids s') -> row_of s' y = row_of s y) /\
  (forall y, In y (ids s') -> In y (ids s) \/ (next_a s <= y)%positive).
Proof.
  intros s h s' HA H. destruct (xrun_good h s s' H HA) as [HA' [_ [_ [_ [G4 G5]]]]].
  rewrite !ids_own_all in *. split; [exact HA'|]. split; [|exact G4].
  intros y H1 H2. specialize (G5 y H1 H2). rewrite !row_of_own_all in G5. exact G5.
Qed.
Print Assumptions C05_aligned_xhistory.

(* an atom reports another parent only if some container adopted it during the history; with no adoption the
   FULL invariant holds after every history, view operations included *)
Theorem C05_parents_xhistory : forall s h s', Inv s -> xrun s h = Some s' ->
  forall a, In a (atoms s') -> a_par a = OThis \/ In (a_id a) (adopted h).
Proof. exact xrun_parents. Qed.
Print Assumptions C05_parents_xhistory.

Theorem C05_inv_xhistory_no_adoption : forall s h s', Inv s -> xrun s h = Some s' -> adopted h = [] -> Inv s'.
Proof.
  intros s h s' HI H HN. destruct (xrun_good h s s' H (Inv_AInv s HI)) as [HA _].
  rewrite own_all_fix in HA; [exact HA|].
  intros a Ha. destruct (xrun_parents s h s' HI H a Ha) as [P|P]; [exact P|]. rewrite HN in P. destruct P.
Qed.
Print Assumptions C05_inv_xhistory_no_adoption.

Theorem C05_xrun_own : forall h s, xrun s (map Own h) = run s h.
Proof. induction h as [|o h IH]; intros s; simpl; [reflexivity|]. destruct (step s o); auto. Qed.
Print Assumptions C05_xrun_own.

(* what `atom.parent is not self` in place of `atom not in self.atoms` does in append_bond: after an adoption
   the adopted end is listed twice *)
Theorem C05_membership_by_parent_refuted : forall s x y w, Inv s -> In x (ids s) -> w <> OThis ->
  ~ AInv (append_bond_by_parent (adopt s [x] w) x y).
Proof.
  intros s x y w _ Hx Hw HA. apply AInv_unfold in HA. destruct HA as [_ [_ [ND _]]].
  exact (by_parent_lists_twice s x y w Hx Hw ND).
Qed.
Print Assumptions C05_membership_by_parent_refuted.

(* ---- every correspondence case the kernel accepts is an instance of the theorems above (the cases run
        over the extended alphabet) *)
Theorem C05_check_case_sound : forall c, check_case c = true ->
  Inv (fst c) /\ exists s', xrun (fst c) (map fst (snd c)) = Some s' /\ AInv s' /\ Keeps (fst c) (own_all s') /\
    (forall a, In a (atoms s') -> a_par a = OThis \/ In (a_id a) (adopted (map fst (snd c)))).
Proof.
  intros c. unfold check_case. intros H. apply andb_true_iff in H. destruct H as [H1 H2].
  apply inv_b_iff in H1. split; [exact H1|].
  destruct (run_check_xrun _ _ H2) as [s' Hs]. exists s'. split; [exact Hs|].
  destruct (xrun_good _ _ _ Hs (Inv_AInv _ H1)) as [G1 G2]. rewrite (Inv_own_all _ H1) in G2.
  split; [exact G1|]. split; [exact G2|]. apply (xrun_parents _ _ _ H1 Hs).
Qed.
Print Assumptions C05_check_case_sound.

(* ---- recorded finding (append_bond with an atom that is not in the molecule): what the code
        does -- the atom is adopted without a coordinate row -- breaks the invariant; this is why
        `step` leaves that region unspecified (Unspec) and `run` stops there *)
Theorem C05_known_foreign_refuted : forall s x y e l, Inv s -> ~ Inv (append_bond_foreign_as_coded s x y e l).
Proof.
  intros s x y e l [H1 _] [G1 _]. unfold append_bond_foreign_as_coded in G1. simpl in G1.
  rewrite app_length, H1, Nat.add_1_r in G1. exact (Nat.neq_succ_diag_r _ G1).
Qed.
Print Assumptions C05_known_foreign_refuted.

(* ---- non-vacuity: a molecule with three atoms, a ring-closing set of bonds, and a history that
        adds, connects, deletes by element / index / label, removes a substituent and adds hydrogens *)
Definition ex_s0 : st := load true [(6%N, Some 1%N, 11%Z, 101%Z); (8%N, Some 2%N, 12%Z, 102%Z); (1%N, None, 13%Z, 103%Z)]
                              [(1%positive, 2%positive); (1%positive, 3%positive)].
Definition ex_h : list op :=
  [ AddAtom 7%N (Some 3%N) (Some 14%Z) (Some 104%Z); Connect (ByIdx 0) (ByObj 4%positive);
    AddAtom 6%N None None None;                       (* malformed coordinate: raises, nothing changes *)
    DelAtom (ByElem 8%N); AppendBonds [(3%positive, 4%positive)]; DelBond 4%positive 3%positive;
    RemoveSubst (ByIdx 0) (ByLabel 3%N) None; AddHs [(1%positive, [21%Z; 22%Z])];
    DelAtom (ByIdx (-1)%Z) ].
Example C05_nonvacuous :
  inv_b ex_s0 = true /\
  (exists s', run ex_s0 ex_h = Some s' /\ ids s' = [1; 3; 5; 6; 7]%positive
              /\ row_of s' 3%positive = Some (13%Z, Some (CNum 103%Z))
              /\ row_of s' 5%positive = Some (14%Z, Some (CNum 0%Z))) /\
  step ex_s0 (AppendBond 1%positive 9%positive) = Unspec.
Proof. vm_compute. repeat split. eexists. repeat split. Qed.

(* a view edit, an adoption of atoms 1 and 3 by a container that is then dropped, and ordinary edits touching
   the adopted atoms: the molecule stays aligned, the adopted atoms keep reporting no parent, nothing is
   listed twice; the parent-pointer test would list atom 1 twice *)
Definition ex_xh : list xop :=
  [ ViaSub [1%positive; 3%positive] (VConnect (ByIdx 0) (ByIdx 1));
    ViaSub [1%positive; 2%positive] (VDelBond 2%positive 1%positive);
    ViaSub [2%positive] (VConnect (ByIdx 0) (ByObj 1%positive));      (* atom 1 is not in this view: raises *)
    Adopt [1%positive; 3%positive] ONone;
    Own (Connect (ByObj 1%positive) (ByIdx 2)); Own (AppendBonds [(3%positive, 1%positive)]);
    Own (AddAtom 7%N None (Some 14%Z) None); Own (DelAtom (ByObj 3%positive));
    Own (AddHs [(1%positive, [21%Z])]) ].
Example C05_shared_nonvacuous :
  (exists s', xrun ex_s0 ex_xh = Some s' /\ ids s' = [1; 2; 4; 5]%positive
              /\ map a_par (atoms s') = [ONone; OThis; OThis; OThis]
              /\ inv_b (own_all s') = true /\ inv_b s' = false
              /\ row_of s' 1%positive = Some (11%Z, Some (CNum 101%Z))) /\
  xstep ex_s0 (ViaSub [1%positive] (VAppendBond 1%positive 2%positive)) = Unspec /\
  inv_b (own_all (append_bond_by_parent (adopt ex_s0 [1%positive] ONone) 1%positive 2%positive)) = false.
Proof. vm_compute. repeat split. eexists. repeat split. Qed.

(* ---- the fuel of the model's private breadth-first search (remove_substituent) always suffices: each iteration
        pops one queue element, each pushed element is a bond endpoint that was not visited before, so
        |queue| + |unvisited endpoints| drops by one per iteration and starts at most at 1 + 2 * |bonds|.
        Hence NO operation ever returns OutOfFuel: the exclusion in the theorems above costs nothing, and a
        history stops (`run` = None) only at the recorded finding (Unspec). *)
From Molli Require Import Proofs.MolEditFuel.
Theorem C05_bfs_fuel_sufficient : forall s vis out a, bfs_loop (bfs_fuel s) s vis [a] out <> None.
Proof. exact bfs_fuel_sufficient. Qed.
Print Assumptions C05_bfs_fuel_sufficient.

Theorem C05_never_out_of_fuel : forall s o, step s o <> OutOfFuel.
Proof. intros s o E. pose proof (step_no_fuel s o) as H. rewrite E in H. exact H. Qed.
Print Assumptions C05_never_out_of_fuel.
