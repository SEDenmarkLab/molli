(* C01 -- Library round trip: what is stored in a .mlib/.clib is what is read back.

   Model: Model/Codec.v (encode / msgpack normalisation / decode of molli/chem/io.py + library.py).
   Tie T: the four wirings `mol_v2 ens_v2 mol_v1 ens_v1`, the constructor defaults and the largest atomic number in
   Gen/IoWiring.v are REGENERATED on every run by executing the real (de)serialisers on sentinel objects; the premises
   `wiring_ok` / `covers_all` / `covers_v1` below are decided on them by the kernel.
   Generic theorem (hand proof, all wirings, all well-formed objects): Proofs/Codec.v `roundtrip_of_wiring`.

   roundtrip W o  =  decode W (mnorm (encode W o)), or None when a value of o cannot be packed (`storable`)
                     -- what the model says is read back
   mnorm_obj o    =  o with every attribute value passed through msgpack (lists -> tuples, doubles -> singles:
                     the recorded encoding decision, known findings C01:attrib:...); coordinates, partial charges and
                     weights are single-precision bit patterns throughout (the granularity of the property).
   wf_obj ens o   =  name is a string, charge an int, mult a non-zero int, attrib a dict, elements 0..118, bond
                     endpoints are atoms of o, arrays rectangular (molecule: o_nconf = 0, no weights), and every value can be
                     packed (storable_obj: excludes the recorded finding C01:attrib:double-beyond-single-range-refused). *)
From Coq Require Import Bool ZArith NArith String List.
Import ListNotations.
From Molli Require Import Model.Codec Proofs.Codec Gen.IoWiring Proofs.CodecIdem.
Local Open Scope string_scope.

(* the hand-written constants of the model are the regenerated ones *)
Example C01_constants_agree :
  (gen_max_element, gen_obj_defaults) = (max_element, [default_name; VInt 0; VInt 1; VMap []]).
Proof. vm_compute. reflexivity. Qed.

(* the premises of the generic theorem, decided on today's wirings (named so that a changed wiring is reported first) *)
Example C01_wirings_accepted :
  (wiring_ok mol_v2 && covers_all mol_v2 && wiring_ok ens_v2 && covers_all ens_v2
   && wiring_ok mol_v1 && covers_v1 mol_v1 && wiring_ok ens_v1 && covers_v1 ens_v1)%bool = true.
Proof. vm_compute. reflexivity. Qed.

(* ---- current encoding (v2): every listed field comes back; only msgpack's normalisation of attribute values.
   Here and below the two goals `apply` leaves are the premises `wiring_ok W = true` and `covers_all W = true`
   (`covers_v1` for v1), the conjuncts of C01_wirings_accepted; the kernel decides them again. *)
Theorem C01_mol_v2 : forall o, wf_obj false o -> roundtrip mol_v2 o = Some (mnorm_obj o).
Proof. apply (roundtrip_v2 mol_v2); reflexivity. Qed.
Print Assumptions C01_mol_v2.

Theorem C01_ens_v2 : forall o, wf_obj true o -> roundtrip ens_v2 o = Some (mnorm_obj o).
Proof. apply (roundtrip_v2 ens_v2); reflexivity. Qed.
Print Assumptions C01_ens_v2.

(* ... and exactly the object that was stored when its attribute values are msgpack-stable *)
Theorem C01_mol_v2_exact : forall o, wf_obj false o -> msgpack_stable o -> roundtrip mol_v2 o = Some o.
Proof. apply (roundtrip_v2_exact mol_v2); reflexivity. Qed.
Print Assumptions C01_mol_v2_exact.

Theorem C01_ens_v2_exact : forall o, wf_obj true o -> msgpack_stable o -> roundtrip ens_v2 o = Some o.
Proof. apply (roundtrip_v2_exact ens_v2); reflexivity. Qed.
Print Assumptions C01_ens_v2_exact.

(* ---- legacy encoding (v1), restricted to its schema: formal charge / spin and the three attribute dicts are not
   part of it and come back as the constructor defaults; every other field as in v2 *)
Theorem C01_mol_v1 : forall o, wf_obj false o ->
  roundtrip mol_v1 o = Some (reset_obj_v1 gen_adflt gen_bdflt (mnorm_obj o)).
Proof. apply (roundtrip_v1 mol_v1); reflexivity. Qed.
Print Assumptions C01_mol_v1.

Theorem C01_ens_v1 : forall o, wf_obj true o ->
  roundtrip ens_v1 o = Some (reset_obj_v1 gen_adflt gen_bdflt (mnorm_obj o)).
Proof. apply (roundtrip_v1 ens_v1); reflexivity. Qed.
Print Assumptions C01_ens_v1.

(* ---- one round trip reaches a fixpoint of the codec: what was read back is again a well-formed object and storing
   it anywhere (the same or another library) and reading it again returns exactly it -- for every object, with no
   msgpack-stability premise (lists already became tuples, doubles singles, on the first trip).  Consequently any
   number of copy-through-a-library steps equals one. *)
Theorem C01_read_back_is_wf : forall ens o, wf_obj ens o -> wf_obj ens (mnorm_obj o).
Proof. exact wf_obj_mnorm. Qed.
Print Assumptions C01_read_back_is_wf.

Theorem C01_second_trip_mol_v2 : forall o o1, wf_obj false o ->
  roundtrip mol_v2 o = Some o1 -> o1 = mnorm_obj o /\ roundtrip mol_v2 o1 = Some o1.
Proof. apply (second_trip mol_v2); reflexivity. Qed.
Print Assumptions C01_second_trip_mol_v2.

Theorem C01_second_trip_ens_v2 : forall o o1, wf_obj true o ->
  roundtrip ens_v2 o = Some o1 -> o1 = mnorm_obj o /\ roundtrip ens_v2 o1 = Some o1.
Proof. apply (second_trip ens_v2); reflexivity. Qed.
Print Assumptions C01_second_trip_ens_v2.

(* ---- nothing else changes: conformer count, the arrays (hence their shapes), atom count, bond sequence/endpoints *)
Theorem C01_nothing_else : forall o,
  frame (mnorm_obj o) = frame o /\ forall da db, frame (reset_obj_v1 da db (mnorm_obj o)) = frame o.
Proof.
  intros o. assert (E : frame (mnorm_obj o) = frame o)
    by (rewrite <- (norm_obj_covers_all mol_v2 o eq_refl); apply frame_norm_obj).
  split; [exact E|]. intros da db. now rewrite frame_reset_v1.
Qed.
Print Assumptions C01_nothing_else.

(* ---- the hypotheses are satisfiable by non-trivial objects, and the model really runs *)
Definition nan32 : Z := 2143289344.     (* 0x7FC00000 *)
Definition ex_atoms : list atom :=
  [ mk_atom (VInt 6) (VInt 13) (VStr "C1") (VInt 2) (VInt 10) (VInt 41) (VInt (-1)) (VInt 1)
            (VMap [(VStr "k", VTup [VInt 1; VNone; VBytes [0%N; 255%N]; VF32 1056964608])]);
    mk_atom (VInt 0) VNone VNone (VInt 100) (VInt 0) (VInt 0) (VInt 0) (VInt 0) (VMap []);     (* dummy, Unknown *)
    mk_atom (VInt 118) VNone (VStr "") (VInt 101) (VInt 0) (VInt 0) (VInt 0) (VInt 0) (VMap []) ]. (* attachment point *)
Definition ex_bonds : list bond :=
  [ mk_bond 2 0 (VStr "b") (VInt 20) (VInt 10) (VF32 1069547520) (VMap [(VInt 3, VStr "x")]);
    mk_bond 1 1 VNone (VInt 99) (VInt 0) (VF32 1065353216) (VMap []) ].
Definition ex_mol : obj :=
  mk_obj (VStr "m") (VInt (-2)) (VInt 3) (VMap [(VStr "a", VInt 1)]) ex_atoms ex_bonds 0
         [0; nan32; 2139095040; 1; 2147483648; 5; 6; 7; 8]%Z [1056964608; 0; 3204448256]%Z [].
Definition ex_ens : obj :=
  mk_obj (VStr "e") (VInt 0) (VInt 1) (VMap []) ex_atoms ex_bonds 2
         [0; 1; 2; 3; 4; 5; 6; 7; 8; nan32; 10; 11; 12; 13; 14; 15; 16; 17]%Z [1; 2; 3; 4; 5; 6]%Z [7; 8]%Z.
Definition ex_ens_empty : obj := mk_obj (VStr "") (VInt 0) (VInt 1) (VMap []) [] [] 0 [] [] [].
Definition ex_ens_noatoms : obj := mk_obj (VStr "z") (VInt 0) (VInt 1) (VMap []) [] [] 3 [] [] [1; 1; 1]%Z.

Example C01_hypotheses_satisfiable :
  wf_obj false ex_mol /\ wf_obj true ex_ens /\ wf_obj true ex_ens_empty /\ wf_obj true ex_ens_noatoms
  /\ wf_obj false ex_ens_empty /\ msgpack_stable ex_mol /\ msgpack_stable ex_ens.
Proof. vm_compute. repeat split; reflexivity. Qed.

Example C01_model_runs :
  roundtrip mol_v2 ex_mol = Some ex_mol /\ roundtrip ens_v2 ex_ens = Some ex_ens
  /\ roundtrip ens_v2 ex_ens_noatoms = Some ex_ens_noatoms
  /\ roundtrip ens_v1 ex_ens = Some (reset_obj_v1 gen_adflt gen_bdflt ex_ens)
  /\ roundtrip mol_v1 ex_mol <> Some ex_mol.
Proof. vm_compute. repeat split; try reflexivity. discriminate. Qed.

(* the recorded encoding decision (known finding C01:attrib:list-as-tuple) as the model states it *)
Example C01_known_lists_become_tuples :
  exists o, wf_obj false o /\ roundtrip mol_v2 o <> Some o
            /\ roundtrip mol_v2 o = Some (mnorm_obj o).
Proof.
  exists (mk_obj (VStr "m") (VInt 0) (VInt 1) (VMap [(VStr "k", VList [VInt 1])]) [] [] 0 [] [] []).
  vm_compute. repeat split; try reflexivity. discriminate.
Qed.
