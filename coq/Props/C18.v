(* C18 -- "jobmap computes each item once, reuses only valid results, resumes cleanly": property theorems only.
   Model: Model/Jobmap.v (source keys, destination map, cache directory, execution counters; the outcome of the n-th
   execution of an item is an arbitrary oracle).  Tie: harness/c18.py replays sequences of real jobmap runs in the
   model (check_jcase evaluated by the kernel).
   Hypotheses used throughout: the source keys are distinct (a library is a map) and the cache file names of different
   sub-items are distinct (all_names; proved below from the key hypothesis for single jobs and for vectorised jobs
   with at most 10 sub-items). *)
From Coq Require Import List Bool NArith ZArith String.
Import ListNotations.
From Molli Require Import Model.Job Model.Jobmap Proofs.Jobmap.
From Molli Require Import Proofs.Job.
Local Open Scope string_scope.

(* One run, pointwise.  Executed = to_be_done minus valid cache: the counter of a name advances by exactly one iff the
   name is on the run list, its cache entry then is the output of that execution, everything else is untouched; an
   entry of the destination never changes; a work item's new entry is the processed outputs iff all of them are good. *)
Theorem C18_run : forall outcome p st, NoDup (map fst (js_src st)) -> NoDup (runlist p st) ->
  let st' := jobmap outcome p st in
  js_src st' = js_src st
  /\ (forall nm, cnt st' nm = if mem nm (runlist p st) then (cnt st nm + 1)%N else cnt st nm)
  /\ (forall nm, dget nm (js_cache st') =
                 if mem nm (runlist p st) then Some (COut (fresh outcome p st nm)) else dget nm (js_cache st))
  /\ (forall k, dget k (js_dst st') =
        match dget k (js_dst st) with
        | Some v => Some v
        | None => match find (key_is k) (js_src st) with
                  | Some kl => all_good (js_cache st') (names p kl)
                  | None => None
                  end
        end).
Proof. exact jobmap_spec. Qed.
Print Assumptions C18_run.

(* the run list: sub-items of source keys that are not in the destination and have no valid cached output *)
Theorem C18_executed : forall p st nm, In nm (runlist p st) <->
  exists kl, In kl (js_src st) /\ dget (fst kl) (js_dst st) = None /\ In nm (names p kl)
             /\ valid p (dget nm (js_cache st)) = false.
Proof. exact in_runlist. Qed.
Print Assumptions C18_executed.

(* a cached output of a different input (strict_hash), of a failed run, a damaged or a missing one is not reused *)
Theorem C18_no_reuse_stale : forall p st kl nm,
  In kl (js_src st) -> dget (fst kl) (js_dst st) = None -> In nm (names p kl) ->
  (dget nm (js_cache st) = None \/ dget nm (js_cache st) = Some CCorrupt
   \/ (exists o, dget nm (js_cache st) = Some (COut o) /\ (o_code o <> 0%Z \/ (jp_strict p = true /\ o_arg o <> jp_arg p)))) ->
  In nm (runlist p st).
Proof.
  intros p st kl nm Hin Hd Hn Hc. apply in_runlist. exists kl. repeat split; try assumption.
  destruct Hc as [->|[->|(o & -> & Ho)]]; try reflexivity. simpl. apply andb_false_iff.
  destruct Ho as [Ho|[-> Ho]]; [right; now apply Z.eqb_neq|left; now apply String.eqb_neq].
Qed.
Print Assumptions C18_no_reuse_stale.

(* destination: existing entries (of source keys or of keys present only there) are left alone, no foreign key appears,
   a work item is stored iff every output is good *)
Theorem C18_dest_preserved : forall outcome p st k v, NoDup (map fst (js_src st)) -> NoDup (runlist p st) ->
  dget k (js_dst st) = Some v -> dget k (js_dst (jobmap outcome p st)) = Some v.
Proof. intros outcome p st k v Hk Hr H. destruct (jobmap_spec outcome p st Hk Hr) as (_ & _ & _ & Hd). now rewrite Hd, H. Qed.
Print Assumptions C18_dest_preserved.

Theorem C18_dest_no_foreign : forall outcome p st k, NoDup (map fst (js_src st)) -> NoDup (runlist p st) ->
  dget k (js_dst st) = None -> ~ In k (map fst (js_src st)) -> dget k (js_dst (jobmap outcome p st)) = None.
Proof.
  intros outcome p st k Hk Hr H Hn. destruct (jobmap_spec outcome p st Hk Hr) as (_ & _ & _ & Hd).
  now rewrite Hd, H, find_none_notin.
Qed.
Print Assumptions C18_dest_no_foreign.

Theorem C18_dest_new : forall outcome p st kl, NoDup (map fst (js_src st)) -> NoDup (runlist p st) ->
  In kl (js_src st) -> dget (fst kl) (js_dst st) = None ->
  dget (fst kl) (js_dst (jobmap outcome p st)) = all_good (js_cache (jobmap outcome p st)) (names p kl).
Proof.
  intros outcome p st kl Hk Hr Hin H. destruct (jobmap_spec outcome p st Hk Hr) as (_ & _ & _ & Hd).
  now rewrite Hd, H, find_key_in.
Qed.
Print Assumptions C18_dest_new.

(* resume: a rerun with the same arguments executes exactly what failed in the previous run *)
Theorem C18_resume : forall outcome p st nm, NoDup (map fst (js_src st)) -> NoDup (all_names p st) ->
  In nm (runlist p (jobmap outcome p st)) <-> In nm (runlist p st) /\ failed (outcome nm (cnt st nm)).
Proof. exact resume. Qed.
Print Assumptions C18_resume.

(* computed once: an item that is in the destination or completely and validly cached is never executed again, however
   many times jobmap is rerun with these arguments; an item all of whose executions succeed becomes such an item, and
   (cached successes carrying their return file, which run_local guarantees) lands in the destination *)
Theorem C18_computed_once : forall outcome p n st kl, NoDup (map fst (js_src st)) -> NoDup (all_names p st) ->
  In kl (js_src st) -> settled p st kl -> forall nm, In nm (names p kl) -> cnt (rerun outcome p n st) nm = cnt st nm.
Proof. exact computed_once. Qed.
Print Assumptions C18_computed_once.

Theorem C18_success_settles : forall outcome p st kl, NoDup (map fst (js_src st)) -> NoDup (all_names p st) ->
  In kl (js_src st) ->
  (forall nm, In nm (names p kl) -> In nm (runlist p st) -> outcome nm (cnt st nm) = OSucceed) ->
  settled p (jobmap outcome p st) kl.
Proof.
  intros outcome p st kl Hk Ha Hin Hok.
  destruct (jobmap_spec outcome p st Hk (runlist_nodup p st Ha)) as (_ & _ & Hc & Hd). cbv beta in *.
  destruct (dget (fst kl) (js_dst st)) as [v|] eqn:Ed.
  - left. rewrite Hd, Ed. discriminate.
  - right. intros nm Hnm. rewrite Hc. destruct (mem nm (runlist p st)) eqn:Em; [|now apply (not_run_valid p st kl)].
    apply fresh_valid_iff. apply Hok; [exact Hnm|now apply mem_spec].
Qed.
Print Assumptions C18_success_settles.

Theorem C18_success_completes : forall outcome p st kl, NoDup (map fst (js_src st)) -> NoDup (all_names p st) ->
  In kl (js_src st) -> cache_wf st ->
  (forall nm, In nm (names p kl) -> In nm (runlist p st) -> outcome nm (cnt st nm) = OSucceed) ->
  dget (fst kl) (js_dst (jobmap outcome p st)) <> None.
Proof.
  intros outcome p st kl Hk Ha Hin Hwf Hok. pose proof (runlist_nodup p st Ha) as Hr.
  destruct (jobmap_spec outcome p st Hk Hr) as (_ & _ & Hc & Hd). cbv beta in *.
  rewrite Hd. destruct (dget (fst kl) (js_dst st)) as [v|] eqn:Ed; [discriminate|]. rewrite find_key_in by assumption.
  apply all_good_iff. intros nm Hnm. rewrite Hc. destruct (mem nm (runlist p st)) eqn:Em.
  - apply fresh_good_iff. apply Hok; [exact Hnm|now apply mem_spec].
  - (* reused: valid, hence a success, hence with its return file *)
    pose proof (not_run_valid p st kl nm Hin Ed Hnm Em) as Ev. unfold valid in Ev.
    destruct (dget nm (js_cache st)) as [[|o]|] eqn:Ec; try discriminate.
    apply andb_prop in Ev as [_ Ev]. unfold good. rewrite Ev. apply Z.eqb_eq in Ev. now rewrite (Hwf nm o Ec Ev).
Qed.
Print Assumptions C18_success_completes.

Theorem C18_cache_wf_kept : forall outcome p st, NoDup (map fst (js_src st)) -> NoDup (all_names p st) ->
  cache_wf st -> cache_wf (jobmap outcome p st).
Proof.
  intros outcome p st Hk Ha Hwf nm o Hc Ho.
  destruct (jobmap_spec outcome p st Hk (runlist_nodup p st Ha)) as (_ & _ & Hcc & _). cbv beta in *.
  rewrite Hcc in Hc. destruct (mem nm (runlist p st)); [|now apply (Hwf nm o)].
  injection Hc as <-. unfold fresh in *. now destruct (outcome nm (cnt st nm)) as [|[c|c]|[c|c]|].
Qed.
Print Assumptions C18_cache_wf_kept.

(* ---- "the items whose commands succeeded": an execution has a LIST of commands (named or not).  It counts as a
   success exactly when every command succeeded and the return file was produced; a failing command at any position,
   named or not, makes it a failure whatever the later commands would have done; and that summary is what the
   run_local model of C17 (Model/Job.v, tied to runner.py by C17's runs) leaves in the output file jobmap reads. *)
Theorem C18_commands_succeed_iff : forall l file,
  run_cmds file l = OSucceed <->
  (forall c, In c l -> cs_code c = None) /\ (file = true \/ exists c, In c l /\ cs_write c = true).
Proof. exact run_cmds_succeed_iff. Qed.
Print Assumptions C18_commands_succeed_iff.

Theorem C18_commands_stop_at_failure : forall file a c k b, (forall x, In x a -> cs_code x = None) -> cs_code c = Some k ->
  forall b', run_cmds file (a ++ c :: b) = run_cmds file (a ++ c :: b').
Proof.
  intros file a. revert file. induction a as [|x a IH]; intros file c k b Ha Hc b'; simpl; [now rewrite Hc|].
  rewrite (Ha x (or_introl eq_refl)). apply (IH _ c k b); [|exact Hc]. intros y Hy. apply Ha. now right.
Qed.

Theorem C18_commands_naming_irrelevant : forall l file, run_cmds file (map unname l) = run_cmds file l.
Proof. induction l as [|c r IH]; intro file; simpl; [reflexivity|]. destruct (cs_code c); [reflexivity|apply IH]. Qed.

Theorem C18_commands_run_local : forall rf payload hash base (inp : jobinput cstep) arg n,
  ji_cmds inp <> [] -> ji_ret inp = Some [rf] -> NoDup (cmd_names (ji_cmds inp)) -> rf_free rf (ji_cmds inp) ->
  let k := run_cmds (dhas rf (materialise (ji_files inp))) (map fst (ji_cmds inp)) in
  exists st out, fst (body cstep (step_exec rf payload) hash base inp) = Done st out
                 /\ jo_exitcode out = o_code (out_of arg k n)
                 /\ dhas rf (jo_files out) = o_file (out_of arg k n)
                 /\ jo_hash out = hash inp
                 /\ (st = 0%Z <-> k = OSucceed).
Proof.
  intros rf payload hash base inp arg n Hne Hret Hnd Hfree. cbv zeta.
  set (f0 := materialise (ji_files inp)). set (e := overlay base (ji_env inp)).
  destruct (captures_read rf payload e (ji_cmds inp) f0 Hnd Hfree) as (so & se & Hso & Hse).
  destruct (loop_summary rf payload e (ji_cmds inp) Hne Hfree f0) as (c & Hl & Hs). cbv zeta in Hso, Hse.
  set (sts := loop cstep (step_exec rf payload) e (ji_cmds inp) f0) in *. set (f := final_fs f0 sts) in *.
  unfold body. cbv zeta. fold f0 e sts f. rewrite Hso, Hse, Hl. simpl fst.
  eexists _, _. split; [reflexivity|]. simpl jo_exitcode. simpl jo_files. simpl jo_hash.
  unfold requested. rewrite Hret, <- Hs.
  assert (Hcol : dhas rf (collect f [rf]) = dhas rf f).
  { unfold dhas. rewrite collect_spec. simpl. now rewrite String.eqb_refl. }
  assert (Hall : all_present f [rf] = dhas rf f) by (simpl; apply andb_true_r).
  rewrite Hcol, Hall.
  destruct c as [|k|k]; destruct (dhas rf f); simpl; repeat split; intros; try reflexivity; try discriminate.
Qed.
Print Assumptions C18_commands_run_local.

(* an item one of whose commands failed in this run is not in the destination afterwards and is executed again by the
   next run with these arguments ("a failed run is not reused") *)
Theorem C18_failed_command_not_stored : forall script p st kl nm c,
  NoDup (map fst (js_src st)) -> NoDup (all_names p st) ->
  In kl (js_src st) -> In nm (names p kl) -> In nm (runlist p st) ->
  In c (script nm (cnt st nm)) -> cs_code c <> None ->
  let st' := jobmap (cmd_outcome script) p st in
  dget (fst kl) (js_dst st') = None /\ In nm (runlist p st').
Proof.
  intros script p st kl nm c Hk Ha Hin Hnm Hr Hc Hcode. cbv zeta.
  assert (Hrun : In nm (runlist p (jobmap (cmd_outcome script) p st))).
  { apply resume; [exact Hk|exact Ha|]. split; [exact Hr|]. now apply (run_cmds_failing_command false _ c). }
  split; [|exact Hrun]. apply (in_runlist_item p _ kl nm); unfold all_names; rewrite ?src_jobmap; assumption.
Qed.
Print Assumptions C18_failed_command_not_stored.

(* hypotheses satisfiable: two commands, the unnamed first one fails, the named second one would write the return file *)
Example C18_commands_nonvacuous :
  let cs := [(mk_cs false false (Some (Exit 3%positive)) false, None); (mk_cs true true None false, Some "c1")] in
  let inp := mk_ji "b" cs None (Some ["o.txt"]) None in
  NoDup (cmd_names cs) /\ rf_free "o.txt" cs
  /\ run_cmds false (map fst cs) = OFail (Exit 3%positive)
  /\ fst (body cstep (step_exec "o.txt" "x") (fun _ => "h") [] inp) = Done 1 (mk_jo [] [] 3 [] "h")
  /\ run_cmds false (map fst (rev cs)) = OFailFile (Exit 3%positive).
Proof.
  cbv zeta. split; [repeat constructor; simpl; intuition discriminate|]. split; [|repeat split; reflexivity].
  intros c n Hc Hn. destruct Hc as [<-|[<-|[]]]; simpl in Hn; [discriminate|]. injection Hn as <-. split; discriminate.
Qed.

(* the name hypotheses follow from distinct source keys *)
Theorem C18_names_distinct_single : forall st arg strict,
  NoDup (map fst (js_src st)) -> NoDup (all_names (mk_jp arg strict false) st).
Proof.
  intros st arg strict. unfold all_names, names. simpl. induction (js_src st) as [|a l IH]; simpl; intro H; [constructor|].
  apply NoDup_cons_iff in H as [Ha H]. constructor; [|now apply IH].
  intro Hin. apply Ha. apply in_flat_map in Hin as [b [Hb [<-|[]]]]. now apply in_map.
Qed.
Theorem C18_names_distinct_vectorised : forall st arg strict,
  NoDup (map fst (js_src st)) -> (forall kl, In kl (js_src st) -> snd kl <= 10) ->
  NoDup (all_names (mk_jp arg strict true) st).
Proof. exact names_vec_nodup. Qed.
Theorem C18_runlist_distinct : forall p st, NoDup (all_names p st) -> NoDup (runlist p st).
Proof. exact runlist_nodup. Qed.
Print Assumptions C18_names_distinct_vectorised.

(* ---- non-vacuity: a vectorised library, one pre-populated key, a destination-only key, a stale and a damaged cache
   entry; b.1 fails once.  Run 1 executes a.0, a.1, b.0, b.1 (not c, not zz), stores a; run 2 executes only b.1 and
   stores b; run 3 executes nothing. *)
Definition ex_plans : list (string * list (list cstep)) :=
  [("b.1", [[mk_cs false false (Some (Exit 3%positive)) false; mk_cs true true None false]])].   (* unnamed command fails, the named one after it would write *)
Definition ex_state : jstate :=
  mk_js [("a", 2%nat); ("b", 2%nat); ("c", 1%nat)] [("c", [("pre", 9%N)]); ("zz", [("pre", 1%N)])]
        [("a.0", COut (mk_out "B" 0 true 5%N)); ("b.0", CCorrupt); ("c.0", COut (mk_out "A" 7 false 0%N))] [("a.0", 6%N)].
Definition ex_p : jparams := mk_jp "A" true true.

Example C18_nonvacuous :
  let o := plan_outcome ex_plans in
  let s1 := jobmap o ex_p ex_state in
  let s2 := jobmap o ex_p s1 in
  let s3 := jobmap o ex_p s2 in
  NoDup (map fst (js_src ex_state)) /\ NoDup (all_names ex_p ex_state) /\ cache_wf ex_state
  /\ runlist ex_p ex_state = ["a.0"; "a.1"; "b.0"; "b.1"]
  /\ map fst (js_dst s1) = ["c"; "zz"; "a"] /\ dget "a" (js_dst s1) = Some [("A", 6%N); ("A", 0%N)]
  /\ runlist ex_p s1 = ["b.1"]
  /\ dget "b" (js_dst s2) = Some [("A", 0%N); ("A", 1%N)]
  /\ runlist ex_p s2 = [] /\ js_count s3 = js_count s2 /\ js_dst s3 = js_dst s2
  /\ settled ex_p s1 ("a", 2%nat).
Proof.
  cbv zeta. repeat split; try reflexivity.
  - repeat constructor; simpl; intuition discriminate.
  - repeat constructor; simpl; intuition discriminate.
  - intros nm o H. simpl in H.
    destruct (String.eqb nm "a.0"); [now injection H as <-|].
    destruct (String.eqb nm "b.0"); [discriminate|].
    destruct (String.eqb nm "c.0"); [injection H as <-; intros [=]|discriminate].
  - left. vm_compute. discriminate.
Qed.

(* ---- "items already in the destination are not executed again", whoever put them there and through whichever handle:
   Collection.keys() is the key set held by the HANDLE; jobmap takes it inside destination.reading(), where it is the
   key set of the file, so the work list does not depend on what the handle knew before.  A view that is not
   refreshed (fresh handle on a pre-populated file) sends a stored item to be executed again. *)
Theorem C18_handle_view_refreshed : forall p st,
  todo_seen (map fst (js_dst st)) st = todo st /\ runlist_seen p (map fst (js_dst st)) st = runlist p st.
Proof. exact (fun p st => conj (todo_seen_refreshed st) (runlist_seen_refreshed p st)). Qed.
Print Assumptions C18_handle_view_refreshed.

Theorem C18_stale_view_refuted :
  let st := mk_js [("a", 1%nat); ("b", 1%nat)] [("a", [("A", 0%N)])] [("a", COut (mk_out "B" 0 true 0%N))] [("a", 1%N)] in
  let p := mk_jp "A" true false in
  let ok := fun (_ : string) (_ : N) => OSucceed in
  let nocrash := fun (_ : string) (_ : N) => false in
  runlist_seen p [] st = ["a"; "b"] /\ runlist p st = ["b"]
  /\ cnt (jobmapX_seen ok nocrash false p [] st) "a" = 2%N
  /\ cnt (jobmapX ok nocrash false p st) "a" = 1%N.
Proof. cbv zeta. repeat split; reflexivity. Qed.
Print Assumptions C18_stale_view_refuted.

(* ---- a command killed by a signal: the recorded exit code is the negative signal number; such an output is never
   reused and never processed, with or without its return file *)
Theorem C18_failed_output_rejected : forall p o, o_code o <> 0%Z ->
  valid p (Some (COut o)) = false /\ good (Some (COut o)) = None.
Proof.
  intros p o H. apply Z.eqb_neq in H. unfold valid, good. rewrite H. split; [apply andb_false_r|reflexivity].
Qed.
Print Assumptions C18_failed_output_rejected.
Theorem C18_failure_codes_nonzero : forall e, ecode_Z e <> 0%Z.
Proof. intros []; discriminate. Qed.
Example C18_killed_after_writing_nonvacuous :
  run_cmds false [mk_cs true true (Some (Signal 9%positive)) false] = OFailFile (Signal 9%positive)
  /\ o_code (out_of "A" (OFailFile (Signal 9%positive)) 0%N) = (-9)%Z
  /\ good (Some (COut (out_of "A" (OFailFile (Signal 9%positive)) 0%N))) = None.
Proof. repeat split; reflexivity. Qed.

(* ---- runners that die before they write their output (jobmapX; `crashes nm n`: the runner of the n-th execution of
   nm is killed, or a command's program does not exist).  One run, pointwise: as C18_run, except that the cache has NO
   entry for an item whose runner died (the output judged unsuitable was removed when the item was dispatched). *)
Theorem C18_run_with_dying_runners : forall outcome crashes p st, NoDup (map fst (js_src st)) -> NoDup (runlist p st) ->
  let st' := jobmapX outcome crashes false p st in
  js_src st' = js_src st
  /\ (forall nm, cnt st' nm = if mem nm (runlist p st) then (cnt st nm + 1)%N else cnt st nm)
  /\ (forall nm, dget nm (js_cache st') =
                 if mem nm (runlist p st) then after_exec outcome crashes false p st nm else dget nm (js_cache st))
  /\ (forall k, dget k (js_dst st') =
        match dget k (js_dst st) with
        | Some v => Some v
        | None => match find (key_is k) (js_src st) with
                  | Some kl => all_good (js_cache st') (names p kl)
                  | None => None
                  end
        end).
Proof. exact (fun outcome crashes => jobmapX_spec outcome crashes false). Qed.
Print Assumptions C18_run_with_dying_runners.

(* when no runner dies, jobmapX is jobmap: every theorem above speaks about the runs the correspondence replays *)
Theorem C18_no_dying_runner : forall outcome crashes br p st, NoDup (runlist p st) ->
  (forall nm, In nm (runlist p st) -> crashes nm (cnt st nm) = false) ->
  jobmapX outcome crashes br p st = jobmap outcome p st.
Proof.
  intros outcome crashes br p st Hnd Hc. unfold jobmapX, jobmapX_seen, jobmap. cbv zeta.
  now rewrite runlist_seen_refreshed, todo_seen_refreshed, (fold_crash_free outcome crashes br p _ st Hnd Hc).
Qed.
Print Assumptions C18_no_dying_runner.

(* "a cached output from a different input is not reused": under strict_hash a new entry of the destination is made of
   outputs of THIS input only, whichever runners die *)
Theorem C18_stored_is_of_this_input : forall outcome crashes p st kl v,
  NoDup (map fst (js_src st)) -> NoDup (runlist p st) -> jp_strict p = true ->
  In kl (js_src st) -> dget (fst kl) (js_dst st) = None ->
  dget (fst kl) (js_dst (jobmapX outcome crashes false p st)) = Some v -> value_of_arg (jp_arg p) v = true.
Proof.
  intros outcome crashes p st kl v Hk Hr Hstrict Hin Hd0 Hv. rewrite dst_newX in Hv by assumption.
  destruct (jobmapX_spec outcome crashes false p st Hk Hr) as (_ & _ & Hc & _).
  apply (all_good_of_arg _ _ _ _ Hv). intros nm o Hnm Hg. apply good_inv in Hg. rewrite Hc in Hg.
  destruct (mem nm (runlist p st)) eqn:Em.
  - (* executed now *)
    unfold after_exec in Hg. destruct (crashes nm (cnt st nm)); [discriminate|].
    injection Hg as <-. unfold fresh. now destruct (outcome nm (cnt st nm)).
  - (* reused: the cache test compared its input *)
    pose proof (not_run_valid p st kl nm Hin Hd0 Hnm Em) as Ev. rewrite Hg in Ev. simpl in Ev. rewrite Hstrict in Ev.
    apply andb_prop in Ev as [Ev _]. now apply String.eqb_eq.
Qed.
Print Assumptions C18_stored_is_of_this_input.

(* an item whose runner died is not stored, and the next run executes it again (and only what failed or died) *)
Theorem C18_crashed_item_not_stored : forall outcome crashes p st kl nm,
  NoDup (map fst (js_src st)) -> NoDup (all_names p st) ->
  In kl (js_src st) -> In nm (names p kl) -> In nm (runlist p st) -> crashes nm (cnt st nm) = true ->
  dget (fst kl) (js_dst (jobmapX outcome crashes false p st)) = None.
Proof.
  intros outcome crashes p st kl nm Hk Ha Hin Hnm Hrun Hcr.
  apply (in_runlist_item p (jobmapX outcome crashes false p st) kl nm); unfold all_names; rewrite ?src_jobmapX; try assumption.
  apply resumeX; auto.
Qed.
Print Assumptions C18_crashed_item_not_stored.

Theorem C18_resume_with_dying_runners : forall outcome crashes p st nm,
  NoDup (map fst (js_src st)) -> NoDup (all_names p st) ->
  In nm (runlist p (jobmapX outcome crashes false p st)) <->
  In nm (runlist p st) /\ (crashes nm (cnt st nm) = true \/ failed (outcome nm (cnt st nm))).
Proof. exact resumeX. Qed.
Print Assumptions C18_resume_with_dying_runners.

(* the code before repair df05caa stored the successful output of input A as the result of input B when B's runner
   died; the repaired code stores nothing, forgets the old output and executes the item again next time *)
Theorem C18_stale_output_stored_refuted_before_repair :
  let st := mk_js [("a", 1%nat)] [] [("a", COut (mk_out "A" 0 true 0%N))] [("a", 1%N)] in
  let p := mk_jp "B" true false in
  let ok := fun (_ : string) (_ : N) => OSucceed in
  let dies := fun (_ : string) (_ : N) => true in
  dget "a" (js_dst (jobmapX ok dies true p st)) = Some [("A", 0%N)]
  /\ value_of_arg (jp_arg p) [("A", 0%N)] = false
  /\ dget "a" (js_dst (jobmapX ok dies false p st)) = None
  /\ dget "a" (js_cache (jobmapX ok dies false p st)) = None
  /\ cnt (jobmapX ok dies false p st) "a" = 2%N.
Proof. cbv zeta. repeat split; reflexivity. Qed.
Print Assumptions C18_stale_output_stored_refuted_before_repair.

(* hypotheses satisfiable, conclusion not trivial: two items with successful outputs of input A, mapped with input B
   under strict_hash; a's runner dies at its second command (program missing), b succeeds: only b is stored, as B's *)
Example C18_dying_runner_nonvacuous :
  let plans := [("a", [[mk_cs true false None false; mk_cs true true (Some (Exit 1%positive)) true]])] in
  let st := mk_js [("a", 1%nat); ("b", 1%nat)] [] [("a", COut (mk_out "A" 0 true 0%N)); ("b", COut (mk_out "A" 0 true 0%N))] [] in
  let p := mk_jp "B" true false in
  let st' := jobmapX (plan_outcome plans) (plan_crashes plans) false p st in
  NoDup (map fst (js_src st)) /\ NoDup (all_names p st) /\ runlist p st = ["a"; "b"]
  /\ plan_crashes plans "a" 0%N = true /\ plan_crashes plans "b" 0%N = false
  /\ js_dst st' = [("b", [("B", 0%N)])] /\ dget "a" (js_cache st') = None /\ runlist p st' = ["a"].
Proof.
  cbv zeta. repeat split; try reflexivity.
  - repeat constructor; simpl; intuition discriminate.
  - repeat constructor; simpl; intuition discriminate.
Qed.
