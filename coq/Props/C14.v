(* C14 -- a conformer ensemble stays rectangular and its conformers are live views.
   The property theorems; the model is Model/Ens.v (the definitions evaluated by the correspondence shards of
   every run: ConformerEnsemble.__init__ branch by branch, append, extend, scale, invert, translate, rotate, the
   whole-array setters, the Conformer view, iteration, slicing, dumps, the io round trip), the lemmas the proofs
   rest on are in Proofs/Ens.v.

   Rect e       :=  coords, atomic_charges and weights of e describe the same number of conformers, and every
                    coordinate block and every charge row has exactly (na e) = n_atoms entries.
   StoreRect W  :=  every ensemble created so far is Rect.
   step W o     =   Ok W' out (returned) | Err (raised: the store is unchanged -- by construction of the model,
                    and checked against the implementation after every raising call of the correspondence run)
                    | Unspec (two recorded findings: append onto the atomless empty ensemble ConformerEnsemble();
                    explicit n_conformers=0 with a Molecule).  `run` stops at Unspec, so every theorem about
                    `run W h = Some W'` is about histories that stay outside those two calls.           *)
From Coq Require Import List Bool ZArith Sorted.
Import ListNotations.
From Molli Require Import Model.Ens Proofs.Ens.
From Coq Require Import Lia.

(* the invariant is decidable: rect_b (Model/Ens.v) is its boolean form, so Rect of a concrete ensemble can be computed *)
Theorem C14_rect_decidable : forall e, rect_b e = true <-> Rect e.
Proof. intros e. unfold rect_b, Rect. rewrite !andb_true_iff, !Nat.eqb_eq, !lens_forallb. tauto. Qed.
Print Assumptions C14_rect_decidable.

(* established by EVERY constructor branch: from nothing / atoms / a list of structures (molecules or
   conformer views) / another ensemble / a molecule / a plain structure, with or without explicit coords,
   atomic_charges, weights -- whenever the constructor returns at all *)
Theorem C14_rect_constructors : forall W src nc_arg na_arg xc xq xw e,
  StoreRect W -> init W src nc_arg na_arg xc xq xw = CSome e -> Rect e.
Proof. exact init_rect. Qed.
Print Assumptions C14_rect_constructors.

(* preserved by EVERY operation of the alphabet (the 33 constructors of `op`, incl. append / extend / extend by an ensemble,
   collective transforms, setters, writes through a conformer, the io round trip) ... *)
Theorem C14_rect_step : forall W o W' w, StoreRect W -> step W o = Ok W' w -> StoreRect W'.
Proof. exact step_rect. Qed.
Print Assumptions C14_rect_step.

(* ... hence after EVERY history, starting from nothing (a raising call is followed by the next one) *)
Theorem C14_rect_history : forall h W, run empty_store h = Some W -> StoreRect W.
Proof. intros h W H. exact (run_rect h empty_store W (Forall_nil Rect) H). Qed.
Print Assumptions C14_rect_history.

Theorem C14_rect_history_from : forall h W W', StoreRect W -> run W h = Some W' -> StoreRect W'.
Proof. exact run_rect. Qed.
Print Assumptions C14_rect_history_from.

(* operations on one ensemble never change its number of atoms, and only append / extend change its
   number of conformers *)
Theorem C14_shape_frame : forall W o i f e e',
  ens_fun W o = Some (i, f) -> f e = Some e' -> na e' = na e /\ (resizing o = false -> nc e' = nc e).
Proof. intros W o i f e e' Ho Hf. destruct (ens_fun_spec W o i f e e' Ho Hf) as (A & B & _). exact (conj A B). Qed.
Print Assumptions C14_shape_frame.

(* the Conformer view ens[k] is a lens onto row k: coordinates ... *)
Theorem C14_lens_coords : forall k v e e', c_set_coords k v e = Some e' ->
  c_get_coords k e' = Some v /\
  (forall k', py_index (nc e) k' <> py_index (nc e) k -> c_get_coords k' e' = c_get_coords k' e) /\
  na e' = na e /\ nc e' = nc e /\ charges e' = charges e /\ weights e' = weights e.
Proof.
  intros k v e e' H. apply (c_set_inv Coords) in H as (cs & U & ->).
  destruct (upd_row_lens _ _ _ _ U) as (L & (r & _ & G) & O). repeat split; assumption.
Qed.
Print Assumptions C14_lens_coords.

(* ... and partial charges (whole-array assignment through the view, `conformer.atomic_charges = array`: fix 58b6275 of DESIGN.md section 8) *)
Theorem C14_lens_charges : forall k v e e', c_set_charges k v e = Some e' ->
  c_get_charges k e' = Some v /\
  (forall k', py_index (length (charges e)) k' <> py_index (length (charges e)) k -> c_get_charges k' e' = c_get_charges k' e) /\
  na e' = na e /\ nc e' = nc e /\ coords e' = coords e /\ weights e' = weights e.
Proof.
  intros k v e e' H. apply (c_set_inv Charges) in H as (qs & U & ->).
  destruct (upd_row_lens _ _ _ _ U) as (L & (r & _ & G) & O). repeat split; assumption.
Qed.
Print Assumptions C14_lens_charges.

(* writing back what was read changes nothing *)
Theorem C14_lens_put_get : forall k e, Rect e ->
  (forall v, c_get_coords k e = Some v -> c_set_coords k v e = Some e) /\
  (forall v, c_get_charges k e = Some v -> c_set_charges k v e = Some e).
Proof. intros k e H. split; intros v Hv; [exact (lens_set_get Coords k v e H Hv)|exact (lens_set_get Charges k v e H Hv)]. Qed.
Print Assumptions C14_lens_put_get.

(* EVERY write through a conformer (whole row, one element, scale / translate / transform of the view)
   leaves every other ensemble, every iterator, the shape, the weights and every other conformer's
   coordinates and charges as they were *)
Theorem C14_conf_write_frame : forall W o i k W' w,
  StoreRect W -> conf_write o = Some (i, k) -> step W o = Ok W' w ->
  iters W' = iters W /\ length (enss W') = length (enss W) /\
  (forall j, j <> i -> nth_error (enss W') j = nth_error (enss W) j) /\
  exists e e', nth_error (enss W) i = Some e /\ nth_error (enss W') i = Some e' /\
    na e' = na e /\ nc e' = nc e /\ weights e' = weights e /\
    forall k', py_index (nc e) k' <> py_index (nc e) k ->
      c_get_coords k' e' = c_get_coords k' e /\ c_get_charges k' e' = c_get_charges k' e.
Proof.
  intros W o i k W' w HW Hc H. destruct (conf_write_fun W o i k Hc) as (f & Ho & Hf).
  destruct (step_ens _ _ _ _ _ _ Ho H) as (e & e' & He & E & ->). cbn [set_ens enss iters].
  split; [reflexivity|]. split; [apply set_nth_length|]. split; [intros j Hj; exact (nth_error_set_nth_neq _ _ _ _ Hj)|].
  exists e, e'. split; [exact He|]. split; [apply nth_error_set_nth_eq, nth_error_Some; congruence|].
  exact (proj2 (Hf e e' E) (StoreRect_nth _ _ _ HW He)).
Qed.
Print Assumptions C14_conf_write_frame.

(* every conformer of a rectangular ensemble is a FULL molecule view (n_atoms coordinate rows, n_atoms charges),
   the ensemble can be dumped conformer by conformer, and the io round trip gives back the same ensemble *)
Theorem C14_view_writable : forall W e, Rect e ->
  (forall k j, py_index (nc e) k = Some j ->
     exists c q, c_get_coords k e = Some c /\ c_get_charges k e = Some q /\ length c = na e /\ length q = na e) /\
  dump_mol2 e = Some (zipw (@combine row3 num) (coords e) (charges e)) /\ length (dump_xyz e) = nc e /\
  ser_roundtrip W e = CSome e.
Proof.
  intros W e H. split; [intros k j Hk; exact (conf_view_full e k j H Hk)|].
  split; [exact (zip_rows_rect _ _ (proj1 H))|]. split; [reflexivity|exact (ser_roundtrip_id W e H)].
Qed.
Print Assumptions C14_view_writable.

(* iteration: one complete loop visits 0 .. nc-1 once each, in order; nested loops visit the full product *)
Theorem C14_for_loop : forall len, for_ids len = seq 0 len /\ nested_ids len = list_prod (seq 0 len) (seq 0 len).
Proof. intros len. split; [exact (for_ids_seq len)|exact (nested_ids_prod len)]. Qed.
Print Assumptions C14_for_loop.

(* any interleaving: an iterator standing at cursor c over an ensemble of len conformers yields
   c, c+1, ..., len-1 on its successive next() calls and then stops, WHATEVER happens in between (other
   iterators over the same or other ensembles being created and advanced, writes, transforms, new ensembles,
   dumps) as long as nothing resizes an ensemble *)
Theorem C14_iter_interleaved : forall h W Wf t i c len,
  IterAt W t i c len -> no_resize h -> run W h = Some Wf ->
  iter_yields t W h = firstn (count_next t h) (seq c (len - c)).
Proof.
  intros h W Wf t i c len HI Hn. apply (iter_interleaved_own h W Wf t i c len HI). revert Hn. apply Forall_impl.
  intros o Ho. destruct o; try reflexivity; discriminate.
Qed.
Print Assumptions C14_iter_interleaved.

(* a fresh iterator: each conformer exactly once, in order *)
Theorem C14_iter_once : forall W i e h Wf,
  nth_error (enss W) i = Some e -> no_resize h -> run W (IterNew i :: h) = Some Wf ->
  let t := length (iters W) in
  iter_yields t W (IterNew i :: h) = firstn (count_next t h) (seq 0 (nc e)) /\
  (nc e <= count_next t h -> iter_yields t W (IterNew i :: h) = seq 0 (nc e)).
Proof.
  intros W i e h Wf He Hn Hrun t. cbn [iter_yields run step] in *. rewrite He in *. simpl app.
  assert (HI : IterAt (mkStore (enss W) (iters W ++ [(i, 0)])) t i 0 (nc e)).
  { split; [|exists e; auto]. unfold t. cbn. rewrite nth_error_app2, Nat.sub_diag by lia. reflexivity. }
  pose proof (C14_iter_interleaved h _ Wf t i 0 (nc e) HI Hn Hrun) as Y. rewrite Nat.sub_0_r in Y.
  split; [exact Y|]. intros Hc. rewrite Y. apply firstn_all2. rewrite seq_length. exact Hc.
Qed.
Print Assumptions C14_iter_once.

(* a protocol with the cursor stored on the ensemble and __iter__ returning the ensemble itself
   (nested_ids_shared) visits only (0,0) .. (0,len-1) in a nested loop: refuted for every ensemble with at
   least two conformers *)
Theorem C14_shared_cursor_refuted : forall len, 2 <= len ->
  nested_ids_shared len = map (pair 0) (seq 0 len) /\ nested_ids_shared len <> nested_ids len.
Proof.
  intros len H. split; [exact (nested_ids_shared_spec len)|]. intros E. apply (f_equal (@length _)) in E.
  rewrite nested_ids_shared_spec, nested_ids_prod, map_length, prod_length, seq_length in E. nia.
Qed.
Print Assumptions C14_shared_cursor_refuted.

(* a slice only names conformers that exist *)
Theorem C14_slice_valid : forall len a b c ids x,
  slice_ids len a b c = Some ids -> In x ids -> (0 <= x < Z.of_nat len)%Z.
Proof. exact slice_ids_in_range. Qed.
Print Assumptions C14_slice_valid.

(* ... and names EXACTLY the conformers a python list slice of [0 .. len-1] selects, for EVERY slice (negative,
   out-of-range or missing start / stop, any non-zero step, empty results): with (lo, hi, st) the clipped bounds
   of slice.indices, the result lists -- no conformer twice, in the direction of the step -- exactly the
   existing conformers lo + j*st that lie before hi.  (range over slice.indices(n) is how CPython defines
   list(range(n))[a:b:c]; the named forms below spell the clipping out.) *)
Theorem C14_slice_spec : forall len a b c ids, slice_ids len a b c = Some ids ->
  exists lo hi st, slice_indices (Z.of_nat len) a b c = Some (lo, hi, st) /\ st <> 0%Z /\ NoDup ids /\
    StronglySorted (fun x y => if (0 <? st)%Z then (x < y)%Z else (y < x)%Z) ids /\
    forall x, In x ids <->
      (0 <= x < Z.of_nat len)%Z /\
      exists j : nat, x = (lo + Z.of_nat j * st)%Z /\ ((0 < st /\ x < hi) \/ (st < 0 /\ hi < x))%Z.
Proof.
  intros len a b c ids H. pose proof (fun x => slice_ids_in_range len a b c ids x H) as R.
  apply slice_ids_inv in H as (lo & hi & st & E & -> & B). assert (Hne : st <> 0%Z) by lia. exists lo, hi, st.
  split; [exact E|]. split; [exact Hne|]. split; [exact (py_range_NoDup _ _ _ Hne)|]. split; [exact (py_range_sorted _ _ _ Hne)|].
  intros x. rewrite <- (py_range_In lo hi st x Hne). split; [|tauto]. intros Hx. split; [exact (R x Hx)|exact Hx].
Qed.
Print Assumptions C14_slice_spec.

(* the slice forms by name: ens[:] is every conformer in order; ens[::-1] every conformer in reverse; ens[:k]
   the first k (NONE for k = 0, all for k beyond the end); ens[k:] conformers k .. len-1 (none for k beyond the
   end); ens[-k:] the LAST k, each once; ens[:-k] all but the last k *)
Theorem C14_slice_forms : forall len,
  slice_ids len None None None = Some (map Z.of_nat (seq 0 len)) /\
  slice_ids len None None (Some (-1)%Z) = Some (rev (map Z.of_nat (seq 0 len))) /\
  (forall k, slice_ids len None (Some (Z.of_nat k)) None = Some (map Z.of_nat (seq 0 (Nat.min k len)))) /\
  (forall k, slice_ids len (Some (Z.of_nat k)) None None = Some (map Z.of_nat (seq (Nat.min k len) (len - k)))) /\
  (forall k, 0 < k -> slice_ids len (Some (- Z.of_nat k)%Z) None None = Some (map Z.of_nat (seq (len - k) (Nat.min k len)))) /\
  (forall k, 0 < k -> slice_ids len None (Some (- Z.of_nat k)%Z) None = Some (map Z.of_nat (seq 0 (len - k)))).
Proof.
  intros len. split; [|split; [exact (slice_reversed len)|]]; repeat split; intros;
    rewrite slice_ids_fwd; cbv beta zeta iota; rewrite ?adj_nat, ?adj_neg by assumption; do 3 f_equal; lia.
Qed.
Print Assumptions C14_slice_forms.

(* ens[::s], s > 0: the conformers whose index is a multiple of s *)
Theorem C14_slice_stride : forall len s ids, (0 < s)%Z -> slice_ids len None None (Some s) = Some ids ->
  forall x, In x ids <-> (0 <= x < Z.of_nat len)%Z /\ (x mod s = 0)%Z.
Proof.
  intros len s ids Hs H x. apply C14_slice_spec in H as (lo & hi & st & E & Hne & _ & _ & M).
  unfold slice_indices in E. destruct (s =? 0)%Z eqn:E0; [lia|]. destruct (s <? 0)%Z eqn:E1; [lia|].
  inversion E; subst lo hi st; clear E. rewrite M. split.
  - intros (B & j & -> & _). split; [exact B|]. rewrite Z.add_0_l. apply Z.mod_mul. lia.
  - intros (B & Hm). split; [exact B|]. apply Z.mod_divide in Hm; [|lia]. destruct Hm as [z Hz].
    exists (Z.to_nat z). assert (0 <= z)%Z by nia. split; [|left; lia]. rewrite Z2Nat.id by lia. lia.
Qed.
Print Assumptions C14_slice_stride.

(* a slice raises exactly when its step is 0 *)
Theorem C14_slice_zero_step : forall len a b c, slice_ids len a b c = None <-> c = Some 0%Z.
Proof.
  intros len a b c. unfold slice_ids, slice_indices. destruct c as [s|]; [destruct (Z.eqb_spec s 0) as [->|Hs]|]; cbn;
    split; try discriminate; try reflexivity.
  intros [= ->]. contradiction.
Qed.
Print Assumptions C14_slice_zero_step.

(* the elements of a slice are live views: `for conf in ens[a:b:c]: conf.<transform f>` never fails for a
   non-zero step and transforms exactly the rows the slice names, ONCE each; every other row, the charges, the
   weights and the shape stay as they were *)
Theorem C14_slice_write : forall a b c f e ids, slice_ids (nc e) a b c = Some ids ->
  exists e', slice_map a b c f e = Some e' /\ na e' = na e /\ nc e' = nc e /\ charges e' = charges e /\ weights e' = weights e /\
    forall j, (In (Z.of_nat j) ids -> nth_error (coords e') j = option_map (map f) (nth_error (coords e) j)) /\
              (~ In (Z.of_nat j) ids -> nth_error (coords e') j = nth_error (coords e) j).
Proof.
  intros a b c f e ids H. unfold slice_map. rewrite H.
  apply C14_slice_spec in H as H'. destruct H' as (lo & hi & st & _ & _ & Hnd & _).
  destruct (c_map_all_rows f ids e (fun k => slice_ids_in_range _ _ _ _ _ k H)) as (cs & R & L & A). exists (with_coords e cs).
  split; [exact R|]. split; [reflexivity|]. split; [exact L|]. split; [reflexivity|]. split; [reflexivity|].
  intros j. cbn [coords with_coords]. rewrite A. split; intros Hj.
  - rewrite (proj1 (NoDup_count_occ' Z.eq_dec ids) Hnd _ Hj). reflexivity.
  - rewrite (proj1 (count_occ_not_In Z.eq_dec ids _) Hj). destruct (nth_error (coords e) j); reflexivity.
Qed.
Print Assumptions C14_slice_write.

(* every correspondence case the kernel accepts is a run of this model from nothing, ending rectangular *)
Theorem C14_check_case_sound : forall c, check_case c = true ->
  exists W', run empty_store (map fst c) = Some W' /\ StoreRect W'.
Proof. intros c H. exact (run_check_sound c empty_store H (Forall_nil Rect)). Qed.
Print Assumptions C14_check_case_sound.

(* the two recorded findings (regions where `step` is Unspec), as molli/chem/ensemble.py computes them:
   (a) append onto the atomless empty ensemble adopts a coordinate block wider than the atom list -> not Rect;
   (b) an explicit n_conformers=0 with a Molecule yields ONE conformer (rectangular, but not what was asked) *)
Theorem C14_known_atomless_append_refuted : forall c q e,
  atomless_empty e = true -> c <> [] -> ~ Rect (append_atomless_as_coded c q e).
Proof.
  intros c q e. unfold atomless_empty. intros H Hc (_ & _ & H3 & _). apply andb_true_iff in H as [H _]. apply Nat.eqb_eq in H.
  simpl in H3. inversion H3 as [|? ? L _]; subst. rewrite H in L. destruct c; [congruence|discriminate].
Qed.
Print Assumptions C14_known_atomless_append_refuted.

Theorem C14_known_ctor_zero : forall a, Rect (ctor_mol_zero_as_coded a) /\ nc (ctor_mol_zero_as_coded a) = 1.
Proof. intros a. split; [apply Rect_alloc|reflexivity]. Qed.
Print Assumptions C14_known_ctor_zero.

(* non-vacuity: two molecules -> ensemble; append a chargeless geometry; two interleaved iterators with a
   write through a conformer in between; a rejected append (wrong atom count); extend by itself; io round
   trip; scale of the copy only *)
Local Open Scope Z_scope.
Definition ex_h : list op :=
  [ New (SrcList [GLit [r3 1 2 3; r3 4 5 6] [n 7; n 8]; GLit [r3 11 12 13; r3 14 15 16] [n 17; n 18]]) None 0%nat None None None;
    Append 0%nat (GGeom [r3 21 22 23; r3 24 25 26]);
    IterNew 0%nat; IterNext 0%nat; IterNew 0%nat; IterNext 1%nat; IterNext 0%nat;
    ConfSetCharges 0%nat (-1) [n 41; n 42];
    IterNext 1%nat; IterNext 1%nat; IterNext 0%nat; IterNext 0%nat; IterNext 1%nat;
    Append 0%nat (GLit [r3 1 1 1] [n 1]);
    ExtendEns 0%nat 0%nat; Serialise 0%nat; Scale 1%nat 2 false ].

Example C14_nonvacuous :
  exists W e0 e1, run empty_store ex_h = Some W /\ enss W = [e0; e1] /\
    nc e0 = 6%nat /\ nc e1 = 6%nat /\ na e0 = 2%nat /\
    iter_yields 0 empty_store ex_h = [0; 1; 2]%nat /\ iter_yields 1 empty_store ex_h = [0; 1; 2]%nat /\
    c_get_charges 2 e0 = Some [n 41; n 42] /\ c_get_charges (-1) e0 = Some [n 41; n 42] /\
    c_get_coords 5 e0 = Some [r3 21 22 23; r3 24 25 26] /\ c_get_coords 5 e1 = Some [r3 42 44 46; r3 48 50 52] /\
    weights e0 = [n 1; n 1; n 1; n 1; n 1; n 1] /\
    step W (Append 0%nat (GLit [r3 1 1 1] [n 1])) = Err /\
    step empty_store (New (SrcMol (GLit [r3 1 2 3] [n 4])) (Some 0%nat) 0%nat None None None) = Unspec.
Proof. vm_compute. do 3 eexists. repeat split. Qed.

(* the hypotheses of C14_iter_interleaved are satisfiable: two iterators over a 3-conformer ensemble *)
Example C14_iter_hypotheses :
  let W := mkStore [alloc 3 2] [(0, 1); (0, 0)]%nat in
  let h := [IterNext 1%nat; IterNext 0%nat; Translate1 0%nat (1, 2, 3); IterNext 1%nat; IterNext 0%nat; IterNext 0%nat;
            IterNext 1%nat; IterNext 1%nat] in
  IterAt W 0%nat 0%nat 1%nat 3%nat /\ IterAt W 1%nat 0%nat 0%nat 3%nat /\ no_resize h /\ run W h <> None /\
  iter_yields 0 W h = [1; 2]%nat /\ iter_yields 1 W h = [0; 1; 2]%nat.
Proof.
  simpl. repeat split; try (eexists; split; reflexivity); try discriminate.
  repeat constructor.
Qed.

(* the slice theorems are not vacuous: the unusual-but-legal forms on six conformers, and a write through ens[-2:] *)
Example C14_slice_examples :
  slice_ids 6 (Some (-2)) None None = Some [4; 5] /\ slice_ids 6 None (Some 0) None = Some [] /\
  slice_ids 6 (Some 2) (Some 0) None = Some [] /\ slice_ids 6 None (Some (-1)) None = Some [0; 1; 2; 3; 4] /\
  slice_ids 6 (Some (-4)) (Some (-1)) None = Some [2; 3; 4] /\ slice_ids 6 None None (Some (-1)) = Some [5; 4; 3; 2; 1; 0] /\
  slice_ids 6 (Some 4) (Some 1) (Some (-1)) = Some [4; 3; 2] /\ slice_ids 6 (Some (-1)) None (Some (-2)) = Some [5; 3; 1] /\
  slice_ids 6 (Some (-100)) (Some 2) None = Some [0; 1] /\ slice_ids 6 (Some 1) (Some 100) (Some 2) = Some [1; 3; 5] /\
  slice_ids 6 None None (Some 0) = None /\
  option_map coords (slice_map (Some (-2)) None None (r_add (1, 1, 1)) (mkEns 1 [[r3 1 1 1]; [r3 2 2 2]; [r3 3 3 3]] [[n 0]; [n 0]; [n 0]] [n 1; n 1; n 1]))
    = Some [[r3 1 1 1]; [r3 3 3 3]; [r3 4 4 4]].
Proof. vm_compute. repeat split. Qed.

(* DETACHED views: a conformer that outlives every other reference to its ensemble (restored from a pickle -- alone, in a
   slice, as an element of a pickled ensemble --, deep-copied, returned by a helper whose ensemble was a local) is still a
   conformer of an ensemble: detaching adds a copy of its ensemble to the store and changes nothing else ... *)
Theorem C14_detached_view : forall W i W1, detach W i = Some W1 ->
  exists e, nth_error (enss W) i = Some e /\ W1 = push_ens W e /\ nth_error (enss W1) (length (enss W)) = Some e /\
            iters W1 = iters W /\ (forall j, (j < length (enss W))%nat -> nth_error (enss W1) j = nth_error (enss W) j) /\
            (StoreRect W -> StoreRect W1).
Proof.
  intros W i W1. unfold detach. intros H. apply option_map_some in H as (e & E & ->). exists e. unfold push_ens; cbn [enss iters].
  split; [exact E|]. split; [reflexivity|]. split; [rewrite nth_error_app2, Nat.sub_diag by lia; reflexivity|].
  split; [reflexivity|]. split; [intros j Hj; apply nth_error_app1, Hj|].
  intros HW. exact (StoreRect_push W e HW (StoreRect_nth _ _ _ HW E)).
Qed.
Print Assumptions C14_detached_view.
(* ... every use of it is the ordinary operation through conformer k of that ensemble (so the rectangularity, lens and frame
   theorems above hold for it) ... *)
Theorem C14_detached_write : forall W j k u e e', u <> DRead -> nth_error (enss W) j = Some e -> duse_fun k u e = Some e' ->
  step W (duse_op j k u) = Ok (set_ens W j e') ONone.
Proof.
  intros W j k u e e' Hu He Hf. destruct u; [contradiction| | | |]; cbn [duse_op step ens_fun duse_fun] in *; rewrite He; cbn; rewrite Hf; reflexivity.
Qed.
Theorem C14_detached_read : forall W j k e c q, nth_error (enss W) j = Some e -> c_get_coords k e = Some c -> c_get_charges k e = Some q ->
  step W (duse_op j k DRead) = Ok W (OConf c q) /\ duse_fun k DRead e = Some e.
Proof. intros W j k e c q He Hc Hq. cbn [duse_op step ens_fun read_fun duse_fun]. rewrite He, Hc, Hq. split; reflexivity. Qed.
(* ... and what is written through it never reaches the ensemble it was copied from *)
Theorem C14_detached_original_untouched : forall W i W1 e', detach W i = Some W1 ->
  forall j, (j < length (enss W))%nat -> nth_error (enss (set_ens W1 (length (enss W)) e')) j = nth_error (enss W) j.
Proof.
  intros W i W1 e' H j Hj. destruct (C14_detached_view W i W1 H) as (e & _ & _ & _ & _ & Hk & _).
  cbn [set_ens enss]. rewrite nth_error_set_nth_neq by (intros ->; exact (Nat.lt_irrefl _ Hj)). exact (Hk j Hj).
Qed.
Print Assumptions C14_detached_original_untouched.
Example C14_detached_nonvacuous :
  let e := mkEns 2%nat [[r3 1 2 3; r3 4 5 6]; [r3 11 12 13; r3 14 15 16]; [r3 21 22 23; r3 24 25 26]] [[n 7; n 8]; [n 17; n 18]; [n 27; n 28]] [n 1; n 1; n 1] in
  check_detached (e, [2; 0]%Z, [DRead; DTranslate (1, 1, 1)%Z; DSetChargeElem 1 (n 99); DScale 2],
                  [[([r3 21 22 23; r3 24 25 26], [n 27; n 28]); ([r3 1 2 3; r3 4 5 6], [n 7; n 8])];
                   [([r3 21 22 23; r3 24 25 26], [n 27; n 28]); ([r3 2 3 4; r3 5 6 7], [n 7; n 8])];
                   [([r3 21 22 23; r3 24 25 26], [n 27; n 99]); ([r3 2 3 4; r3 5 6 7], [n 7; n 8])];
                   [([r3 21 22 23; r3 24 25 26], [n 27; n 99]); ([r3 4 6 8; r3 10 12 14], [n 7; n 8])]]) = true /\
  exists W1, detach (push_ens empty_store e) 0%nat = Some W1 /\ length (enss W1) = 2%nat.
Proof. split; [vm_compute; reflexivity|]. eexists. split; [vm_compute; reflexivity|reflexivity]. Qed.
