(* C11 -- Geometric operations are rigid motions with the documented effect.
   Property theorems only (each is `exact <lemma>` or a script over the lemmas of Proofs/Rot.v, Proofs/RotMotion.v,
   Proofs/RotEns.v, Proofs/RotSeq.v and Proofs/RotViews.v), over the real numbers, for the SAME
   Gallina definitions (Model/Rot.v, parametric in the field operations) that the correspondence shards execute over Q
   against the implementation.

   What is NOT proved here (label: partial):
   - IEEE rounding: the implementation is compared with the exact model within a stated tolerance only;
   - np.random inside the antiparallel branch: the theorems hold for EVERY unit vector orthogonal to v2, the
     choice itself is hidden state (determinism is C12's business);
   - the user-supplied alignment callback (Kabsch/SVD) is described by hypotheses (its contract), not verified;
   - arctan2 itself: "the dihedral is t" is stated as "(arg1, arg2) = rho (sin t, cos t) with rho > 0";
   - which atoms yield_bfs selects (graph search: C15) -- `sel` is a parameter, constrained by hypotheses. *)
From Coq Require Import Reals Lra List ZArith Lia.
From Molli Require Import Common.Field3 Common.Field3R Model.Rot Model.RotEns Model.RotSeq Model.RotViews Proofs.Rot Proofs.RotMotion Proofs.RotEns Proofs.RotSeq Proofs.RotViews.
Import ListNotations.
Local Open Scope R_scope.

(* general branch: for unit a, b that are not opposite, a proper rotation with a @ R = b *)
Theorem C11_rodrigues (a b : vecR) :
  unit a -> unit b -> 1 + dot ROps a b <> 0 ->
  proper (rodrigues ROps a b) /\ vm ROps a (rodrigues ROps a b) = b.
Proof. exact (rod_correct a b). Qed.
Print Assumptions C11_rodrigues.

(* antiparallel branch: ANY unit vector ov orthogonal to b gives a proper rotation with a @ R = b *)
Theorem C11_antiparallel (a b ov : vecR) :
  unit a -> unit b -> unit ov -> dot ROps ov b = 0 -> dot ROps a b <> 0 ->
  proper (antiparallel ROps a b ov) /\ vm ROps a (antiparallel ROps a b ov) = b.
Proof. exact (antiparallel_correct a b ov). Qed.
Print Assumptions C11_antiparallel.

(* the function as a whole, both branches, un-normalised inputs: (v1/|v1|) @ R = v2/|v2|, R proper *)
Theorem C11_rotation_matrix_from_vectors (tol : R) (v1 v2 ov : vecR) (n1 n2 : R) :
  0 <= tol < 1 ->
  0 < n1 -> n1 * n1 = norm2 ROps v1 -> 0 < n2 -> n2 * n2 = norm2 ROps v2 ->
  unit ov -> dot ROps ov v2 = 0 ->
  proper (rot_from_vectors ROps tol v1 n1 v2 n2 ov) /\
  vm ROps (vdiv ROps v1 n1) (rot_from_vectors ROps tol v1 n1 v2 n2 ov) = vdiv ROps v2 n2.
Proof. exact (rot_from_vectors_correct tol v1 v2 ov n1 n2). Qed.
Print Assumptions C11_rotation_matrix_from_vectors.

(* proper, fixes the axis, trace 1 + 2 cos, and turns every x by exactly the angle (cosine AND sine, i.e.
   including the sense: right-handed for the column action M x) *)
Theorem C11_rotation_matrix_from_axis (ax : vecR) (n s c : R) :
  0 < n -> n * n = norm2 ROps ax -> s * s + c * c = 1 ->
  let M := rot_from_axis ROps ax n s c in
  proper M /\ vm ROps ax M = ax /\ trace ROps M = 1 + 2 * c /\
  (forall x, dot ROps x (mv ROps M x) * (n * n)
             = c * (dot ROps x x * (n * n) - dot ROps ax x * dot ROps ax x) + dot ROps ax x * dot ROps ax x) /\
  (forall x, triple ROps ax x (mv ROps M x) * n = s * (dot ROps x x * (n * n) - dot ROps ax x * dot ROps ax x)).
Proof. exact (rot_from_axis_correct ax n s c). Qed.
Print Assumptions C11_rotation_matrix_from_axis.

(* the row action used by `coords @ R` turns the other way *)
Theorem C11_axis_sense_row (u x : vecR) (s c : R) : unit u ->
  triple ROps u x (vm ROps x (axis_rot ROps u s c)) = - s * (dot ROps x x - dot ROps u x * dot ROps u x).
Proof. exact (axis_sense_row u x s c). Qed.
Print Assumptions C11_axis_sense_row.

(* an orthogonal matrix keeps dot products of row vectors; a proper one keeps every signed volume *)
Theorem C11_orth_preserves_dot (M : matR) (x y : vecR) :
  orth M -> dot ROps (vm ROps x M) (vm ROps y M) = dot ROps x y.
Proof. exact (orth_preserves_dot M x y). Qed.
Print Assumptions C11_orth_preserves_dot.

(* transform / rotate with a proper rotation: every pairwise distance and every signed volume is unchanged *)
Theorem C11_rigid_transform (M : matR) (X : list vecR) : proper M -> same_shape X (transform ROps M X).
Proof. exact (transform_same_shape M X). Qed.
Print Assumptions C11_rigid_transform.

Theorem C11_rigid_translate (v : vecR) (X : list vecR) : same_shape X (translate ROps v X).
Proof. exact (translate_same_shape v X). Qed.
Print Assumptions C11_rigid_translate.

(* a substructure edit moves exactly the selected rows *)
Theorem C11_substructure_moves_exactly (sel : nat -> bool) (f : vecR -> vecR) (X : list vecR) :
  length (update_rows sel f X) = length X /\
  forall i, (i < length X)%nat -> pt (update_rows sel f X) i = if sel i then f (pt X i) else pt X i.
Proof. exact (update_rows_frame sel f X). Qed.
Print Assumptions C11_substructure_moves_exactly.

Theorem C11_substructure_translate (sel : nat -> bool) (v : vecR) (X : list vecR) :
  same_shape_on (fun i => sel i = true) X (sub_translate ROps sel v X) /\
  (forall i, sel i = false -> pt (sub_translate ROps sel v X) i = pt X i).
Proof. exact (sub_translate_rigid sel v X). Qed.
Theorem C11_substructure_transform (sel : nat -> bool) (M : matR) (X : list vecR) : proper M ->
  same_shape_on (fun i => sel i = true) X (sub_transform ROps sel M X) /\
  (forall i, sel i = false -> pt (sub_transform ROps sel M X) i = pt X i).
Proof. exact (sub_transform_rigid sel M X). Qed.
Print Assumptions C11_substructure_transform.

(* the requested dihedral is reached, the far side keeps its shape, nothing else moves *)
Theorem C11_dihedral_target (X : list vecR) (i1 i2 i3 i4 : nat) (sel : nat -> bool) (st ct n2 rho : R) :
  (i1 < length X)%nat -> (i2 < length X)%nat -> (i3 < length X)%nat -> (i4 < length X)%nat ->
  sel i1 = false -> sel i2 = false -> sel i3 = true -> sel i4 = true ->
  0 < n2 -> n2 * n2 = norm2 ROps (vsub ROps (pt X i3) (pt X i2)) ->
  let g := dihedral_args ROps (pt X i1) (pt X i2) (pt X i3) (pt X i4) n2 in
  0 < rho -> rho * rho = fst g * fst g + snd g * snd g ->
  st * st + ct * ct = 1 ->
  let X' := rotate_dihedral ROps X i1 i2 i3 i4 sel st ct n2 rho in
  dihedral_args ROps (pt X' i1) (pt X' i2) (pt X' i3) (pt X' i4) n2 = (rho * st, rho * ct) /\
  n2 * n2 = norm2 ROps (vsub ROps (pt X' i3) (pt X' i2)) /\
  same_shape_on (fun i => sel i = true) X X' /\
  (forall i, sel i = false -> pt X' i = pt X i).
Proof. intros _ _. exact (rotate_dihedral_correct X i1 i2 i3 i4 sel st ct n2 rho). Qed.
Print Assumptions C11_dihedral_target.

(* The sign matters.  With the rotation built from +(t - d) and applied as coords @ R (the code before
   commit 6dd0b5d of the repository) the arguments come out as rho (sin(2d - t), cos(2d - t)): this is the general
   law, of which the theorem above is the instance s = sin(d - t), c = cos(d - t). *)
Theorem C11_dihedral_law (u1 u2 u3 : vecR) (n s c : R) : n <> 0 -> n * n = norm2 ROps u2 ->
  let u3' := vm ROps u3 (rot_from_axis ROps u2 n s c) in
  n * dot ROps u1 (cross ROps u2 u3')
    = c * (n * dot ROps u1 (cross ROps u2 u3)) - s * dot ROps (cross ROps u1 u2) (cross ROps u2 u3) /\
  dot ROps (cross ROps u1 u2) (cross ROps u2 u3')
    = c * dot ROps (cross ROps u1 u2) (cross ROps u2 u3) + s * (n * dot ROps u1 (cross ROps u2 u3)).
Proof. exact (dihedral_law u1 u2 u3 n s c). Qed.
Print Assumptions C11_dihedral_law.

Theorem C11_centred_centroid (X : list vecR) :
  X <> [] -> centroid ROps (translate ROps (vopp ROps (centroid ROps X)) X) = vzero ROps.
Proof. exact (centred_centroid X). Qed.
Print Assumptions C11_centred_centroid.

Theorem C11_ensemble_ops_rigid (E : list (list vecR)) :
  (forall v, Forall2 same_shape E (ens_translate1 ROps v E)) /\
  (forall vs, length vs = length E -> Forall2 same_shape E (ens_translate2 ROps vs E)) /\
  (forall M, proper M -> Forall2 same_shape E (ens_rotate ROps M E)) /\
  (forall k, Forall2 same_shape E (center_at_atom ROps k E)) /\
  (forall idx, Forall2 same_shape E (center_at_core ROps idx E)).
Proof.
  exact (conj (fun v => ens_translate1_shape v E) (conj (fun vs => ens_translate2_shape vs E)
        (conj (fun M => ens_rotate_shape M E) (conj (fun k => center_at_atom_shape k E) (fun idx => center_at_core_shape idx E))))).
Qed.
Print Assumptions C11_ensemble_ops_rigid.

(* Per-conformer stacks, for ensembles of EVERY shape: an (n_conformers, 3) array moves conformer k by its row k and
   an (n_conformers, 3, 3) stack turns conformer k by its matrix k.  There is no hypothesis on the number of atoms:
   the laws hold in particular when n_conformers = n_atoms (or 3, or 1), where array shapes coincide. *)
Theorem C11_ens_per_conformer (E : list (list vecR)) :
  (forall vs k, length vs = length E -> (k < length E)%nat ->
     nth k (ens_translate2 ROps vs E) [] = translate ROps (nth k vs (vzero ROps)) (nth k E [])) /\
  (forall Ms k, length Ms = length E -> (k < length E)%nat ->
     nth k (ens_rotate_each ROps Ms E) [] = transform ROps (nth k Ms (eye ROps)) (nth k E [])) /\
  (forall Ms, length Ms = length E -> Forall proper Ms -> Forall2 same_shape E (ens_rotate_each ROps Ms E)).
Proof. repeat split; intros; try (apply map2_nth; [assumption | lia]). now apply ens_rotate_each_shape. Qed.
Print Assumptions C11_ens_per_conformer.

(* ... and the other reading of such an array (row j added to atom j of every conformer), which array shapes allow
   exactly when n_conformers = n_atoms, is NOT a rigid motion: witness with n_conformers = n_atoms = 2 *)
Theorem C11_per_atom_displacement_not_rigid :
  let E := [[(0, 0, 0); (1, 0, 0)]; [(0, 0, 0); (0, 1, 0)]] : list (list vecR) in
  let vs := [(0, 0, 0); (1, 0, 0)] : list vecR in
  length vs = length E /\ Forall (fun X : list vecR => length X = length E) E /\
  Forall2 same_shape E (ens_translate2 ROps vs E) /\
  ~ Forall2 same_shape E (ens_displace_atoms ROps vs E).
Proof. exact displace_atoms_not_rigid. Qed.
Print Assumptions C11_per_atom_displacement_not_rigid.

(* scale(f) is a similarity of every conformer: distances times |f|, signed volumes times f^3 *)
Theorem C11_ens_scale_similarity (f : R) (E : list (list vecR)) : Forall2 (scaled_shape f) E (ens_scale ROps f E).
Proof.
  apply Forall2_map_same. intros X. split; [apply map_length|]. split; intros; rewrite !pt_scale.
  - generalize (pt X i) (pt X j). intros x y. vdestruct. f3. ring.
  - generalize (pt X i) (pt X j) (pt X k) (pt X l). intros x y z w. vdestruct. f3. ring.
Qed.
Print Assumptions C11_ens_scale_similarity.

Theorem C11_center_at_atom_origin (k : nat) (E : list (list vecR)) (X' : list vecR) :
  In X' (center_at_atom ROps k E) -> (k < length X')%nat -> pt X' k = vzero ROps.
Proof.
  unfold center_at_atom, ens_translate2. rewrite map2_map_l.
  intros HI Hk. apply in_map_iff in HI. destruct HI as [X [<- _]].
  unfold translate in Hk. rewrite map_length in Hk. rewrite pt_translate by exact Hk.
  unfold pt. generalize (nth k X (vzero ROps)). intros y. coords. veq; ring.
Qed.
Theorem C11_center_at_core_origin (idx : list nat) (E : list (list vecR)) (X' : list vecR) :
  In X' (center_at_core ROps idx E) -> idx <> [] -> (forall i, In i idx -> (i < length X')%nat) ->
  centroid ROps (select ROps idx X') = vzero ROps.
Proof.
  unfold center_at_core, ens_translate2. rewrite map2_map_l.
  intros HI Hne Hidx. apply in_map_iff in HI. destruct HI as [X [<- _]].
  rewrite select_translate by (intros i Hi; specialize (Hidx i Hi); unfold translate in Hidx; now rewrite map_length in Hidx).
  apply centred_centroid. unfold select. destruct idx; [contradiction | discriminate].
Qed.
Print Assumptions C11_center_at_core_origin.

(* Under the stated contract of the user-supplied callback (a proper rotation + the deviation that rotation
   achieves), Molecule.align_to_ref_coords returns the deviation of the pose it leaves (before the optional
   final shift), that value is the least among the candidate mappings, and the molecule moved rigidly. *)
Theorem C11_align_reports
  (dev : list vecR -> list vecR -> R) (func : list vecR -> list vecR -> matR * R) :
  (forall P Q, proper (fst (func P Q))) ->
  (forall P Q, snd (func P Q) = dev (transform ROps (fst (func P Q)) P) Q) ->
  forall (X : list vecR) (idxs : list (list nat)) (ref : list vecR) (v : option vecR) (X' : list vecR) (r : R),
  align ROps func X idxs ref v = Some (X', r) ->
  exists idx Xr,
    In idx idxs /\
    X' = match v with Some t => translate ROps t Xr | None => Xr end /\
    r = dev (select ROps idx Xr) ref /\
    r < 100 /\
    (forall idx', In idx' idxs -> r <= snd (func (select ROps idx' (align_centered ROps X (hd [] idxs))) ref)) /\
    same_shape X X'.
Proof. exact (align_reports dev func). Qed.
Print Assumptions C11_align_reports.

(* ... and the value returned does not depend on the initial pose of the molecule: re-posing the input by any
   rigid motion x |-> x M + w gives the same result, provided the callback's reported deviation is itself
   invariant under rotating its first argument (true of every optimal-superposition routine). *)
Theorem C11_align_pose_independent (func : list vecR -> list vecR -> matR * R) :
  (forall P Q M, proper M -> snd (func (transform ROps M P) Q) = snd (func P Q)) ->
  forall (X : list vecR) (idxs : list (list nat)) (ref : list vecR) (v : option vecR) (M : matR) (w : vecR),
  proper M -> hd [] idxs <> [] -> (forall i, In i (hd [] idxs) -> (i < length X)%nat) ->
  option_map snd (align ROps func (translate ROps w (transform ROps M X)) idxs ref v)
  = option_map snd (align ROps func X idxs ref v).
Proof.
  intros Hinv X idxs ref v M w HM Hne Hr. unfold align. destruct idxs as [|idx0 rest]; [reflexivity|]. simpl hd in *.
  apply align_with_value_ext. unfold align_inputs. rewrite align_centered_reposed by assumption. rewrite !map_map.
  apply map_ext. intros ix. rewrite select_transform. apply Hinv, HM.
Qed.
Print Assumptions C11_align_pose_independent.

(* ConformerEnsemble.align_to_ref_coords as the code performs it (centre all conformers, pick the best callback result
   per conformer, rotate by the (n_conformers, 3, 3) stack, shift all) IS Molecule.align_to_ref_coords carried out on
   every conformer -- for every number of conformers and atoms ... *)
Theorem C11_ens_align_conformerwise (func : list vecR -> list vecR -> matR * R)
        (E : list (list vecR)) (idxs : list (list nat)) (ref : list vecR) (v : option vecR)
        (E' : list (list vecR)) (rs : list R) :
  ens_align ROps func E idxs ref v = Some (E', rs) ->
  length E' = length E /\ length rs = length E /\
  forall k, (k < length E)%nat -> align ROps func (nth k E []) idxs ref v = Some (nth k E' [], nth k rs 0).
Proof. exact (ens_align_conformerwise func E idxs ref v E' rs). Qed.
Print Assumptions C11_ens_align_conformerwise.

(* ... hence, under the callback contract, every conformer is moved rigidly and the k-th returned value is the
   deviation of the pose conformer k is left in *)
Theorem C11_ens_align_reports
  (dev : list vecR -> list vecR -> R) (func : list vecR -> list vecR -> matR * R) :
  (forall P Q, proper (fst (func P Q))) ->
  (forall P Q, snd (func P Q) = dev (transform ROps (fst (func P Q)) P) Q) ->
  forall (E : list (list vecR)) (idxs : list (list nat)) (ref : list vecR) (v : option vecR)
         (E' : list (list vecR)) (rs : list R),
  ens_align ROps func E idxs ref v = Some (E', rs) ->
  length E' = length E /\ length rs = length E /\
  forall k, (k < length E)%nat ->
    exists idx Xr,
      In idx idxs /\
      nth k E' [] = match v with Some t => translate ROps t Xr | None => Xr end /\
      nth k rs 0 = dev (select ROps idx Xr) ref /\
      nth k rs 0 < 100 /\
      (forall idx', In idx' idxs ->
         nth k rs 0 <= snd (func (select ROps idx' (align_centered ROps (nth k E []) (hd [] idxs))) ref)) /\
      same_shape (nth k E []) (nth k E' []).
Proof.
  intros Hp Hr E idxs ref v E' rs H. destruct (ens_align_conformerwise func E idxs ref v E' rs H) as [L1 [L2 Hk]].
  exact (conj L1 (conj L2 (fun k Hlt => align_reports dev func Hp Hr _ _ _ _ _ _ (Hk k Hlt)))).
Qed.
Print Assumptions C11_ens_align_reports.

(* Which atoms a rotate_dihedral call turns is a function of the graph the structure has AT THAT MOMENT and of the
   direction a2 -> a3 given in THAT call: the least set containing a3 that is closed under bonds not leading back into
   a2.  Nothing is carried over from earlier calls (the other end of the same bond, the graph before an edit). *)
Theorem C11_far_side_of_current_graph (G : graph) (n i2 i3 : nat) (sel : nat -> bool) :
  far_side G n i2 i3 = Some sel ->
  (i3 < n)%nat /\ i2 <> i3 /\ adjb G i2 i3 = true /\
  sel i3 = true /\ sel i2 = false /\
  (forall y, sel y = true -> (y < n)%nat) /\
  (forall x y, (y < n)%nat -> sel x = true -> adjb G x y = true -> y <> i2 -> sel y = true) /\
  (forall Q : nat -> Prop, Q i3 ->
     (forall x y, (x < n)%nat -> (y < n)%nat -> Q x -> adjb G x y = true -> y <> i2 -> Q y) -> forall y, sel y = true -> Q y).
Proof. exact (far_side_spec G n i2 i3 sel). Qed.
Print Assumptions C11_far_side_of_current_graph.

(* one rotate_dihedral step in ANY state (coordinates X, bonds G) it is applied to: the target is reached (read from
   either end of the chain), the atoms behind a2 -> a3 in G keep their shape, no other atom moves, and every bond of G
   keeps its length *)
Theorem C11_seq_rotate_dihedral_step (X : list vecR) (G : graph) (i1 i2 i3 i4 : nat) (st ct n2 rho : R)
        (X' : list vecR) (G' : graph) :
  sstep ROps (X, G) (SRotDih i1 i2 i3 i4 st ct n2 rho) = Some (X', G') ->
  rd_pre X G i1 i2 i3 i4 st ct n2 rho -> rd_post X G i1 i2 i3 i4 st ct n2 rho X' G'.
Proof. exact (seq_rotate_dihedral_step X G i1 i2 i3 i4 st ct n2 rho X' G'). Qed.
Print Assumptions C11_seq_rotate_dihedral_step.

(* every operation of the session vocabulary (rotate_dihedral, translate / transform of the whole structure or through a
   substructure, connect, del_bond, add_atom, del_atom) has its documented effect on the state it is applied to ... *)
Theorem C11_seq_step_effect (s : sstate R) (op : sop R) (s' : sstate R) :
  sstep ROps s op = Some s' -> sop_pre s op -> sop_post s op s'.
Proof. exact (sstep_effect s op s'). Qed.
Print Assumptions C11_seq_step_effect.

(* ... hence along EVERY sequence of operations each step has that effect on the state the previous steps left *)
Theorem C11_seq_every_step (ops : list (sop R)) (s : sstate R) (tr : list (sstate R)) :
  srun ROps s ops = Some tr -> trace_ok s ops tr.
Proof. exact (srun_trace_ok ops s tr). Qed.
Print Assumptions C11_seq_every_step.

(* The same bond driven as (a1,a2,a3,a4) and then as (a4,a3,a2,a1) on the same structure: the second call works on the
   state the first one left -- it reaches ITS target (read from either end), turns the atoms behind a3 -> a2 and leaves
   the atoms the first call had turned (those behind a2 -> a3, a3 excepted: it lies on the axis) where they are. *)
Theorem C11_seq_both_ends (X : list vecR) (G : graph) (i1 i2 i3 i4 : nat) (st ct n2 rho st' ct' n2' rho' : R)
        (s1 s2 : sstate R) :
  srun ROps (X, G) [SRotDih i1 i2 i3 i4 st ct n2 rho; SRotDih i4 i3 i2 i1 st' ct' n2' rho'] = Some [s1; s2] ->
  rd_pre X G i1 i2 i3 i4 st ct n2 rho ->
  rd_pre (fst s1) (snd s1) i4 i3 i2 i1 st' ct' n2' rho' ->
  rd_post X G i1 i2 i3 i4 st ct n2 rho (fst s1) (snd s1) /\
  rd_post (fst s1) (snd s1) i4 i3 i2 i1 st' ct' n2' rho' (fst s2) (snd s2) /\
  dihedral_args ROps (pt (fst s2) i1) (pt (fst s2) i2) (pt (fst s2) i3) (pt (fst s2) i4) n2' = (rho' * st', rho' * ct').
Proof.
  intros H P1 P2. apply srun_trace_ok in H.
  inversion H as [|? ? ? ? ? E1 Eff1 T1]; subst. inversion T1 as [|? ? ? ? ? E2 Eff2 T2]; subst.
  specialize (Eff1 P1). specialize (Eff2 P2). unfold sop_post in Eff1, Eff2.
  split; [exact Eff1|]. split; [exact Eff2|].
  destruct Eff2 as [sel [_ [_ [_ [Rev _]]]]]. exact Rev.
Qed.
Print Assumptions C11_seq_both_ends.

(* the hypotheses of the theorems above are satisfiable by non-trivial data *)
Example C11_ex_rodrigues :
  unit (1, 0, 0) /\ unit (3/5, 4/5, 0) /\ 1 + dot ROps (1, 0, 0) (3/5, 4/5, 0) <> 0.
Proof. unfold unit. f3. repeat split; try field; lra. Qed.

Example C11_ex_antiparallel :
  unit (1, 0, 0) /\ unit (-1, 0, 0) /\ unit (0, 1, 0) /\ dot ROps (0, 1, 0) (-1, 0, 0) = 0 /\
  dot ROps (1, 0, 0) (-1, 0, 0) <> 0 /\ dot ROps (1, 0, 0) (-1, 0, 0) <= -1 + 1/100000000.
Proof. unfold unit. f3. repeat split; lra. Qed.

Example C11_ex_from_vectors :
  0 <= 1/100000000 < 1 /\ 0 < 2 /\ 2 * 2 = norm2 ROps (2, 0, 0) /\ 0 < 5 /\ 5 * 5 = norm2 ROps (0, 3, 4) /\
  unit (1, 0, 0) /\ dot ROps (1, 0, 0) (0, 3, 4) = 0.
Proof. unfold unit. f3. repeat split; lra. Qed.

Example C11_ex_axis : 0 < 2 /\ 2 * 2 = norm2 ROps (0, 0, 2) /\ (3/5) * (3/5) + (4/5) * (4/5) = 1.
Proof. f3. repeat split; lra. Qed.

(* a four-atom chain with dihedral +90 degrees, atoms 2 and 3 on the moved side, target (sin,cos) = (3/5, 4/5) *)
Example C11_ex_dihedral :
  let X := [(1, 0, 0); (0, 0, 0); (0, 0, 1); (0, 1, 1)] in
  let sel := fun i => Nat.leb 2 i in
  (0 < length X)%nat /\ (1 < length X)%nat /\ (2 < length X)%nat /\ (3 < length X)%nat /\
  sel 0%nat = false /\ sel 1%nat = false /\ sel 2%nat = true /\ sel 3%nat = true /\
  0 < 1 /\ 1 * 1 = norm2 ROps (vsub ROps (pt X 2) (pt X 1)) /\
  dihedral_args ROps (pt X 0) (pt X 1) (pt X 2) (pt X 3) 1 = (1, 0) /\
  1 * 1 = 1 * 1 + 0 * 0 /\ (3/5) * (3/5) + (4/5) * (4/5) = 1.
Proof.
  cbv zeta. unfold pt. simpl nth. simpl length. simpl Nat.leb.
  repeat match goal with |- _ /\ _ => split end; try lia; try reflexivity; try lra.
  - f3. lra.
  - unfold dihedral_args. f3. f_equal; lra.
Qed.

(* the callback contract is satisfiable, and align then succeeds on a concrete input *)
Example C11_ex_align :
  let dev := fun (_ _ : list vecR) => 0 in
  let func := fun (P Q : list vecR) => (eye ROps, dev (transform ROps (eye ROps) P) Q) in
  (forall P Q, proper (fst (func P Q))) /\
  (forall P Q, snd (func P Q) = dev (transform ROps (fst (func P Q)) P) Q) /\
  exists X' r, align ROps func [(1, 2, 3)] [[0%nat]] [(0, 0, 0)] None = Some (X', r).
Proof.
  cbv zeta. split; [intros; apply eye_proper|]. split; [reflexivity|].
  unfold align, align_with, pick_best, fltb. simpl fold_left. cbv [fleb ROps fofZ]. simpl snd. simpl fst.
  assert (E : Rleb 100 0 = false) by (apply Rleb_false; lra). rewrite E. simpl negb. cbv iota.
  eexists. eexists. reflexivity.
Qed.

(* an ensemble with n_conformers = n_atoms = 2: per-conformer stacks of the right length exist, and the ensemble
   alignment succeeds under the same (satisfiable) callback contract *)
Example C11_ex_ens_square :
  let E := [[(0, 0, 0); (1, 0, 0)]; [(2, 0, 0); (2, 3, 0)]] : list (list vecR) in
  let dev := fun (_ _ : list vecR) => 0 in
  let func := fun (P Q : list vecR) => (eye ROps, dev (transform ROps (eye ROps) P) Q) in
  Forall (fun X : list vecR => length X = length E) E /\
  length [(1, 1, 1); (0, 0, 2)] = length E /\
  length [eye ROps; eye ROps] = length E /\ Forall proper [eye ROps; eye ROps] /\
  exists E' rs, ens_align ROps func E [[0%nat; 1%nat]] [(0, 0, 0); (0, 0, 0)] None = Some (E', rs).
Proof.
  cbv zeta. split; [repeat constructor|]. split; [reflexivity|]. split; [reflexivity|].
  split; [repeat constructor; apply eye_proper|].
  unfold ens_align, ens_align_steps, ens_align_inputs, pick_best, fltb. cbn [map fold_left snd fst align_inputs].
  cbv [fleb ROps fofZ].
  assert (E : Rleb 100 0 = false) by (apply Rleb_false; lra). rewrite E. cbn [negb all_some map snd fst].
  eexists. eexists. reflexivity.
Qed.

(* a five-atom structure 0-1-2-3 with a branch 2-4: the preconditions of rotate_dihedral((0,1,2,3)) hold; the atoms turned
   are {2,3,4} from one end and {0,1} from the other; after del_bond(2,4) atom 4 stays behind, after connect(4,0) it
   belongs to the other side *)
Example C11_ex_sequence :
  let X := [(1, 0, 0); (0, 0, 0); (0, 0, 1); (0, 1, 1); (1, 0, 2)] : list vecR in
  let G := [(0, 1); (1, 2); (2, 3); (2, 4)]%nat in
  rd_pre X G 0 1 2 3 (3/5) (4/5) 1 1 /\
  (exists sel, far_side G 5 1 2 = Some sel /\ map sel (seq 0 5) = [false; false; true; true; true]) /\
  (exists sel, far_side G 5 2 1 = Some sel /\ map sel (seq 0 5) = [true; true; false; false; false]) /\
  (exists sel, far_side (graph_del_bond 2 4 G) 5 1 2 = Some sel /\ map sel (seq 0 5) = [false; false; true; true; false]) /\
  (exists sel, far_side ((4, 0)%nat :: graph_del_bond 2 4 G) 5 2 1 = Some sel /\ map sel (seq 0 5) = [true; true; false; false; true]).
Proof.
  cbv zeta. split; [|repeat split; eexists; (split; [reflexivity | reflexivity])].
  unfold rd_pre, pt. simpl nth. simpl length.
  repeat match goal with |- _ /\ _ => split end; try lia; try reflexivity; try lra.
  - intros sel H. vm_compute in H. injection H as <-. reflexivity.
  - f3. lra.
  - unfold dihedral_args. cbn [fst snd]. f3. lra.
Qed.

(* A conformer obtained from the ensemble -- ens[k], the k-th object of `for cf in ens` / list(ens) / zip / sorted -- or a
   substructure of it stands for conformer k for good.  Whatever else was fetched from the ensemble in the meantime, a
   session of edits through such handles leaves conformer c as: the edits made through handles of c, in order -- and
   a conformer none of whose handles was used exactly as it was. *)
Theorem C11_view_edits_per_conformer (edits : list (nat * (list vecR -> list vecR))) (E : list (list vecR)) (c : nat) :
  (c < length E)%nat ->
  length (view_edits edits E) = length E /\
  nth c (view_edits edits E) [] = fold_left (fun X f => f X) (edits_on c edits) (nth c E []).
Proof. exact (view_edits_per_conformer edits E c). Qed.
Print Assumptions C11_view_edits_per_conformer.

Theorem C11_view_edits_untouched (edits : list (nat * (list vecR -> list vecR))) (E : list (list vecR)) (c : nat) :
  (c < length E)%nat -> (forall e, In e edits -> fst e <> c) -> nth c (view_edits edits E) [] = nth c E [].
Proof.
  intros Hc Hno. destruct (view_edits_per_conformer edits E c Hc) as [_ H]. now rewrite H, (edits_on_none edits c Hno).
Qed.
Print Assumptions C11_view_edits_untouched.

(* translate / transform through the handle of conformer k (itself, or substructure(idx) of it): the selected rows of
   conformer k move rigidly, its other rows and every other conformer do not move *)
Theorem C11_view_translate (k : nat) (idx : option (list nat)) (v : vecR) (E : list (list vecR)) :
  (k < length E)%nat ->
  let sel i := match idx with None => true | Some l => in_idx l i end in
  let E' := view_translate ROps k idx v E in
  length E' = length E /\
  (forall c, (c < length E)%nat -> c <> k -> nth c E' [] = nth c E []) /\
  same_shape_on (fun i => sel i = true) (nth k E []) (nth k E' []) /\
  (forall i, sel i = false -> pt (nth k E' []) i = pt (nth k E []) i).
Proof.
  exact (view_edit_effect k idx (translate ROps v) (fun sel => sub_translate ROps sel v) E
           (translate_same_shape v) (fun sel => sub_translate_rigid sel v)).
Qed.
Theorem C11_view_transform (k : nat) (idx : option (list nat)) (M : matR) (E : list (list vecR)) :
  proper M -> (k < length E)%nat ->
  let sel i := match idx with None => true | Some l => in_idx l i end in
  let E' := view_transform ROps k idx M E in
  length E' = length E /\
  (forall c, (c < length E)%nat -> c <> k -> nth c E' [] = nth c E []) /\
  same_shape_on (fun i => sel i = true) (nth k E []) (nth k E' []) /\
  (forall i, sel i = false -> pt (nth k E' []) i = pt (nth k E []) i).
Proof.
  intros HM. exact (view_edit_effect k idx (transform ROps M) (fun sel => sub_transform ROps sel M) E
                      (fun X => transform_same_shape M X HM) (fun sel X => sub_transform_rigid sel M X HM)).
Qed.
Print Assumptions C11_view_transform.

(* R = rotation_matrix_from_vectors(coords[k], w); transform(R):  computing R leaves the table as it was (the callee gets
   the VALUE of the row); afterwards every distance and signed volume is unchanged and atom k points along w *)
Theorem C11_orient_row (tol : R) (X : list vecR) (k : nat) (w ov : vecR) (nk nw : R) :
  0 <= tol < 1 -> (k < length X)%nat ->
  0 < nk -> nk * nk = norm2 ROps (pt X k) -> 0 < nw -> nw * nw = norm2 ROps w ->
  unit ov -> dot ROps ov w = 0 ->
  let r := orient_row ROps tol X k false w nk nw ov in
  fst r = X /\ same_shape X (snd r) /\ vdiv ROps (pt (snd r) k) nk = vdiv ROps w nw.
Proof.
  intros Htol Hk Hnk Ek Hnw Ew Ho Hov r.
  destruct (rot_from_vectors_correct tol (pt X k) w ov nk nw) as [HP HM]; try assumption.
  split; [reflexivity|]. split; [now apply transform_same_shape|].
  unfold r, orient_row. cbn [snd]. rewrite pt_transform, <- vm_vdiv by exact Hk. exact HM.
Qed.
Print Assumptions C11_orient_row.

Theorem C11_orient_row_as_target (tol : R) (X : list vecR) (k : nat) (w ov : vecR) (nk nw : R) :
  0 <= tol < 1 -> (k < length X)%nat ->
  0 < nk -> nk * nk = norm2 ROps (pt X k) -> 0 < nw -> nw * nw = norm2 ROps w ->
  unit ov -> dot ROps ov (pt X k) = 0 ->
  let r := orient_row ROps tol X k true w nk nw ov in
  fst r = X /\ same_shape X (snd r) /\
  vm ROps (vdiv ROps w nw) (row_matrix_vec ROps tol X k true w nk nw ov) = vdiv ROps (pt X k) nk.
Proof.
  intros Htol Hk Hnk Ek Hnw Ew Ho Hov r.
  destruct (rot_from_vectors_correct tol w (pt X k) ov nw nk) as [HP HM]; try assumption.
  split; [reflexivity|]. split; [now apply transform_same_shape | exact HM].
Qed.
Print Assumptions C11_orient_row_as_target.

(* R = rotation_matrix_from_axis(coords[k], t); transform(R): table untouched by computing R, shape kept, atom k fixed *)
Theorem C11_turn_about_row (X : list vecR) (k : nat) (nk s c : R) :
  (k < length X)%nat -> 0 < nk -> nk * nk = norm2 ROps (pt X k) -> s * s + c * c = 1 ->
  let r := turn_about_row ROps X k nk s c in
  fst r = X /\ same_shape X (snd r) /\ pt (snd r) k = pt X k.
Proof.
  intros Hk Hnk Ek Hsc r.
  destruct (rot_from_axis_correct (pt X k) nk s c Hnk Ek Hsc) as [HP [HF _]].
  split; [reflexivity|]. split; [now apply transform_same_shape|].
  unfold r, turn_about_row. cbn [snd]. rewrite pt_transform by exact Hk. exact HF.
Qed.
Print Assumptions C11_turn_about_row.

(* translate(coords[k]): every selected row moves by the value row k had before the call *)
Theorem C11_shift_by_row (idx : option (list nat)) (X : list vecR) (k : nat) :
  let sel i := match idx with None => true | Some l => in_idx l i end in
  let X' := shift_by_row ROps idx X k in
  length X' = length X /\
  forall i, (i < length X)%nat -> pt X' i = if sel i then vadd ROps (pt X i) (pt X k) else pt X i.
Proof.
  intros sel X'. unfold X', shift_by_row. fold (pt X k). destruct idx as [l|]; cbn [sel].
  - apply (update_rows_frame (in_idx l) (fun x => vadd ROps x (pt X k)) X).
  - split; [apply map_length | intros i Hi; now apply pt_translate].
Qed.
Print Assumptions C11_shift_by_row.

(* hypotheses satisfiable: two conformers, handles used in the order 1, 0, 1; atom 1 of a 2-atom table put along z *)
Example C11_ex_views :
  let E := [[(0, 0, 0); (1, 0, 0)]; [(0, 0, 0); (0, 1, 0)]] : list (list vecR) in
  let edits := [(1%nat, translate ROps (1, 1, 1)); (0%nat, translate ROps (2, 0, 0)); (1%nat, translate ROps (0, 0, 1))] in
  (0 < length E)%nat /\ (1 < length E)%nat /\ (length (edits_on 1 edits) = 2)%nat /\ (length (edits_on 0 edits) = 1)%nat.
Proof. cbv zeta. cbn. repeat split; lia. Qed.
Example C11_ex_orient_row :
  let X := [(0, 0, 0); (3, 0, 4)] : list vecR in
  0 <= 0 < 1 /\ (1 < length X)%nat /\ 0 < 5 /\ 5 * 5 = norm2 ROps (pt X 1) /\ 0 < 2 /\ 2 * 2 = norm2 ROps (0, 0, 2) /\
  unit (1, 0, 0) /\ dot ROps (1, 0, 0) (0, 0, 2) = 0.
Proof. cbv zeta. unfold unit, pt. cbn [nth length]. f3. repeat split; try lra; try lia. Qed.
