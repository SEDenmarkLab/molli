(* C19 -- Distance kernels and grid descriptors equal their mathematical definition.
   Property theorems only; the lemmas their proofs rest on are in Proofs/Dist.v and Proofs/Grid.v.

   Kernels: over R, about the field-parametric model Model/Dist.v that the correspondence shards execute over Q against
   (a) molli_xt/distance.cpp rebuilt from source on every run and (b) the shipped extension.
   Grid descriptors: over Q (every float is a rational), about Model/Grid.v, executed by the shards as well.

   What is NOT proved (label: partial):
   - IEEE rounding in the C++ kernel, numpy and scipy: compared within a stated tolerance; as the property says, grid points
     within a rounding band of a sphere surface (and of the cut-off) are left out of the comparison;
   - scipy.spatial.KDTree is external.  nearest_atom_index / aeif: the theorems are about the model's arg-min, and the
     indices the real KD-tree returns are CHECKED against the specification inside Coq (nearest_okb, C19_nearest_accept);
     prune: soundness and the (1+eps) band are proved under the query contract stated as Section hypotheses
     (C19_prune_partial), and the kept indices observed are checked against that band inside Coq (C19_prune_accept);
   - sqrt: `euclidean` is sqrt(euclidean2) over R; an observed root is accepted through its specification (C19_sqrt_close).

   Outside the model (known findings, recorded in known_findings: the shipped extension cannot be rebuilt here):
   - memory layout / overload dispatch of the Python binding: a float64 argument that is not C-contiguous is computed by the
     float32 kernel (the theorems are about the kernels as functions of the array CONTENTS; the shards steer around that region);
   - arrays whose last axis is not 3: a point is a `vec` (exactly three coordinates) by typing, as the template argument ND = 3.
   Large grids and argument objects: the models are functions of the argument VALUES, defined point by point.  The harness
   therefore (a) calls every function with the same argument objects repeatedly / as views / with one object as both corners
   and compares every call with the model at the values the caller passed (arguments must come back unchanged), and (b) for
   grids too large for a literal compares a sample of positions inside Coq (CGridAt, sub-sampled CAso/CAif/CNearest/CPrune)
   while the numpy oracle judges every point: C19_blocks_cover / C19_blockwise (any block-wise walk with step > 0 equals the
   one-piece result; the partial last block counts), C19_sample, C19_grid_at, C19_grid_point_box.
   Boundary conventions: the model's nearest/prune use `<=` at the cut-off as the code's np.where does; scipy's
   distance_upper_bound is exclusive, so AT the cut-off the real code answers -1 / drops the point.  The acceptance tests
   (nearest_okb, prune_okb) accept both answers there, which is also what the property's rounding-band clause allows. *)
From Coq Require Import Reals List ZArith QArith Qround Lia.
From Molli Require Import Common.Field3 Common.Field3R Model.Dist Proofs.Dist Model.Grid Proofs.Grid.
Import ListNotations.
From Coq Require Import Lqa.

(* ---- kernels (molli_xt/distance.cpp), over R ------------------------------------------------------------- *)
Local Open Scope R_scope.

(* the accumulation loop of euclidean2, for ANY number of dimensions: sum_k (a_k - b_k)^2 *)
Theorem C19_euclidean2_any_dim (a b : list R) : length a = length b ->
  euclidean2_nd ROps a b = sumf (fun k => (nth k a 0 - nth k b 0) * (nth k a 0 - nth k b 0)) (length a).
Proof. intros Hl. unfold euclidean2_nd. rewrite fold_sq_acc by exact Hl. apply Rplus_0_l. Qed.
Print Assumptions C19_euclidean2_any_dim.

(* cdist22 (…_eu2 and …_eu): shape (L1, L2) and entry (i,j) = sum_k (a_ik - b_jk)^2, resp. its square root,
   for ALL lengths including 0 *)
Theorem C19_kernel22 (A B : list vecR) :
  let r2 := cdist22 (euclidean2 ROps) A B in
  let r := cdist22 euclideanR A B in
  shape r2 = [length A; length B] /\ length (data r2) = (length A * length B)%nat /\
  shape r = [length A; length B] /\ length (data r) = (length A * length B)%nat /\
  forall i j, (i < length A)%nat -> (j < length B)%nat ->
    nth (i * length B + j) (data r2) 0 = sq3 (nth i A (vzero ROps)) (nth j B (vzero ROps)) /\
    nth (i * length B + j) (data r) 0 = sqrt (sq3 (nth i A (vzero ROps)) (nth j B (vzero ROps))).
Proof.
  destruct (cdist22_shape (euclidean2 ROps) A B) as [S2 L2], (cdist22_shape euclideanR A B) as [S L].
  exact (conj S2 (conj L2 (conj S (conj L (fun i j Hi Hj =>
    let v := vzero ROps in conj (eq_trans (cdist22_entry _ A B v v 0 i j Hi Hj) (euclidean2_sq3 _ _))
                                (eq_trans (cdist22_entry _ A B v v 0 i j Hi Hj) (euclideanR_sq3 _ _))))))).
Qed.
Print Assumptions C19_kernel22.

(* cdist32: shape (X, L1, L2), entry (x,i,j) *)
Theorem C19_kernel32 (L1 : nat) (E : list (list vecR)) (B : list vecR) :
  Forall (fun A => length A = L1) E ->
  let r2 := cdist32 (euclidean2 ROps) L1 E B in
  let r := cdist32 euclideanR L1 E B in
  shape r2 = [length E; L1; length B] /\ length (data r2) = (length E * (L1 * length B))%nat /\
  shape r = [length E; L1; length B] /\ length (data r) = (length E * (L1 * length B))%nat /\
  forall x i j, (x < length E)%nat -> (i < L1)%nat -> (j < length B)%nat ->
    nth ((x * L1 + i) * length B + j) (data r2) 0 = sq3 (nth i (nth x E []) (vzero ROps)) (nth j B (vzero ROps)) /\
    nth ((x * L1 + i) * length B + j) (data r) 0 = sqrt (sq3 (nth i (nth x E []) (vzero ROps)) (nth j B (vzero ROps))).
Proof.
  intros HE. destruct (cdist32_shape (euclidean2 ROps) L1 E B HE) as [S2 L2], (cdist32_shape euclideanR L1 E B HE) as [S L].
  exact (conj S2 (conj L2 (conj S (conj L (fun x i j Hx Hi Hj =>
    let v := vzero ROps in conj (eq_trans (cdist32_entry _ L1 E B v v 0 x i j HE Hx Hi Hj) (euclidean2_sq3 _ _))
                                (eq_trans (cdist32_entry _ L1 E B v v 0 x i j HE Hx Hi Hj) (euclideanR_sq3 _ _))))))).
Qed.
Print Assumptions C19_kernel32.

(* the structural part holds for any field and any point function (it is what the Q instance executes) *)
Theorem C19_kernel_structure {F} (f : vec F -> vec F -> F) (L1 : nat) (E : list (list (vec F))) (B : list (vec F))
        (da db : vec F) (d : F) (x i j : nat) :
  Forall (fun A => length A = L1) E -> (x < length E)%nat -> (i < L1)%nat -> (j < length B)%nat ->
  nth ((x * L1 + i) * length B + j) (data (cdist32 f L1 E B)) d = f (nth i (nth x E []) da) (nth j B db).
Proof. exact (cdist32_entry f L1 E B da db d x i j). Qed.

(* metric facts about the point function *)
Theorem C19_euclidean2_metric (a b : vecR) :
  0 <= euclidean2 ROps a b /\ euclidean2 ROps a b = euclidean2 ROps b a /\ (euclidean2 ROps a b = 0 <-> a = b) /\
  euclidean2 ROps a b = dist2 ROps a b.
Proof.
  exact (conj (euclidean2_nonneg a b) (conj (euclidean2_sym a b) (conj (euclidean2_zero_iff a b) (euclidean2_dist2 a b)))).
Qed.

(* meaning of the root test used when an observed `euclidean` value is compared with the model *)
Theorem C19_sqrt_close (tol d s : R) : 0 <= s -> sqrt_close ROps tol d s = true -> Rabs (d - sqrt s) <= tol * sqrt s.
Proof. exact (sqrt_close_sound tol d s). Qed.
Theorem C19_sqrt_exact (d s : R) : 0 <= s -> sqrt_close ROps 0 d s = true -> d = sqrt s.
Proof. exact (sqrt_close_exact d s). Qed.
Print Assumptions C19_sqrt_close.

(* a passing correspondence case: observed shape = model shape, every entry within the stated tolerance *)
Theorem C19_check_sound (c : case) : check c = true ->
  c_oshape c = shape (model_sq c) /\ length (c_odata c) = length (data (model_sq c)) /\
  forall k, (k < length (data (model_sq c)))%nat ->
    let s := nth k (data (model_sq c)) 0%Q in let d := nth k (c_odata c) 0%Q in
    if c_sq c then rel_close QOps (c_tol c) d s = true else sqrt_close QOps (c_tol c) d s = true.
Proof.
  unfold check. intros H. apply andb_prop in H as [H1 H2].
  apply (all2_spec _ O O) in H1 as [E1 H1]. apply (all2_spec _ 0%Q 0%Q) in H2 as [E2 H2].
  split; [symmetry; apply (nth_ext _ _ O O E1); intros k Hk; apply Nat.eqb_eq, H1, Hk|].
  split; [symmetry; exact E2|]. intros k Hk. specialize (H2 k Hk). cbv beta zeta in *. now destruct (c_sq c).
Qed.
Print Assumptions C19_check_sound.

(* hypotheses are satisfiable / the model computes: (1,2,3)-(1,1,1) -> 5, (0,0,0)-(1,1,1) -> 3; shape (0,2) *)
Example C19_kernel_example :
  data (cdist22 (euclidean2 QOps) [(1, 2, 3); (0, 0, 0)]%Q [(1, 1, 1)]%Q) = [5; 3]%Q /\
  shape (cdist22 (euclidean2 QOps) [] [(1, 1, 1); (0, 0, 0)]%Q) = [0; 2]%nat /\
  shape (cdist32 (euclidean2 QOps) 4 [] [(1, 1, 1)]%Q) = [0; 4; 1]%nat.
Proof. vm_compute. repeat split; reflexivity. Qed.

(* ---- grid descriptors (molli/descriptor/gridbased.py), over Q ------------------------------------------- *)
Local Close Scope R_scope.
Local Open Scope Q_scope.

(* rectangular_grid: for a positive spacing and a non-empty padded box the call succeeds; the number of points is
   nx*ny*nz; as a set the grid is the Cartesian product of the three axes; no point occurs twice; and the raveling
   order is y slowest, z fastest (np.meshgrid default indexing + ravel) *)
Theorem C19_grid_lattice (r1 r2 : qv) (pad s : Q) : 0 < s -> box_ok r1 r2 pad ->
  exists g, rectangular_grid r1 r2 pad s = Some g /\
  let '(xs, ys, zs) := grid_axes r1 r2 pad s in
  length g = (length xs * length ys * length zs)%nat /\
  (forall x y z, In (x, y, z) g <-> In x xs /\ In y ys /\ In z zs) /\
  NoDup g /\
  (forall i j k, (i < length xs)%nat -> (j < length ys)%nat -> (k < length zs)%nat ->
     nth ((j * length xs + i) * length zs + k) g qvz = (nth i xs 0, nth j ys 0, nth k zs 0)).
Proof.
  intros Hs Hb. eexists. split; [exact (rectangular_grid_some r1 r2 pad s Hs Hb)|].
  destruct r1 as [[a1 a2] a3], r2 as [[b1 b2] b3], Hb as [H1 [H2 H3]].
  exact (conj (mesh_length _ _ _) (conj (in_mesh _ _ _) (conj
    (mesh_NoDup _ _ _ (axis_NoDup _ _ s Hs H1) (axis_NoDup _ _ s Hs H2) (axis_NoDup _ _ s Hs H3)) (mesh_nth _ _ _)))).
Qed.
Print Assumptions C19_grid_lattice.

(* one axis [l, r] = [r1 - padding, r2 + padding]: n = floor((r-l)/spacing) + 1 points ... *)
Theorem C19_grid_count (l r s : Q) : 0 < s -> l <= r ->
  length (axis_pts l r s) = Z.to_nat (Qfloor ((r - l) / s) + 1) /\ (1 <= Qfloor ((r - l) / s) + 1)%Z.
Proof. intros Hs Hlr. exact (conj (axis_length l r s Hs Hlr) (axis_n_pos l r s Hs Hlr)). Qed.

(* ... point i is l + o + i*spacing, so consecutive points differ by exactly the spacing ... *)
Theorem C19_grid_spacing (l r s d : Q) (i : nat) : 0 < s -> l <= r -> (S i < length (axis_pts l r s))%nat ->
  nth (S i) (axis_pts l r s) d - nth i (axis_pts l r s) d == s.
Proof.
  intros Hs Hlr Hi. rewrite axis_length in Hi by assumption.
  rewrite (axis_nth l r s Hs Hlr d (S i) Hi), (axis_nth l r s Hs Hlr d i) by apply Nat.lt_succ_l, Hi.
  rewrite Nat2Z.inj_succ. unfold Z.succ. rewrite inject_Z_plus. ring.
Qed.

(* ... the lattice is centred: the gap below the first point equals the gap above the last, 0 <= gap < spacing/2 ... *)
Theorem C19_grid_centred (l r s d : Q) : 0 < s -> l <= r ->
  let n := length (axis_pts l r s) in let o := axis_off l r s in
  nth 0 (axis_pts l r s) d - l == o /\ r - nth (n - 1) (axis_pts l r s) d == o /\ 0 <= o /\ o < s / 2.
Proof.
  intros Hs Hlr. cbv zeta. rewrite axis_length by assumption.
  pose proof (axis_n_pos l r s Hs Hlr) as Hn. destruct (axis_off_bounds l r s Hs) as [Ho1 [Ho2 Hspan]].
  rewrite !(axis_nth l r s Hs Hlr) by lia.
  replace (Z.of_nat (Z.to_nat (axis_n l r s) - 1)) with (axis_n l r s - 1)%Z by lia.
  repeat split; try assumption; [simpl; ring | lra].
Qed.

(* ... strictly increasing (no duplicates), and every point lies in [l, r] *)
Theorem C19_grid_axis_increasing (l r s d : Q) (i j : nat) : 0 < s -> l <= r -> (i < j)%nat -> (j < length (axis_pts l r s))%nat ->
  nth i (axis_pts l r s) d < nth j (axis_pts l r s) d.
Proof. intros Hs Hlr Hij Hj. rewrite axis_length in Hj by assumption. exact (axis_increasing l r s Hs Hlr d i j Hij Hj). Qed.

Theorem C19_grid_contained (r1 r2 : qv) (pad s : Q) (g : list qv) (p : qv) : 0 < s -> box_ok r1 r2 pad ->
  rectangular_grid r1 r2 pad s = Some g -> In p g ->
  let '(a1, a2, a3) := r1 in let '(b1, b2, b3) := r2 in let '(x, y, z) := p in
  (a1 - pad <= x /\ x <= b1 + pad) /\ (a2 - pad <= y /\ y <= b2 + pad) /\ (a3 - pad <= z /\ z <= b3 + pad).
Proof.
  intros Hs Hbox Hg Hp. rewrite rectangular_grid_some in Hg by assumption. injection Hg as <-.
  destruct r1 as [[a1 a2] a3], r2 as [[b1 b2] b3], p as [[x y] z], Hbox as [H1 [H2 H3]].
  apply in_mesh in Hp as [Hx [Hy Hz]]. split; [|split]; eapply axis_contained; eassumption.
Qed.
Print Assumptions C19_grid_contained.

(* the floor lemma everything rests on *)
Theorem C19_floor_bounds (d s : Q) : 0 < s ->
  inject_Z (Qfloor (d / s)) * s <= d /\ d < (inject_Z (Qfloor (d / s)) + 1) * s.
Proof. exact (floor_bounds d s). Qed.

(* nearest_atom_index: the result is -1 exactly when every atom is farther than the cut-off; otherwise it is the index
   of an atom within the cut-off whose distance is minimal.  (Squared distances: C19_cutoff_squares.) *)
Theorem C19_nearest (atoms : list qv) (cut : Q) (g : qv) :
  nearest_spec atoms cut g (nearest atoms cut g) /\
  ((0 <= nearest atoms cut g)%Z <-> exists a, In a atoms /\ d2 a g <= cut * cut).
Proof.
  split; [apply nearest_correct|].
  destruct (nearest_correct atoms cut g) as [[-> H]|[i [-> [Hi [Hc _]]]]]; split; try lia.
  - intros [a [Ha%H Hd]]. lra.
  - intros _. exists (nth i atoms qvz). split; [apply nth_In, Hi | exact Hc].
Qed.
Print Assumptions C19_nearest.

(* the acceptance test applied to the indices the real KD-tree returned: its meaning, and that it accepts the model *)
Theorem C19_nearest_accept (band : Q) (atoms : list qv) (cut : Q) (g : qv) (r : Z) :
  (nearest_okb band atoms cut g r = true ->
   (r = (-1)%Z /\ forall a, In a atoms -> cut * cut * (1 - band) <= d2 a g) \/
   (exists i, r = Z.of_nat i /\ (i < length atoms)%nat /\ d2 (nth i atoms qvz) g <= cut * cut * (1 + band) /\
              forall a, In a atoms -> d2 (nth i atoms qvz) g <= d2 a g * (1 + band))) /\
  (0 <= band -> band <= 1 -> nearest_okb band atoms cut g (nearest atoms cut g) = true).
Proof.
  split.
  - unfold nearest_okb. destruct (Z.eqb_spec r (-1)) as [->|Hr]; intros H.
    + left. split; [reflexivity | exact (proj1 (forallb_Qle _ _ _) H)].
    + right. apply andb_prop in H as [H0 H]. apply andb_prop in H as [H2 H3]. apply andb_prop in H0 as [H0 H1].
      apply Z.leb_le in H0. apply Z.ltb_lt in H1. exists (Z.to_nat r). rewrite Z2Nat.id by exact H0.
      split; [reflexivity|]. split; [apply Nat2Z.inj_lt; now rewrite Z2Nat.id|].
      split; [apply Qle_bool_iff, H2 | exact (proj1 (forallb_Qle _ _ _) H3)].
  - (* the model's answer satisfies nearest_spec; widening by the band only needs cut^2 * band >= 0 and d2 * band >= 0 *)
    intros Hb0 Hb1. pose proof (Qmult_le_0_compat _ _ (Qsq_nonneg cut) Hb0) as Hc. unfold nearest_okb.
    destruct (nearest_correct atoms cut g) as [[-> H]|[i [-> [Hi [Hcut Hmin]]]]].
    + apply forallb_Qle. intros a Ha%H. lra.
    + replace (Z.of_nat i =? -1)%Z with false by lia. rewrite Nat2Z.id.
      apply andb_true_intro; split; [lia|]. apply andb_true_intro; split; [apply Qle_bool_iff; lra|].
      apply forallb_Qle. intros a Ha%Hmin. pose proof (Qmult_le_0_compat _ _ (d2_nonneg a g) Hb0). lra.
Qed.

(* d2 is the squared Euclidean distance; comparing a distance with a non-negative cut-off = comparing squares *)
Theorem C19_d2 (a g : qv) :
  d2 a g == (let '(a1, a2, a3) := a in let '(g1, g2, g3) := g in
             (a1 - g1) * (a1 - g1) + (a2 - g2) * (a2 - g2) + (a3 - g3) * (a3 - g3)) /\ 0 <= d2 a g.
Proof. exact (conj (d2_plain a g) (d2_nonneg a g)). Qed.
Theorem C19_cutoff_squares (x c : R) : (0 <= x)%R -> (0 <= c)%R -> (sqrt x <= c <-> x <= c * c)%R.
Proof. exact (sqrt_le_cut x c). Qed.

(* prune (PARTIAL: the KD-tree query is external; its contract is the two hypotheses):
   no kept point is farther than the cut-off, no dropped point is closer than cut-off/(1+eps), indices ascend *)
Theorem C19_prune_partial (atoms : list qv) (cut eps : Q) (q : qv -> bool) :
  (forall g, q g = true -> exists a, In a atoms /\ d2 a g <= cut * cut) ->
  (forall g, q g = false -> forall a, In a atoms -> cut * cut < d2 a g * ((1 + eps) * (1 + eps))) ->
  forall grid,
  (forall i, In i (prune_with q grid) ->
     exists j a, i = Z.of_nat j /\ (j < length grid)%nat /\ In a atoms /\ d2 a (nth j grid qvz) <= cut * cut) /\
  (forall j, (j < length grid)%nat -> ~ In (Z.of_nat j) (prune_with q grid) ->
     forall a, In a atoms -> cut * cut < d2 a (nth j grid qvz) * ((1 + eps) * (1 + eps))) /\
  increasing_from 0 (prune_with q grid) = true.
Proof.
  intros Hs Hc grid. split; [|split].
  - intros i [j [E [Hj Hq]]]%(filter_idx_from_spec q qvz). destruct (Hs _ Hq) as [a Ha]. exists j, a. auto.
  - intros j Hj Hn. apply Hc, not_true_is_false. intros E. apply Hn, (filter_idx_from_spec q qvz). exists j. auto.
  - apply filter_idx_from_increasing, Z.le_refl.
Qed.
Print Assumptions C19_prune_partial.

(* the contract is satisfiable: the exact query keeps exactly the points within the cut-off *)
Theorem C19_prune_exact (atoms : list qv) (cut : Q) (grid : list qv) (j : nat) : (j < length grid)%nat ->
  (In (Z.of_nat j) (prune_exact atoms cut grid) <-> exists a, In a atoms /\ d2 a (nth j grid qvz) <= cut * cut).
Proof.
  intros Hj. unfold prune_exact, prune_with. rewrite (filter_idx_from_spec _ qvz), <- within_iff. split.
  - intros [j' [E [_ H]]]. now replace j with j' by lia.
  - intros H. exists j. auto.
Qed.

(* meaning of the acceptance test applied to the index list the real prune returned *)
Theorem C19_prune_accept (band : Q) (atoms : list qv) (cut eps : Q) (grid : list qv) (kept : list Z) :
  prune_okb band atoms cut eps grid kept = true ->
  increasing_from 0 kept = true /\ (forall i, In i kept -> (i < Z.of_nat (length grid))%Z) /\
  forall j, (j < length grid)%nat ->
    (In (Z.of_nat j) kept -> exists a, In a atoms /\ d2 a (nth j grid qvz) <= cut * cut * (1 + band)) /\
    (~ In (Z.of_nat j) kept -> forall a, In a atoms -> cut * cut * (1 - band) <= d2 a (nth j grid qvz) * ((1 + eps) * (1 + eps))).
Proof.
  intros H. apply andb_prop in H as [H H3]. apply andb_prop in H as [H1 H2].
  split; [exact H1|]. split; [intros i Hi; apply Z.ltb_lt, (proj1 (forallb_forall _ _) H2 i Hi)|].
  intros j Hj. pose proof (proj1 (forallb_forall _ _) H3 _ (combine_seq_nth qvz grid 0 j Hj)) as H. simpl in H.
  destruct (memZ (Z.of_nat j) kept) eqn:E.
  - apply memZ_iff in E. apply within_iff in H. split; [intros _; exact H | intros []; exact E].
  - split; [intros Hin%memZ_iff; congruence | intros _; exact (proj1 (forallb_Qle _ _ _) H)].
Qed.

(* aso: one value per grid point = the (weighted) conformer average of the occupancy indicator of the union of the
   van der Waals spheres; unweighted it is the fraction of conformers whose union contains the point *)
Theorem C19_aso (ens : list (list qv)) (radii : list Q) (w : option (list Q)) (grid : list qv) :
  length (aso ens radii w grid) = length grid /\
  (forall k, (k < length grid)%nat ->
     nth k (aso ens radii w grid) 0 = average w (map (fun atoms => b2q (inside atoms radii (nth k grid qvz))) ens)) /\
  (forall atoms g, inside atoms radii g = true <-> exists a r, In (a, r) (combine atoms radii) /\ d2 a g <= r * r) /\
  (forall xs, average w xs == match w with
                              | None => fold_right Qplus 0 xs / inject_Z (Z.of_nat (length xs))
                              | Some ws => dotw ws xs / fold_right Qplus 0 ws
                              end).
Proof.
  exact (conj (aso_length ens radii w grid) (conj (aso_nth ens radii w grid)
        (conj (fun atoms g => inside_iff atoms radii g) (average_spec w)))).
Qed.
Print Assumptions C19_aso.

Theorem C19_aso_fraction (ens : list (list qv)) (radii : list Q) (grid : list qv) (k : nat) : (k < length grid)%nat ->
  nth k (aso ens radii None grid) 0 ==
  inject_Z (Z.of_nat (length (filter (fun atoms => inside atoms radii (nth k grid qvz)) ens))) / inject_Z (Z.of_nat (length ens)).
Proof. intros Hk. now rewrite aso_nth, average_spec, map_length, sum_b2q by exact Hk. Qed.

(* aeif / atomic_indicator_field: one value per grid point = the (weighted) conformer average of the per-conformer
   field; conformer c contributes, with ITS coordinates, values and nearest-atom row, the value (partial charge) of
   a closest atom when the point is inside its van der Waals union and 0 otherwise -- the `nearest >= 0` conjunct of
   the code is implied as soon as the cut-off is at least every radius (the code passes max(radii)) *)
Theorem C19_aeif (ens : list (list qv)) (radii : list Q) (values : list (list Q)) (idx : list (list Z)) (w : option (list Q))
        (grid : list qv) :
  length (aif ens radii values idx w grid) = length grid /\
  (forall k, (k < length grid)%nat ->
     nth k (aif ens radii values idx w grid) 0 = average w (field_rows ens radii values idx k (nth k grid qvz))) /\
  (forall k g c, (c < length ens)%nat -> (c < length values)%nat -> (c < length idx)%nat ->
     nth c (field_rows ens radii values idx k g) 0 =
     field_value (nth c ens []) radii (nth c values []) (nth k (nth c idx []) (-1)%Z) g).
Proof.
  split; [apply aif_from_length|]. split; [intros k Hk; now apply aif_from_nth|].
  intros k g c. apply field_rows_nth.
Qed.
Print Assumptions C19_aeif.

Theorem C19_aeif_value (atoms : list qv) (radii values : list Q) (cut : Q) (g : qv) :
  (forall a rad, In (a, rad) (combine atoms radii) -> 0 <= rad /\ rad <= cut) ->
  let r := nearest atoms cut g in
  field_value atoms radii values r g = (if inside atoms radii g then nth (Z.to_nat r) values 0 else 0) /\
  (inside atoms radii g = true -> (0 <= r)%Z) /\ nearest_spec atoms cut g r.
Proof.
  intros Hrad r.
  destruct (field_value_spec atoms radii values cut g r Hrad (nearest_correct atoms cut g)) as [H1 H2].
  exact (conj H1 (conj H2 (nearest_correct atoms cut g))).
Qed.
Print Assumptions C19_aeif_value.

(* ---- large grids.  Every descriptor is defined point by point, hence independent of how a large grid is walked:
   cut into consecutive blocks of ANY length step > 0 the blocks cover the grid -- ceil(n/step) of them, the last one
   holding the n mod step remaining points -- and the concatenated block results ARE the one-piece result (prune with the
   block's index offset, the indicator field with the column offset into the nearest-atom rows). *)
Theorem C19_blocks_cover (step : nat) (grid : list qv) : (0 < step)%nat ->
  concat (chunks step grid) = grid /\
  length (chunks step grid) = ((length grid + (step - 1)) / step)%nat /\
  Forall (fun b => b <> [] /\ (length b <= step)%nat) (chunks step grid).
Proof.
  intros Hs. exact (chunks_fuel_spec step Hs _ grid (Nat.le_refl _)).
Qed.
Print Assumptions C19_blocks_cover.

Theorem C19_blockwise (step : nat) (grid : list qv) : (0 < step)%nat ->
  (forall ens radii w, aso_blocks ens radii w (chunks step grid) = aso ens radii w grid) /\
  (forall atoms cut, nearest_blocks atoms cut (chunks step grid) = map (nearest atoms cut) grid) /\
  (forall q, prune_blocks q 0 (chunks step grid) = prune_with q grid) /\
  (forall ens radii values idx w, aif_blocks ens radii values idx w 0 (chunks step grid) = aif ens radii values idx w grid).
Proof.
  intros Hs. generalize (chunks_concat step grid Hs). generalize (chunks step grid). intros blocks <-.
  exact (conj (fun ens radii w => aso_blocks_concat ens radii w blocks) (conj (fun atoms cut => nearest_blocks_concat atoms cut blocks)
        (conj (fun q => prune_blocks_concat q blocks 0) (fun ens radii values idx w => aif_blocks_concat ens radii values idx w blocks 0)))).
Qed.
Print Assumptions C19_blockwise.

(* taking only floor(n/step) blocks loses the partial last block: 7 points in blocks of 3 -> 2 blocks cover 6 points, and
   the occupancy of the 7th point (inside the sphere) is never evaluated *)
Example C19_floor_block_count_refuted :
  let grid := [(0, 0, 9); (0, 0, 8); (0, 0, 7); (0, 0, 6); (0, 0, 5); (0, 0, 4); (0, 0, 0)] in
  let ens := [[(0, 0, 0)]] in
  length (chunks 3 grid) = 3%nat /\ (length grid / 3)%nat = 2%nat /\
  length (aso_blocks ens [1] None (firstn (length grid / 3) (chunks 3 grid))) = 6%nat /\
  map Qred (aso_blocks ens [1] None (chunks 3 grid)) = [0; 0; 0; 0; 0; 0; 1] /\
  map Qred (aso ens [1] None grid) = [0; 0; 0; 0; 0; 0; 1].
Proof. vm_compute. repeat split; reflexivity. Qed.

(* a sampled comparison of a large grid: the values at a selection of grid points = the descriptor of the selected points *)
Theorem C19_sample (grid : list qv) (ks : list nat) : Forall (fun k => (k < length grid)%nat) ks ->
  (forall ens radii w, map (fun k => nth k (aso ens radii w grid) 0) ks = aso ens radii w (map (fun k => nth k grid qvz) ks)) /\
  (forall atoms cut, map (fun k => nth k (map (nearest atoms cut) grid) (-1)%Z) ks =
                     map (nearest atoms cut) (map (fun k => nth k grid qvz) ks)).
Proof. intros H. exact (conj (fun ens radii w => FlatNth.map_sample _ grid 0 qvz ks H) (fun atoms cut => FlatNth.map_sample _ grid (-1)%Z qvz ks H)). Qed.

(* point number n of rectangular_grid, computed from the three axes alone (what CGridAt evaluates for a grid too large
   for a literal), and the number of points *)
Theorem C19_grid_at (r1 r2 : qv) (pad s : Q) (g : list qv) (n : nat) :
  rectangular_grid r1 r2 pad s = Some g -> (n < length g)%nat ->
  grid_at r1 r2 pad s (Z.of_nat n) = Some (nth n g qvz) /\ grid_count r1 r2 pad s = Some (Z.of_nat (length g)).
Proof.
  destruct r1 as [[a1 a2] a3], r2 as [[b1 b2] b3]. unfold rectangular_grid, grid_at, grid_count, grid_dims.
  destruct (axis (a1 - pad) (b1 + pad) s) as [xs|], (axis (a2 - pad) (b2 + pad) s) as [ys|],
    (axis (a3 - pad) (b3 + pad) s) as [zs|]; try discriminate.
  intros [= <-] Hn. split; [apply mesh_at_correct, Hn|]. rewrite mesh_length. f_equal. lia.
Qed.
Print Assumptions C19_grid_at.

(* a box grown around ONE point (both corners the same point c): floor(2*padding/spacing) + 1 samples per axis, whatever c *)
Theorem C19_grid_point_box (c p s : Q) : axis_n (c - p) (c + p) s = (Qfloor (2 * p / s) + 1)%Z.
Proof. unfold axis_n. f_equal. apply Qfloor_comp. unfold Qdiv. ring. Qed.

(* the hypotheses are satisfiable and the models compute: box [-1,1]x[0,1]x[0,0], padding 1/4, spacing 1/2 *)
Example C19_grid_example :
  box_ok (-1, 0, 0) (1, 1, 0) (1#4) /\
  option_map (@length qv) (rectangular_grid (-1, 0, 0) (1, 1, 0) (1#4) (1#2)) = Some 48%nat /\
  map Qred (axis_pts (-(5#4)) (5#4) (1#2)) = [-(5#4); -(3#4); -(1#4); 1#4; 3#4; 5#4] /\
  nearest [(0, 0, 0); (4, 0, 0)] 2 (3, 0, 0) = 1%Z /\ nearest [(0, 0, 0); (4, 0, 0)] (1#2) (2, 0, 0) = (-1)%Z /\
  prune_exact [(0, 0, 0)] 1 [(2, 0, 0); (1, 0, 0); (0, 3, 0); (0, 0, 1#2)] = [1; 3]%Z /\
  map Qred (aso [[(0, 0, 0)]; [(3, 0, 0)]] [1] None [(0, 0, 1#2); (5, 5, 5)]) = [1#2; 0].
Proof. split; [cbv [box_ok]; repeat split; unfold Qle; simpl; lia | vm_compute; repeat split; reflexivity]. Qed.
