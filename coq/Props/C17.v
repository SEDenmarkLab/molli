(* C17 -- "A job runs exactly what was asked and reports exactly what happened": property theorems only.
   Model: Model/Job.v (binding of the shared Job descriptor; run_local over an arbitrary command oracle `exec`).
   Tie: harness/c17.py replays real driver histories and real run_local executions in the model (check_bcase,
   check_rcase evaluated by the kernel). *)
From Coq Require Import List Bool NArith ZArith String.
Import ListNotations.
From Molli Require Import Model.Job Proofs.Job Model.JobCtor Proofs.JobCtor.
Local Open Scope string_scope.

(* After ANY history of creating, reassigning and using drivers (instances of any subclasses sharing the one Job
   object), using driver i yields the Job's declared settings resolved against i's own class and instance
   attributes ... *)
Theorem C17_binding_value : forall decl evs i c s,
  nget i (bs_drivers (fst (brun MCopy (binit decl) evs))) = Some (c, s) ->
  use_after decl evs i = Some (bind decl c s).
Proof. exact binding_value. Qed.
Print Assumptions C17_binding_value.

(* ... i.e. exactly what it yields when every event about the other drivers is erased from the history. *)
Theorem C17_binding_independent : forall decl evs i,
  use_after decl evs i = use_after decl (filter (concerns i) evs) i.
Proof. intros decl evs i. unfold use_after. apply (bstep_same_driver i); [apply N.eqb_refl|]. apply brun_filter. now split. Qed.
Print Assumptions C17_binding_independent.

(* ---- bound jobs that are KEPT.  `h = d_i.job` is an event of its own (BGet i h), separate from using the object
   kept in h (BPrep h).  molli's semantics (Job.__get__ binds a fresh copy): a bound job is a VALUE fixed at the
   moment it is obtained.  Whatever happens between obtaining and using -- other drivers created, reassigned, used,
   THEIR jobs obtained and kept or used, more jobs obtained through the same driver, even driver i itself
   reassigned -- using h yields exactly what using driver i at the moment of obtaining would have yielded ... *)
Theorem C17_binding_held_fixed : forall decl evs1 i h evs2 b,
  use_after decl evs1 i = Some b ->
  forallb (fun ev => negb (obtains h ev)) evs2 = true ->
  held_after decl (evs1 ++ BGet i h :: evs2) h = Some b.
Proof. exact held_fixed. Qed.
Print Assumptions C17_binding_held_fixed.

(* ... which is bind(decl, class_i, instance_i) with the attributes driver i had when the job was obtained ... *)
Theorem C17_binding_held_value : forall decl evs1 i h evs2 c s,
  nget i (bs_drivers (fst (brun MCopy (binit decl) evs1))) = Some (c, s) ->
  forallb (fun ev => negb (obtains h ev)) evs2 = true ->
  held_after decl (evs1 ++ BGet i h :: evs2) h = Some (bind decl c s).
Proof. intros decl evs1 i h evs2 c s Hd. apply held_fixed. now apply binding_value. Qed.
Print Assumptions C17_binding_held_value.

(* ... and depends on nothing but the events about driver i before the obtain: all other drivers and everything
   after the obtain can be erased from the history. *)
Theorem C17_binding_held_independent : forall decl evs1 i h evs2 b,
  use_after decl evs1 i = Some b ->
  forallb (fun ev => negb (obtains h ev)) evs2 = true ->
  held_after decl (evs1 ++ BGet i h :: evs2) h = use_after decl (filter (concerns i) evs1) i
  /\ held_after decl (evs1 ++ BGet i h :: evs2) h = held_after decl (filter (concerns i) evs1 ++ [BGet i h]) h.
Proof.
  intros decl evs1 i h evs2 b Hu Hall. rewrite (held_fixed decl evs1 i h evs2 b Hu Hall), <- C17_binding_independent.
  split; symmetry; [exact Hu|]. apply held_fixed; [now rewrite <- C17_binding_independent|reflexivity].
Qed.
Print Assumptions C17_binding_held_independent.

(* the same for a job obtained through the class (`h = type(d_i).job`) *)
Theorem C17_binding_held_fixed_cls : forall decl evs1 i h evs2 b,
  usecls_after decl evs1 i = Some b ->
  forallb (fun ev => negb (obtains h ev)) evs2 = true ->
  held_after decl (evs1 ++ BGetCls i h :: evs2) h = Some b.
Proof. intros decl evs1 i h evs2 b Hu Hall. rewrite held_after_split by exact Hall. now apply obtain_holds. Qed.
Print Assumptions C17_binding_held_fixed_cls.

Theorem C17_binding_independent_cls : forall decl evs i,
  usecls_after decl evs i = usecls_after decl (filter (concerns i) evs) i.
Proof. intros decl evs i. apply (bstep_same_driver i); [apply N.eqb_refl|]. apply brun_filter. now split. Qed.
Print Assumptions C17_binding_independent_cls.

Example C17_binding_held_nonvacuous :
  let d1 := mk_settings (Some "sh") (Some 4%N) None (Some [("A", "1")]) in
  let d2 := mk_settings (Some "bash") (Some 8%N) (Some 9%N) (Some [("B", "2")]) in
  let evs1 := [BCreate 1 no_settings d1; BCreate 2 no_settings d2; BGet 2 7; BUse 2] in
  let evs2 := [BGet 2 1; BSet 1 d2; BGet 1 2; BPrep 1; BUse 2; BGetCls 2 3] in
  use_after no_settings evs1 1 = Some (mk_bound (Some "sh") 4 1000 [("A", "1")])
  /\ forallb (fun ev => negb (obtains 0 ev)) evs2 = true
  /\ held_after no_settings (evs1 ++ BGet 1 0 :: evs2) 0 = Some (mk_bound (Some "sh") 4 1000 [("A", "1")])
  /\ held_after no_settings (evs1 ++ BGet 1 0 :: evs2) 2 = Some (mk_bound (Some "bash") 8 9 [("B", "2")])
  /\ held_after no_settings (evs1 ++ BGet 1 0 :: evs2) 3 = Some (mk_bound None 1 1000 []).
Proof. repeat split; reflexivity. Qed.

(* The variant of __get__ that allocates ONE bound object per descriptor and refreshes it on every access hands the
   same object to every holder: with two jobs held side by side the one obtained through driver 1 carries driver
   2's executable, nprocs and environment; on histories that use every job at once it cannot be told from the
   fresh copy (so such histories do not test it). *)
Lemma C17_binding_shared_refuted :
  nth 4 (snd (brun MShared (binit no_settings) shared_witness)) None
  = Some (mk_bound (Some "bash") 8 1000 [("B", "2")])
  /\ nth 4 (snd (brun MCopy (binit no_settings) shared_witness)) None
  = Some (mk_bound (Some "sh") 4 1000 [("A", "1")]).
Proof. split; reflexivity. Qed.

Lemma C17_binding_shared_invisible_when_immediate : forall evs st,
  forallb immediate evs = true -> bs_held st = [] -> brun MShared st evs = brun MCopy st evs.
Proof.
  induction evs as [|ev r IH]; intros st Hall Hh; simpl; [reflexivity|].
  simpl in Hall. apply andb_true_iff in Hall as [H1 H2].
  destruct (shared_step_immediate st ev H1 Hh) as [-> Hh1].
  destruct (bstep MCopy st ev) as [st1 o]. now rewrite (IH st1 H2 Hh1).
Qed.

(* For a Job declared without settings of its own in a class without such attributes (all shipped drivers) the
   bound job carries the instance's executable, processor count (default 1), memory (default 1000) and environment. *)
Theorem C17_binding_reflects_instance : forall s, NoDup (map fst (env_of (s_env s))) ->
  let b := bind no_settings no_settings s in
  b_exe b = s_exe s /\ b_nprocs b = n_or (s_nprocs s) 1 /\ b_mem b = n_or (s_mem s) 1000 /\ b_env b = env_of (s_env s).
Proof. intros s Hnd. unfold bind; simpl. repeat split. unfold dmerge at 1. simpl. now apply dmerge_nil_l. Qed.
Print Assumptions C17_binding_reflects_instance.

(* The variant of __get__ that assigns to the shared descriptor (the code before repair bb90cdd)
   breaks the property: the second driver is bound with the first one's executable, nprocs and environment. *)
Lemma C17_binding_sticky_refuted :
  nth 3 (snd (brun MSticky (binit no_settings) sticky_witness)) None
  = Some (mk_bound (Some "sh") 4 1000 [("B", "2"); ("A", "1")])
  /\ nth 3 (snd (brun MCopy (binit no_settings) sticky_witness)) None
  = Some (mk_bound (Some "bash") 8 1000 [("B", "2")]).
Proof. split; reflexivity. Qed.

Example C17_binding_nonvacuous :
  let evs := [BCreate 1 no_settings (mk_settings (Some "sh") (Some 4%N) None (Some [("A", "1")]));
              BCreate 2 (mk_settings None None None (Some [("K", "cls")])) (mk_settings (Some "bash") (Some 0%N) (Some 9%N) None);
              BUse 1; BSet 2 (mk_settings (Some "zsh") (Some 2%N) None None); BUseCls 1; BUse 2] in
  use_after no_settings evs 2 = Some (mk_bound (Some "zsh") 2 1000 [("K", "cls")])
  /\ use_after no_settings evs 1 = Some (mk_bound (Some "sh") 4 1000 [("A", "1")]).
Proof. split; reflexivity. Qed.

(* `CNew i k args` is d_i = Class_k(args) run through DriverBase.__init__ (Model/JobCtor.v): the name the instance
   was given (else the class's default_executable) is looked up in an explicit world (PATH directories in order, the
   executable files) when check_exe is on, refused when unreachable, replaced by its location when find is on.
   The model with constructor calls is the binding model run on the elaborated history, so everything above applies. *)
Theorem C17_ctor_is_binding_model : forall w cl evs st,
  cs_b (fst (crun LFresh w cl st evs)) = fst (brun MCopy (cs_b st) (elab w cl evs))
  /\ b_obs (snd (crun LFresh w cl st evs)) = snd (brun MCopy (cs_b st) (elab w cl evs))
  /\ cs_memo (fst (crun LFresh w cl st evs)) = cs_memo st.
Proof.
  intros w cl evs. induction evs as [|ev r IH]; intro st; [now repeat split|].
  rewrite elab_cons, brun_app. cbn [crun fst snd].
  destruct (cstep_fresh_elab w cl st ev) as (H1a & H1b & H1c). cbv zeta in *.
  destruct (cstep LFresh w cl st ev) as [st1 o]. destruct (IH st1) as (Ha & Hb & Hc).
  destruct (crun LFresh w cl st1 r) as [st2 os]. cbn [fst snd] in *. rewrite <- H1a, <- H1b, <- Hb.
  repeat split; [exact Ha| |congruence]. unfold b_obs. cbn [flat_map]. now rewrite app_nil_r.
Qed.
Print Assumptions C17_ctor_is_binding_model.

(* Whatever drivers were constructed, refused, reassigned, used or had their jobs kept before (evs1) and afterwards
   (evs2: anything but re-creating / reassigning d_i itself) -- instances of the SAME class or of other classes, with
   any executables, reachable or not, in any order -- the job bound through d_i is the Job's declared settings
   resolved against what the constructor made of d_i's OWN arguments ... *)
Theorem C17_ctor_binding_value : forall w cl decl evs1 i k a dflt cattrs s evs2,
  nget k cl = Some (dflt, cattrs) -> construct w dflt a = COk s ->
  forallb (fun ev => negb (retouches i ev)) evs2 = true ->
  use_after decl (elab w cl (evs1 ++ CNew i k a :: evs2)) i = Some (bind decl cattrs s).
Proof.
  intros w cl decl evs1 i k a dflt cattrs s evs2 Hk Hc Hall. apply binding_value.
  now apply (ctor_driver_entry w cl decl evs1 i k a dflt).
Qed.
Print Assumptions C17_ctor_binding_value.

(* ... i.e. what it is in the history that consists of this one constructor call ... *)
Theorem C17_ctor_binding_independent : forall w cl decl evs1 i k a dflt cattrs s evs2,
  nget k cl = Some (dflt, cattrs) -> construct w dflt a = COk s ->
  forallb (fun ev => negb (retouches i ev)) evs2 = true ->
  use_after decl (elab w cl (evs1 ++ CNew i k a :: evs2)) i = use_after decl (elab w cl [CNew i k a]) i.
Proof.
  intros w cl decl evs1 i k a dflt cattrs s evs2 Hk Hc Hall. rewrite (C17_ctor_binding_value w cl decl evs1 i k a dflt cattrs s evs2 Hk Hc Hall).
  symmetry. exact (C17_ctor_binding_value w cl decl [] i k a dflt cattrs s [] Hk Hc eq_refl).
Qed.
Print Assumptions C17_ctor_binding_independent.

(* ... also for a bound job obtained through d_i, kept in a variable and used later. *)
Theorem C17_ctor_held_value : forall w cl decl evs1 i k a dflt cattrs s evs2 h evs3,
  nget k cl = Some (dflt, cattrs) -> construct w dflt a = COk s ->
  forallb (fun ev => negb (retouches i ev)) evs2 = true ->
  forallb (fun ev => negb (obtains h ev)) evs3 = true ->
  held_after decl (elab w cl (evs1 ++ CNew i k a :: evs2) ++ BGet i h :: evs3) h = Some (bind decl cattrs s).
Proof.
  intros w cl decl evs1 i k a dflt cattrs s evs2 h evs3 Hk Hc Hall. apply C17_binding_held_value.
  now apply (ctor_driver_entry w cl decl evs1 i k a dflt).
Qed.
Print Assumptions C17_ctor_held_value.

(* What the constructor makes of an instance's arguments: its own processor count (1 when omitted), memory and
   environment; its own name (or the class default) -- as given when the lookup is off, as located in the world (or
   as given, find=False) when it is on. *)
Theorem C17_construct_reflects_args : forall w dflt a s, construct w dflt a = COk s ->
  s_nprocs s = Some (match a_nprocs a with Some n => n | None => 1%N end) /\ s_mem s = a_mem a /\ s_env s = a_env a
  /\ (a_check a = false -> s_exe s = wanted dflt a)
  /\ (a_check a = true -> exists e p, wanted dflt a = Some e /\ which w e = Some p
                                     /\ s_exe s = Some (if a_find a then p else e)).
Proof.
  intros w dflt a s. unfold construct, construct_with. destruct (a_check a) eqn:Hc.
  - destruct (wanted dflt a) as [e|] eqn:Hr; [|discriminate].
    destruct (which w e) as [p|] eqn:Hw; [|discriminate].
    intro H. injection H as <-. cbn. repeat split; try discriminate.
    intros _. exists e, p. now repeat split.
  - destruct (a_find a); [discriminate|]. intro H. injection H as <-. cbn. repeat split; try discriminate.
Qed.
Print Assumptions C17_construct_reflects_args.

(* With the check on, an instance is refused exactly when ITS executable is unreachable; a refused call leaves no trace. *)
Theorem C17_construct_refused_iff : forall w dflt a e, a_check a = true -> wanted dflt a = Some e ->
  (construct w dflt a = CRefused <-> which w e = None).
Proof.
  intros w dflt a e Hc Hr. unfold construct, construct_with. rewrite Hc, Hr. now destruct (which w e).
Qed.
Print Assumptions C17_construct_refused_iff.

Theorem C17_ctor_refused_no_trace : forall w cl evs1 i k a dflt cattrs evs2,
  nget k cl = Some (dflt, cattrs) -> construct w dflt a = CRefused ->
  elab w cl (evs1 ++ CNew i k a :: evs2) = elab w cl (evs1 ++ evs2).
Proof.
  intros w cl evs1 i k a dflt cattrs evs2 Hk Hc. rewrite !elab_app, elab_cons. cbn [elab1]. now rewrite Hk, Hc.
Qed.
Print Assumptions C17_ctor_refused_no_trace.

(* The lookup: a name with a directory part is tested as it stands; a bare name resolves to the FIRST directory of
   PATH holding an executable of that name; whatever is located is an executable file. *)
Theorem C17_which_path : forall w n, has_slash n = true -> which w n = if is_exe w n then Some n else None.
Proof. exact which_abs. Qed.
Print Assumptions C17_which_path.

Theorem C17_which_bare : forall w n p, has_slash n = false -> which w n = Some p ->
  exists l1 d l2, w_path w = (l1 ++ d :: l2)%list /\ p = join d n /\ is_exe w p = true
                  /\ forall d', In d' l1 -> is_exe w (join d' n) = false.
Proof. exact which_bare. Qed.
Print Assumptions C17_which_bare.

Theorem C17_which_bare_none : forall w n, has_slash n = false -> which w n = None ->
  forall d, In d (w_path w) -> is_exe w (join d n) = false.
Proof.
  intros w n Hs H d Hd. unfold which in H. rewrite Hs in H.
  destruct (find (fun d => is_exe w (join d n)) (w_path w)) as [d0|] eqn:E; [discriminate|].
  exact (find_none _ _ E d Hd).
Qed.
Print Assumptions C17_which_bare_none.

(* The variant of which() that memoises the lookup per driver CLASS breaks the property: the second instance of the
   class runs the first one's program and a third one with an unreachable executable is let through.  Histories whose
   constructor calls all switch the lookup off (check_exe=False) cannot tell it from the code -- so they do not test it. *)
Lemma C17_ctor_memo_refuted :
  let cl := [(0%N, (None, no_settings))] in
  snd (crun LMemoClass memo_world cl (cinit no_settings) memo_witness)
  = [ONew (COk (mk_settings (Some "/W/d1/tool") (Some 4%N) None None));
     ONew (COk (mk_settings (Some "/W/d1/tool") (Some 2%N) None None));
     ONew (COk (mk_settings (Some "/W/d1/tool") (Some 1%N) None None));
     OB (Some (mk_bound (Some "/W/d1/tool") 2 1000 [])); OB (Some (mk_bound (Some "/W/d1/tool") 4 1000 []))]
  /\ snd (crun LFresh memo_world cl (cinit no_settings) memo_witness)
  = [ONew (COk (mk_settings (Some "/W/d1/tool") (Some 4%N) None None));
     ONew (COk (mk_settings (Some "/W/d2/beta") (Some 2%N) None None));
     ONew CRefused;
     OB (Some (mk_bound (Some "/W/d2/beta") 2 1000 [])); OB (Some (mk_bound (Some "/W/d1/tool") 4 1000 []))].
Proof. split; reflexivity. Qed.

Lemma C17_ctor_memo_invisible_without_lookup : forall w cl evs st,
  forallb lookup_off evs = true -> crun LMemoClass w cl st evs = crun LFresh w cl st evs.
Proof.
  intros w cl evs. induction evs as [|ev r IH]; intros st Hall; [reflexivity|].
  simpl in Hall. apply andb_true_iff in Hall as [H1 H2]. cbn [crun].
  assert (E : cstep LMemoClass w cl st ev = cstep LFresh w cl st ev).
  { destruct ev as [i k a|e]; [|reflexivity]. apply negb_true_iff in H1. cbn [cstep].
    destruct (nget k cl) as [[dflt cattrs]|]; [|reflexivity].
    unfold memo_after. now rewrite (construct_without_lookup _ (look_m LFresh w (cs_memo st) k) dflt a H1), H1. }
  rewrite E. destruct (cstep LFresh w cl st ev) as [st1 o]. now rewrite (IH st1 H2).
Qed.

Example C17_ctor_nonvacuous :
  let w := mk_world ["/W/d1"; "/W/d2"] ["/W/d1/tool"; "/W/d2/tool"; "/W/d2/beta"; "/W/d2/deflt"; "/W/d3/tool"] in
  let cl := [(0%N, (Some "deflt", no_settings)); (1%N, (None, mk_settings None None None (Some [("K", "cls")])))] in
  let a := mk_cargs (Some "/W/d3/tool") (Some 4%N) None (Some [("A", "1")]) true true in
  let evs1 := [CNew 0 0 (mk_cargs None None None None true true); CNew 1 0 (mk_cargs (Some "beta") (Some 2%N) None None true true);
               CNew 3 1 (mk_cargs (Some "gamma") None None None true true); CEv (BUse 1)] in
  let evs2 := [CNew 4 1 (mk_cargs (Some "tool") None (Some 9%N) None true false); CEv (BUse 0); CEv (BGet 4 0); CEv (BUse 3)] in
  construct w None a = COk (mk_settings (Some "/W/d3/tool") (Some 4%N) None (Some [("A", "1")]))
  /\ forallb (fun ev => negb (retouches 2 ev)) evs2 = true
  /\ use_after no_settings (elab w cl (evs1 ++ CNew 2 1 a :: evs2)) 2
      = Some (mk_bound (Some "/W/d3/tool") 4 1000 [("K", "cls"); ("A", "1")])
  /\ snd (crun LFresh w cl (cinit no_settings) (evs1 ++ CNew 2 1 a :: evs2))
      = [ONew (COk (mk_settings (Some "/W/d2/deflt") (Some 1%N) None None));
         ONew (COk (mk_settings (Some "/W/d2/beta") (Some 2%N) None None));
         ONew CRefused; OB (Some (mk_bound (Some "/W/d2/beta") 2 1000 []));
         ONew (COk (mk_settings (Some "/W/d3/tool") (Some 4%N) None (Some [("A", "1")])));
         ONew (COk (mk_settings (Some "tool") (Some 1%N) (Some 9%N) None));
         OB (Some (mk_bound (Some "/W/d2/deflt") 1 1000 []));
         OB (Some (mk_bound (Some "tool") 1 9 [("K", "cls")])); OB None].
Proof. cbv zeta. repeat split; reflexivity. Qed.

(* Commands run in order, each in the directory its predecessor left (first one: the materialised input files), with the
   overlaid environment; all executed commands but the last succeeded; the loop stops early only behind a failing
   command; nothing after the first failure is executed. *)
Theorem C17_prefix : forall (cmd : Type) (exec : cmd -> env -> fs -> cmd_result) e cs f,
  let sts := loop cmd exec e cs f in
  (exists rest, (map (cmd_of cmd) sts ++ rest)%list = cs)
  /\ chained cmd exec e f sts
  /\ Forall (ok cmd) (removelast sts)
  /\ (Forall (ok cmd) sts -> List.length sts = List.length cs)
  /\ (List.length sts < List.length cs -> exists l s, sts = (l ++ [s])%list /\ r_code (st_res s) <> 0%Z)
  /\ (cs <> [] -> sts <> []).
Proof.
  intros cmd exec e cs f. cbv zeta.
  auto 7 using loop_prefix, loop_chained, loop_init_ok, loop_all_ok_complete, loop_short_fails, loop_nonempty.
Qed.
Print Assumptions C17_prefix.

(* what run_local executes is that loop over the job's commands, from the materialised files, under base | envars;
   the effects outside the scratch directory are those of the executed commands only *)
Theorem C17_executed : forall cmd exec hash scratch td base (inp : jobinput cmd),
  let r := run_local cmd exec hash scratch td base inp in
  rr_steps r = loop cmd exec (overlay base (ji_env inp)) (ji_cmds inp) (materialise (ji_files inp))
  /\ rr_ext r = flat_map (fun s => r_ext (st_res s)) (rr_steps r)
  /\ rr_outcome r = fst (body cmd exec hash base inp).
Proof. intros cmd exec hash scratch td base inp. cbv zeta. rewrite run_local_unfold. simpl. now rewrite body_steps. Qed.
Print Assumptions C17_executed.

(* When an output is written: exit status 0 <-> every command was executed and succeeded and every requested file
   exists; the recorded exit code is 0 under exactly the same condition; the returned files are, as a map, the
   requested names that exist in the final directory with their bytes; the output carries the input's hash; the
   recorded stdouts/stderrs are the capture files read back. *)
Theorem C17_exit_files_hash : forall cmd exec hash base (inp : jobinput cmd) st out sts,
  body cmd exec hash base inp = (Done st out, sts) ->
  let f := final_fs (materialise (ji_files inp)) sts in
  sts = loop cmd exec (overlay base (ji_env inp)) (ji_cmds inp) (materialise (ji_files inp))
  /\ ((st = 0%Z) <-> (all_succeeded cmd inp sts /\ forall n, In n (requested inp) -> dget n f <> None))
  /\ ((jo_exitcode out = 0%Z) <-> (all_succeeded cmd inp sts /\ forall n, In n (requested inp) -> dget n f <> None))
  /\ (forall n, dget n (jo_files out) = if existsb (String.eqb n) (requested inp) then dget n f else None)
  /\ jo_hash out = hash inp
  /\ read_caps ".out" f (names_of sts) [] = Some (jo_stdouts out)
  /\ read_caps ".err" f (names_of sts) [] = Some (jo_stderrs out).
Proof.
  intros cmd exec hash base inp st out sts. unfold body. cbv zeta.
  set (f0 := materialise (ji_files inp)). set (e := overlay base (ji_env inp)).
  set (l := loop cmd exec e (ji_cmds inp) f0). set (f := final_fs f0 l).
  destruct (read_caps ".out" f (names_of l) []) as [so|] eqn:Eo; [|destruct (read_caps ".err" f (names_of l) []); discriminate].
  destruct (read_caps ".err" f (names_of l) []) as [se|] eqn:Ee; [|discriminate].
  destruct (last_code l) as [c|] eqn:Ec; [|discriminate].
  intros [= <- <- <-]. fold f.
  assert (Hsucc : all_succeeded cmd inp l <-> c = 0%Z).
  { rewrite <- (all_ok_iff_last cmd exec e (ji_cmds inp) f0 c Ec). unfold all_succeeded.
    split; [tauto|]. intro H. split; [now apply loop_all_ok_complete|exact H]. }
  rewrite Hsucc, <- all_present_spec. simpl.
  split; [reflexivity|]. split; [apply exit_zero|]. split; [apply exit_zero|]. split; [intro n; apply collect_spec|]. now repeat split.
Qed.
Print Assumptions C17_exit_files_hash.

(* No output is written only if the job has no command at all or a capture file has disappeared. *)
Theorem C17_crash_iff : forall cmd exec hash base (inp : jobinput cmd),
  let sts := snd (body cmd exec hash base inp) in
  fst (body cmd exec hash base inp) = Crashed <->
  (ji_cmds inp = [] \/ read_caps ".out" (final_fs (materialise (ji_files inp)) sts) (names_of sts) [] = None
                     \/ read_caps ".err" (final_fs (materialise (ji_files inp)) sts) (names_of sts) [] = None).
Proof.
  intros cmd exec hash base inp. cbv zeta. rewrite body_steps. unfold body. cbv zeta.
  set (l := loop _ _ _ _ _).
  destruct (read_caps ".out" _ (names_of l) []) as [so|] eqn:Eo; [|simpl; tauto].
  destruct (read_caps ".err" _ (names_of l) []) as [se|] eqn:Ee; [|simpl; tauto].
  destruct (last_code l) as [c|] eqn:Ec; simpl.
  - split; [discriminate|]. intros [H|[H|H]]; try discriminate.
    exfalso. unfold l in Ec. rewrite H in Ec. discriminate.
  - split; [|reflexivity]. intros _. left. apply last_code_none in Ec. unfold l in Ec.
    destruct (ji_cmds inp); [reflexivity|]. now apply loop_nonempty in Ec.
Qed.
Print Assumptions C17_crash_iff.

(* Captures: if the executed named commands have distinct names and no command touches the capture files, reading
   the captures cannot fail, every executed named command has exactly its stdout and stderr recorded under its name,
   and no other name is recorded. *)
Theorem C17_capture : forall (cmd : Type) (exec : cmd -> env -> fs -> cmd_result) (protected : list string),
  (forall c e f x, In x protected -> dget x (r_fs (exec c e f)) = dget x f) ->
  forall e cs f0,
  let sts := loop cmd exec e cs f0 in
  NoDup (names_of sts) ->
  (forall x, In x (cap_files cmd cs) -> In x protected) ->
  exists so se,
    read_caps ".out" (final_fs f0 sts) (names_of sts) [] = Some so
    /\ read_caps ".err" (final_fs f0 sts) (names_of sts) [] = Some se
    /\ (forall s n, In s sts -> st_name s = Some n ->
          dget n so = Some (r_out (st_res s)) /\ dget n se = Some (r_err (st_res s)))
    /\ (forall n, ~ In n (names_of sts) -> dget n so = None /\ dget n se = None).
Proof. exact captures_exact. Qed.
Print Assumptions C17_capture.

(* The first command sees every input file byte for byte and nothing else; commands see base | envars. *)
Theorem C17_input_files : forall l n, NoDup (map fst l) -> dget n (materialise (Some l)) = dget n l.
Proof. intros l n H. unfold materialise. rewrite dget_fold_dset by exact H. simpl. now destruct (dget n l). Qed.
Print Assumptions C17_input_files.

Theorem C17_environment : forall base o v, NoDup (map fst o) ->
  dget v (overlay base (Some o)) = match dget v o with Some x => Some x | None => dget v base end.
Proof. intros base o v H. unfold overlay. now apply dget_dmerge. Qed.
Print Assumptions C17_environment.

(* The scratch directory is left as it was found on every path (normal return, failing command, missing file,
   uncaught exception): the private directory is removed whichever way the body of the `with` block ended. *)
Theorem C17_scratch : forall cmd exec hash scratch td base (inp : jobinput cmd),
  rr_scratch (run_local cmd exec hash scratch td base inp) = scratch.
Proof. intros. now rewrite run_local_unfold. Qed.
Print Assumptions C17_scratch.

(* an oracle whose commands only print and exit: (exit code, stdout, stderr) *)
Definition print_exec (c : Z * string * string) (e : env) (f : fs) : cmd_result :=
  mk_res (fst (fst c)) (snd (fst c)) (snd c) f [].

Example C17_capture_hypotheses_satisfiable :
  let cs := [((0%Z, "one", "e1"), Some "a"); ((0%Z, "two", ""), None); ((3%Z, "three", "e3"), Some "b"); ((0%Z, "never", ""), Some "c")] in
  let sts := loop _ print_exec [] cs [("in.txt", "x")] in
  (forall c e f x, In x (cap_files _ cs) -> dget x (r_fs (print_exec c e f)) = dget x f)
  /\ NoDup (names_of sts)
  /\ List.length sts = 3
  /\ read_caps ".out" (final_fs [("in.txt", "x")] sts) (names_of sts) [] = Some [("a", "one"); ("b", "three")].
Proof. cbv zeta. split; [reflexivity|]. split; [repeat constructor; simpl; intuition discriminate|]. split; reflexivity. Qed.

(* a scripted job: the second of three commands fails; one of the two requested files was written before the
   failure, the other would have been written after it *)
Example C17_run_nonvacuous :
  let inp := mk_ji "j" [(([PMark "m0"; POut "hello"; PCopy "in.bin" "r0"], 0%Z), Some "c0");
                        (([PMark "m1"; PErr "oops"; PEnv "V"], 2%Z), Some "c1");
                        (([PMark "m2"; PWrite "r1" "late"], 0%Z), None)]
                  (Some [("in.bin", bytes [0; 255; 10]%N)]) (Some ["r0"; "r1"]) (Some [("V", "over")]) in
  let r := run_local script sh_exec (fun _ => "H") ["other-job__x"] "j__1" [("V", "base")] inp in
  rr_outcome r = Done 1 (mk_jo [("c0", "hello"); ("c1", "over")] [("c0", ""); ("c1", "oops")] 2
                               [("r0", bytes [0; 255; 10]%N)] "H")
  /\ rr_ext r = ["m0"; "m1"] /\ rr_scratch r = ["other-job__x"].
Proof. cbv zeta. repeat split; reflexivity. Qed.
