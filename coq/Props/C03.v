(* C03 -- a crash while appending never damages committed records or shows a torn one.
   Crash model of the property: the file holds the committed image followed by ANY prefix of the byte
   stream the interrupted session wrote:  crash_image H rs ps n = H ++ blocks rs ++ firstn n (blocks ps),
   with n universally quantified (every byte offset), rs the committed records, ps the session's puts. *)
From Coq Require Import NArith List.
Import ListNotations.
From Molli Require Import Model.UKV Proofs.UKVBase Proofs.UKV Proofs.UKVCrash Proofs.UKVCrashChain Proofs.UKVCrashRun.
Open Scope N_scope.

(* Reopening a crash image (fresh handle after the process died, or another process's handle with a stale
   snapshot of the committed records), in either mode: the table of contents is exactly
   committed ++ (the session records wholly inside the first n bytes); a torn record is never listed;
   in append mode the file is cut back to exactly the complete blocks. *)
Theorem C03_crash_reopen : forall H rs ps n h m,
  hdr_ok H -> Forall wfkv (rs ++ ps) -> NoDup (map fst (rs ++ ps)) ->
  snap H rs h -> closed h = true ->
  exists h', open_ (crash_image H rs ps n) h m =
             (match m with MA => H ++ blocks (rs ++ complete n ps) | MR => crash_image H rs ps n end, h')
             /\ full H (rs ++ complete n ps) h' /\ md h' = m /\ closed h' = false.
Proof. exact crash_reopen. Qed.
Print Assumptions C03_crash_reopen.

(* the records shown of the interrupted session are a prefix of its puts: each completely or not at all *)
Theorem C03_all_or_nothing : forall n ps, exists j, complete n ps = firstn j ps.
Proof. exact complete_prefix. Qed.
Print Assumptions C03_all_or_nothing.

(* every get after the reopening returns the exact bytes of a committed or complete record, or KeyError:
   never a truncated or zero-padded value, on the image itself and on the cut-back file *)
Theorem C03_reads_exact : forall H rs ps n h' k,
  Forall wfkv ps -> full H (rs ++ complete n ps) h' -> closed h' = false ->
  get (crash_image H rs ps n) h' k =
    match assoc (rs ++ complete n ps) k with Some v => RVal v | None => RErr EKey end
  /\ get (H ++ blocks (rs ++ complete n ps)) h' k =
    match assoc (rs ++ complete n ps) k with Some v => RVal v | None => RErr EKey end.
Proof.
  intros H rs ps n h' k Hwp Hf Hc. destruct (crash_image_split H rs ps n Hwp) as [tl [_ ->]].
  rewrite <- (app_nil_r (blocks (rs ++ complete n ps))) at 2. split; apply get_spec; assumption.
Qed.
Print Assumptions C03_reads_exact.

Theorem C03_committed_intact : forall rs qs k v, assoc rs k = Some v -> assoc (rs ++ qs) k = Some v.
Proof. exact assoc_app_l. Qed.
Print Assumptions C03_committed_intact.

(* Recovery: after reopening the image for append the world satisfies the C02 invariant for
   committed ++ complete, so by C02_refines every further history -- further appends, reads by other
   handles, and (by C03_crash_reopen again) a second crash -- behaves like the insert-only map. *)
Theorem C03_recover_append : forall H rs ps n nh i,
  hdr_ok H -> Forall wfkv (rs ++ ps) -> NoDup (map fst (rs ++ ps)) -> (i < nh)%nat ->
  exists h', open_ (crash_image H rs ps n) h0 MA = (H ++ blocks (rs ++ complete n ps), h') /\
             Inv H (rs ++ complete n ps) (H ++ blocks (rs ++ complete n ps), upd (repeat h0 nh) i h').
Proof.
  intros H rs ps n nh i Hok Hwf Hnd Hi.
  destruct (crash_reopen H rs ps n h0 MA Hok Hwf Hnd (snap_h0 H rs) eq_refl) as [h' [E [Hf [_ Hc]]]].
  destruct (complete_keeps0 rs ps n Hwf Hnd) as [Hwf' Hnd'].
  exists h'. split; [exact E|apply inv_single_open; assumption].
Qed.
Print Assumptions C03_recover_append.

(* ANY NUMBER of crashing sessions in a row (unbounded induction over the list of sessions): every session
   reopens for append -- recover = the model's own open_ on the real bytes the previous death left --, writes
   the blocks of its puts and dies after an arbitrary number n of bytes.  The file after the chain is exactly
   the header and the complete blocks of  committed ++ (per session, the puts wholly inside its n bytes),
   with no torn bytes left anywhere in the middle. *)
Theorem C03_crash_chain : forall H ss rs,
  hdr_ok H -> Forall wfkv (rs ++ all_puts ss) -> NoDup (map fst (rs ++ all_puts ss)) ->
  chain (H ++ blocks rs) ss = H ++ blocks (chain_records rs ss)
  /\ Forall wfkv (chain_records rs ss) /\ NoDup (map fst (chain_records rs ss)).
Proof. exact crash_chain. Qed.
Print Assumptions C03_crash_chain.

(* a record committed before the first crash keeps its exact value however many sessions die after it *)
Theorem C03_crash_chain_committed : forall H ss rs k v,
  hdr_ok H -> Forall wfkv (rs ++ all_puts ss) -> NoDup (map fst (rs ++ all_puts ss)) ->
  assoc rs k = Some v ->
  chain (H ++ blocks rs) ss = H ++ blocks (chain_records rs ss) /\ assoc (chain_records rs ss) k = Some v.
Proof.
  intros H ss rs k v Hok Hwf Hnd Ha. split; [apply crash_chain; assumption|].
  destruct (chain_records_prefix rs ss) as [qs ->]. apply assoc_app_l. exact Ha.
Qed.
Print Assumptions C03_crash_chain_committed.

(* after the chain a writer that reopens the file has the C02 invariant for exactly chain_records *)
Theorem C03_crash_chain_inv : forall H ss rs nh i,
  hdr_ok H -> Forall wfkv (rs ++ all_puts ss) -> NoDup (map fst (rs ++ all_puts ss)) -> (i < nh)%nat ->
  exists h', open_ (chain (H ++ blocks rs) ss) h0 MA = (H ++ blocks (chain_records rs ss), h') /\
             Inv H (chain_records rs ss) (H ++ blocks (chain_records rs ss), upd (repeat h0 nh) i h').
Proof.
  intros H ss rs nh i Hok Hwf Hnd Hi. destruct (crash_chain H ss rs Hok Hwf Hnd) as [-> [Hw Hn]].
  destruct (open_clean H _ h0 MA Hok Hw Hn (snap_h0 H _) eq_refl) as [h' [E [Hf [_ Hc]]]].
  exists h'. split; [exact E|apply inv_single_open; assumption].
Qed.
Print Assumptions C03_crash_chain_inv.

(* Non-vacuity: three sessions die in a row -- inside a value, inside a length field, after a whole record. *)
Example C03_chain_nonvacuous :
  let H := mk_header (repeat 77 16) [] [] in
  let rs := [([1], [10; 11])] in
  let ss := [([([2], [20]); ([3], [30; 31; 32])], 12%nat); ([([4], [40; 41])], 3%nat); ([([5], [50])], 200%nat)] in
  chain_records rs ss = [([1], [10; 11]); ([2], [20]); ([5], [50])] /\
  chain (H ++ blocks rs) ss = H ++ blocks [([1], [10; 11]); ([2], [20]); ([5], [50])].
Proof. vm_compute. split; reflexivity. Qed.

(* The chain IS a run of the operational model `run` (Model/UKV.v, the function the correspondence check drives
   against the real UKVFile; its Crash op = "the file keeps its first n bytes, every handle object is new"):
   the history  Open a; Put..; Crash;  Open a; Put..; Crash;  ...;  Open a   -- chain_ops, each Crash cutting n_i bytes
   into that session's appended stream -- leaves exactly header ++ complete blocks of chain_records. *)
Theorem C03_run_chain : forall H ss rs,
  hdr_ok H -> Forall wfkv (rs ++ all_puts ss) -> NoDup (map fst (rs ++ all_puts ss)) ->
  fst (snd (run (H ++ blocks rs, [h0]) (chain_ops H rs ss ++ [Open 0 MA]))) = H ++ blocks (chain_records rs ss).
Proof.
  intros H ss rs Hok Hwf Hnd. etransitivity; [|apply crash_chain; assumption].
  assert (Hwr : Forall wfkv rs) by (apply Forall_app in Hwf; apply Hwf).
  assert (Hnr : NoDup (map fst rs)) by (rewrite map_app in Hnd; apply NoDup_app_l in Hnd; exact Hnd).
  apply (run_chain H ss rs _ Hok Hwf Hnd (open_clean H rs h0 MA Hok Hwr Hnr (snap_h0 H rs) eq_refl)).
Qed.
Print Assumptions C03_run_chain.

(* A test, not a theorem: on this instance the chain is the operational model `run` (the one the correspondence
   check drives against the real UKVFile, with its Crash op = "the file keeps its first n bytes, every handle
   object is new") -- three writing sessions, the first two killed 12 and 3 bytes into their appends. *)
Example C03_chain_agrees_with_run :
  let H := mk_header (repeat 77 16) [] [] in
  let f0 := H ++ blocks [([1], [10; 11])] in
  fst (snd (run (f0, repeat h0 1) [Open 0 MA; Put 0 [2] [20]; Put 0 [3] [30; 31; 32]; Crash (len f0 + 12);
                                    Open 0 MA; Put 0 [4] [40; 41]; Crash (len f0 + 7 + 3);
                                    Open 0 MA; Put 0 [5] [50]; Close 0]))
  = chain f0 [([([2], [20]); ([3], [30; 31; 32])], 12%nat); ([([4], [40; 41])], 3%nat); ([([5], [50])], 200%nat)].
Proof. vm_compute. reflexivity. Qed.

(* Non-vacuity: a two-put session cut inside the value of its second record. *)
Example C03_nonvacuous :
  let H := mk_header (repeat 77 16) [] [] in
  let rs := [([1], [10; 11])] in let ps := [([2], [20]); ([3], [30; 31; 32])] in
  complete 12 ps = [([2], [20])] /\
  fst (run (crash_image H rs ps 12, repeat h0 2) [Open 0 MR; Keys 0; Get 0 [3]; Close 0; Open 1 MA; Put 1 [3] [7]; Get 1 [3]])
  = [ROk; RKeys [[1]; [2]]; RErr EKey; ROk; ROk; ROk; RVal [7]].
Proof. vm_compute. split; reflexivity. Qed.
