(* C02 -- a library file is an insert-only key-value map over any operation history.
   Property theorems only; lemmas live in Proofs/UKVBase.v, UKV.v, UKVViews.v, Backend.v, BackendBuffer.v.  The model (Model/UKV.v) is tied
   to molli/storage/ukvfile.py by the differential correspondence of harness/c02.py on every run. *)
From Coq Require Import NArith ZArith List Bool.
Import ListNotations.
From Molli Require Import Model.UKV Proofs.UKVBase Proofs.UKV Model.Backend Proofs.Backend
  Model.UKVViews Proofs.UKVViews Proofs.BackendBuffer.
Open Scope N_scope.

(* One operation.  In any state satisfying the invariant (file = header ++ encoded records, distinct
   keys, every handle holding a consistent possibly-stale snapshot, open handles complete, a writer
   alone), any operation allowed by the session discipline
   - re-establishes the invariant for the new abstract contents rs',
   - returns exactly what the insert-only map returns (step_spec: get = the bytes of the one successful put
     or KeyError; keys = exactly the successfully put keys; put fails on duplicate / oversize / read-only),
   - and leaves the whole world (file AND every handle) unchanged when it fails. *)
Theorem C02_step_refines : forall H rs w o,
  Inv H rs w -> ok_op w o ->
  exists rs', Inv H rs' (fst (step w o)) /\
              step_spec rs (hnth (snd w) (op_handle o)) o (snd (step w o)) rs' /\
              (forall e, snd (step w o) = RErr e -> fst (step w o) = w).
Proof. exact step_refines. Qed.
Print Assumptions C02_step_refines.

(* Every history (any length, any number of handles): by induction over the operation list. *)
Theorem C02_refines : forall H ops rs w,
  Inv H rs w -> ok_run w ops ->
  exists rs', Inv H rs' (snd (run w ops)) /\ run_spec rs w ops (fst (run w ops)) rs'.
Proof.
  intros H. refine (refines_lift step ok_op (fun rs w o => step_spec rs (hnth (snd w) (op_handle o)) o) H _).
  intros rs w o I Hok. destruct (step_refines H rs w o I Hok) as [rs' [I' [S _]]]. exists rs'. split; assumption.
Qed.
Print Assumptions C02_refines.

(* A freshly created file with any well-formed header and any number of never-opened handles
   satisfies the invariant; a header built by write_header is well formed. *)
Theorem C02_init : forall H n, hdr_ok H -> Inv H [] (H, repeat h0 n).
Proof. exact inv_init. Qed.
Print Assumptions C02_init.

Theorem C02_header_wellformed : forall h1 h2 b0,
  length h1 = 16%nat -> len h2 < 65536 -> len b0 < 4294967296 -> hdr_ok (mk_header h1 h2 b0).
Proof. exact mk_header_ok. Qed.
Print Assumptions C02_header_wellformed.

(* Headers (h1, comment, descriptor block) are preserved: in every reachable state the file starts with
   the header bytes it was created with. *)
Theorem C02_headers : forall H rs w, Inv H rs w -> firstn (N.to_nat (len H)) (fst w) = H.
Proof. intros H rs w I. rewrite (inv_file _ _ _ I). apply firstn_len_app. Qed.
Print Assumptions C02_headers.

(* Reopening a closed handle whose cached table of contents is stale (or empty) yields the complete
   index: soundness of the (eof,last) shortcut of map_blocks under insert-only growth. *)
Theorem C02_stale_refresh : forall H rs tl h m,
  hdr_ok H -> Forall wfkv rs -> NoDup (map fst rs) -> torn tl -> snap H rs h -> closed h = true ->
  exists h', open_ (H ++ blocks rs ++ tl) h m =
             (match m with MA => H ++ blocks rs | MR => H ++ blocks rs ++ tl end, h')
             /\ full H rs h' /\ md h' = m /\ closed h' = false.
Proof. exact open_spec. Qed.
Print Assumptions C02_stale_refresh.

(* Collection level (write queue, key set, any buffer size).
   BInv: inside a writing session, the file is header ++ records, the UKV handle is complete and writable, and
   the buffered puts are all valid (fresh distinct keys, sizes within limits); the collection lists only stored
   or buffered keys. *)
(* Inside a writing session every key the collection lists is readable, with the bytes that were put --
   whether or not the put has reached the file yet (any bufsize). *)
Theorem C02_listed_readable : forall H rs f b k,
  BInv H rs f b -> In k (bkeys b) ->
  exists v f' b', b_get f b k = (f', b', BVal v) /\ assoc (rs ++ queue b) k = Some v.
Proof. exact listed_readable. Qed.
Print Assumptions C02_listed_readable.

(* a put of a fresh key of legal size succeeds, lists the key and keeps the session state valid, for EVERY
   buffer size (it is written through or stays buffered) *)
Theorem C02_collection_put : forall H rs f b k v,
  BInv H rs f b -> ro b = false -> ~ In k (map fst (rs ++ queue b)) -> wfkv (k, v) ->
  exists rs' f' b', b_put f b k v = (f', b', BOk) /\ BInv H rs' f' b' /\ In k (bkeys b') /\
                    assoc (rs' ++ queue b') k = Some v.
Proof. exact put_keeps_valid. Qed.
Print Assumptions C02_collection_put.

(* flushing valid buffered puts writes every one of them, in order, and cannot fail *)
Theorem C02_flush_valid : forall H rs f b, BInv H rs f b ->
  exists b', flush f b = (H ++ blocks (rs ++ queue b), b', None) /\ queue b' = [] /\ bkeys b' = bkeys b /\
             BInv H (rs ++ queue b) (H ++ blocks (rs ++ queue b)) b'.
Proof. exact flush_valid. Qed.
Print Assumptions C02_flush_valid.

(* A flush that fails (a buffered put whose key is already stored or buffered before it, or whose sizes are out of
   range): exactly the puts queued before the doomed one reach the file, as complete records; the doomed item is
   dropped, the rest stays buffered, and the listing becomes stored keys + still-buffered keys.  (Used with C04:
   a writing session that ends with a failing flush leaves the map extended by exactly the flushed prefix.) *)
Theorem C02_flush_fails_atomically : forall H good fuel rs f h ks u bs r s k v rest,
  (length good + S (length rest) < fuel)%nat ->
  f = H ++ blocks rs -> full H rs h -> closed h = false -> md h = MA ->
  Forall wfkv good -> NoDup (map fst (rs ++ good)) ->
  (assoc (rs ++ good) k <> None \/ wfb k v = false) ->
  exists h' e,
    flush_loop fuel f (mkb h true (good ++ (k, v) :: rest) ks u bs r s) =
      (H ++ blocks (rs ++ good),
       mkb h' true rest (set_union (keys h') (map fst rest)) u bs r s, Some e)
    /\ full H (rs ++ good) h' /\ closed h' = false /\ md h' = MA.
Proof. exact flush_fails_atomically. Qed.
Print Assumptions C02_flush_fails_atomically.

(* Non-vacuity: a concrete disciplined history over two handles meets the hypotheses, and runs. *)
Definition ex_H : bytes := mk_header (repeat 77 16) [1; 2] [9].
Definition ex_ops : list op :=
  [Open 0 MA; Put 0 [1] [2; 3]; Put 0 [1] [4]; Close 0; Open 1 MR; Get 1 [1]; Keys 1; Put 1 [5] []; Close 1;
   Open 0 MA; Put 0 [5] []; Keys 0].
Example C02_nonvacuous :
  hdr_ok ex_H /\ ok_run (ex_H, repeat h0 2) ex_ops /\
  fst (run (ex_H, repeat h0 2) ex_ops) =
    [ROk; ROk; RErr EKey; ROk; ROk; RVal [2; 3]; RKeys [[1]]; RErr EUnsupported; ROk; ROk; ROk; RKeys [[1]; [5]]].
Proof.
  split; [apply mk_header_ok; [reflexivity|reflexivity|reflexivity]|].
  split; [|vm_compute; reflexivity].
  (* the discipline: handle numbers in range, and at each of the three Opens every other handle is closed,
     whichever number it has: 0, 1, or past the list, where hnth gives the closed h0 *)
  cbv -[lt]. assert (L0 : (0 < 2)%nat) by (repeat constructor). assert (L1 : (1 < 2)%nat) by (repeat constructor).
  repeat split; try assumption.
  - intros _ [|[|[|j]]] _; reflexivity.
  - intros _ [|[|[|j]]] _ C; discriminate C.
  - intros _ [|[|[|j]]] _; reflexivity.
Qed.

(* Derived views: items(), values(), membership, length, pickled handle copies.
   (h[k], h[k] = v, `with h:` are other spellings of get / put / open-close and are driven through the same model ops) *)
(* One step of the extended operation set (base operations, items(), values(), a pickled copy of a closed handle into a
   closed slot): the invariant is re-established and the result is the abstract map's -- items() of an open handle is
   EXACTLY the list of successfully put (key, bytes) pairs, values() exactly their values; through a closed handle the
   generator raises (or is empty); a pickled copy is one more consistent possibly-stale snapshot. *)
Theorem C02_views_step : forall H rs w o,
  Inv H rs w -> ok_vop w o ->
  exists rs', Inv H rs' (fst (vstep w o)) /\ vstep_spec rs w o (snd (vstep w o)) rs'.
Proof. exact vstep_refines. Qed.
Print Assumptions C02_views_step.

Theorem C02_views_history : forall H ops rs w,
  Inv H rs w -> ok_vrun w ops ->
  exists rs', Inv H rs' (snd (vrun w ops)) /\ vrun_spec rs w ops (fst (vrun w ops)) rs'.
Proof. intros H. exact (refines_lift vstep ok_vop vstep_spec H (vstep_refines H)). Qed.
Print Assumptions C02_views_history.

(* Collection level, any buffer size: inside a writing session items() returns one pair per listed key with the bytes that
   were put (stored or still buffered), never fails, keeps the session state valid and the listing unchanged *)
Theorem C02_collection_items : forall H rs f b,
  BInv H rs f b ->
  exists l rs' f' b', b_items f b = (f', b', BItems l) /\ map fst l = bkeys b /\
                      (forall k v, In (k, v) l -> assoc (rs ++ queue b) k = Some v) /\
                      BInv H rs' f' b' /\ rs' ++ queue b' = rs ++ queue b /\ bkeys b' = bkeys b.
Proof. exact items_exact. Qed.
Print Assumptions C02_collection_items.

Theorem C02_collection_items_complete : forall H rs f b,
  BInv H rs f b -> (forall k, In k (map fst (rs ++ queue b)) -> In k (bkeys b)) ->
  exists l f' b', b_items f b = (f', b', BItems l) /\
                  forall k v, assoc (rs ++ queue b) k = Some v -> In (k, v) l.
Proof. exact items_complete. Qed.
Print Assumptions C02_collection_items_complete.

Theorem C02_collection_values : forall H rs f b,
  BInv H rs f b ->
  exists l f' b', b_items f b = (f', b', BItems l) /\ b_values f b = (f', b', BVals (map snd l)).
Proof. exact values_exact. Qed.
Print Assumptions C02_collection_values.

Theorem C02_collection_contains : forall (bs : list backend) f i k,
  snd (bstep (f, bs) (CContains i k)) = BBool true <-> In k (bkeys (nth i bs b0)).
Proof. exact contains_listed. Qed.
Print Assumptions C02_collection_contains.

(* Header preservation as a handle reports it: the (h1, comment, descriptor block) a handle takes from the file at any
   later time -- whatever has been appended meanwhile -- are exactly the ones the file was created with. *)
Theorem C02_header_read_back : forall h1 h2 b0 rest,
  length h1 = 16%nat -> len h2 < 65536 -> len b0 < 4294967296 ->
  read_header (mk_header h1 h2 b0 ++ rest) = (h1, h2, b0).
Proof.
  intros h1 h2 b0 rest L1 L2 L0.
  destruct (mk_header_fields h1 h2 b0 L1 L2 L0) as [pre [a [b [c [d [e [g [E [Lp [P [E2 E0]]]]]]]]]]].
  unfold read_header. rewrite E, <- !app_assoc. destruct (P (h2 ++ b0 ++ rest)) as [-> [t ->]].
  rewrite E2, E0, <- Lp. f_equal; [f_equal; apply sub_app_mid|].
  rewrite app_assoc, <- len_app. apply sub_app_mid.
Qed.
Print Assumptions C02_header_read_back.

(* Non-vacuity of the extended history theorem: items/values/pickled copies on the example file. *)
Definition ex_vops : list vop :=
  [VBase (Open 0 MA); VBase (Put 0 [1] [2; 3]); VItems 0; VBase (Close 0); VDup 0 1; VBase (Open 1 MR); VValues 1;
   VItems 0; VBase (Close 1)].
Example C02_views_nonvacuous :
  fst (vrun (ex_H, repeat h0 2) ex_vops) =
    [VR ROk; VR ROk; VRItems [([1], [2; 3])]; VR ROk; VR ROk; VR ROk; VRVals [[2; 3]]; VRFail; VR ROk].
Proof. vm_compute. reflexivity. Qed.

(* The write buffer: an accepted put is lost only by failing. *)
(* Whatever the state: a flush takes the buffered puts apart into the ones it wrote (in order), at most ONE it dropped -- the
   first whose write failed, and then the error is reported -- and the ones that stay buffered.  No error, nothing dropped. *)
Theorem C02_flush_takes_apart : forall f b f' b' e,
  flush f b = (f', b', e) ->
  exists written dropped,
    queue b = written ++ dropped ++ queue b' /\
    match e with None => dropped = [] /\ queue b' = [] | Some _ => length dropped = 1%nat end /\ st b' = st b.
Proof. exact flush_takes_apart. Qed.
Print Assumptions C02_flush_takes_apart.

(* Outside a writing session a get -- of any key, buffered or not -- is a pure read: file, handle and buffer are unchanged. *)
Theorem C02_get_outside_writing_is_pure : forall f b k, writing b = false -> exists r, b_get f b k = (f, b, r).
Proof. exact get_outside_writing. Qed.
Print Assumptions C02_get_outside_writing_is_pure.

(* Outside a writing session every reading operation of the property's histories (get, keys, contains, len, items, values) is
   pure on the whole world: the file and every handle stay exactly as they were. *)
Theorem C02_reading_changes_nothing : forall f bs o i,
  reads o = Some i -> (i < length bs)%nat -> writing (nth i bs b0) = false ->
  exists r, bstep (f, bs) o = ((f, bs), r).
Proof. exact reading_changes_nothing. Qed.
Print Assumptions C02_reading_changes_nothing.

(* A whole reading session -- begin, any sequence of reads, end -- leaves the handle's buffered puts as they were. *)
Theorem C02_reading_session_keeps_buffer : forall i ops f bs,
  forallb (in_read_session i) ops = true -> (i < length bs)%nat ->
  let w := snd (brun (f, bs) (BeginR i :: ops ++ [EndR i])) in
  queue (nth i (snd w) b0) = queue (nth i bs b0).
Proof. exact reading_session_keeps_buffer. Qed.
Print Assumptions C02_reading_session_keeps_buffer.

(* Non-vacuity: a put left buffered by a failing flush (the 256-byte key before it is refused) survives a reading session
   that asks for it, and the next writing session stores it. *)
Definition ex_long : bytes := repeat 75 256.
Definition ex_bops : list bop :=
  [BeginW 0; CPut 0 ex_long [1]; CPut 0 [99] [7; 7]; EndW 0; BeginR 0; CGet 0 [99]; CItems 0; EndR 0; BeginW 0; EndW 0;
   BeginR 0; CGet 0 [99]; EndR 0].
Example C02_buffer_nonvacuous :
  fst (brun (ex_H, [b_init (100000)%Z false]) ex_bops) =
    [BOk; BOk; BOk; BErr BStruct; BOk; BErr BKey; BItems []; BOk; BOk; BOk; BOk; BVal [7; 7]; BOk].
Proof. vm_compute. reflexivity. Qed.
