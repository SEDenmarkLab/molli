(* C15 -- Graph queries agree with graph theory: property theorems only.
   The functions are the executable models of Model/Graph.v (mirrors of Connectivity.yield_bfsd,
   yield_bfs, is_bond_in_ring, connected_atoms, bonds_with_atom, bonded_valence in molli/chem/bond.py);
   the same definitions are evaluated against the implementation by the correspondence shards of
   harness/c15.py on every run. `reach`, `is_dist`, `walk` are defined independently of the algorithm
   (Proofs/Graph.v: inductive walks over the bond list). *)
From Coq Require Import Arith List Bool Sorted Lia.
From Coq Require Import NArith QArith.
From Molli Require Import Model.Graph Model.Match Proofs.Graph Proofs.GraphTop Proofs.GraphAdj Proofs.Match Gen.MatchPreds.
From Molli Require Import Model.GraphSession Proofs.GraphSession.
Open Scope nat_scope.
Import ListNotations.

(* Clause 1, breadth-first traversal, for EVERY bond list and start atom. *)
(* it terminates within the model's fuel: the out-of-fuel result is impossible *)
Theorem C15_bfs_total : forall g s, exists out, yield_bfsd g s None = BOk out.
Proof. intros g s. destruct (yield_bfsd_fifo g s None) as (o & _ & E). eauto. Qed.
Print Assumptions C15_bfs_total.

(* every other atom of the component exactly once, non-decreasing labels, label = graph distance *)
Theorem C15_bfs_sound_complete : forall g s out, yield_bfsd g s None = BOk out ->
  NoDup (map fst out) /\ ~ In s (map fst out) /\
  StronglySorted le (map snd out) /\
  (forall v, In v (map fst out) <-> reach g s v /\ v <> s) /\
  (forall v d, In (v, d) out -> is_dist g s v d).
Proof. exact yield_bfsd_correct. Qed.
Print Assumptions C15_bfs_sound_complete.

(* Clause 2, the traversal with a direction. *)
(* the call succeeds exactly when the direction is bonded to the start; otherwise the assertion fires *)
Theorem C15_bfs_directed_defined : forall g s d,
  ((exists out, yield_bfsd g s (Some d) = BOk out) <-> adj g s d) /\
  (yield_bfsd g s (Some d) = BAssert <-> ~ adj g s d).
Proof. exact yield_bfsd_dir_defined. Qed.
Print Assumptions C15_bfs_directed_defined.

(* exactly the atoms reachable through d without passing the start *)
Theorem C15_bfs_directed : forall g s d out, d <> s -> yield_bfsd g s (Some d) = BOk out ->
  exists rest, out = (d, 1) :: rest /\
  NoDup (map fst out) /\ ~ In s (map fst out) /\
  StronglySorted le (map snd out) /\
  (forall v, In v (map fst out) <-> reach (remove_vertex g s) d v) /\
  (forall v k, In (v, k) out -> exists k0, k = S k0 /\ is_dist (remove_vertex g s) d v k0).
Proof. exact yield_bfsd_dir_correct. Qed.
Print Assumptions C15_bfs_directed.

(* yield_bfs (a second copy of the loop in the code) is yield_bfsd with the labels dropped *)
Theorem C15_bfs_nodist : forall g s dir,
  yield_bfs g s dir = match yield_bfsd g s dir with
                      | BOk l => BOk (map fst l) | BAssert => BAssert | BFuel => BFuel end.
Proof. exact yield_bfs_erases. Qed.
Print Assumptions C15_bfs_nodist.

(* Clause 3, ring perception. *)
Theorem C15_ring_iff_not_bridge : forall g x y, x <> y -> adj g x y ->
  (exists r, is_bond_in_ring g (x, y) = Some r) /\
  (is_bond_in_ring g (x, y) = Some true <-> reach (remove_bond g x y) x y) /\
  (is_bond_in_ring g (x, y) = Some false <-> ~ reach (remove_bond g x y) x y).
Proof.
  intros g x y Hxy Ha. pose proof (ring_iff_not_bridge g x y Hxy Ha) as H.
  split; [now apply is_bond_in_ring_total|]. split; [exact H|].
  destruct (is_bond_in_ring_total g x y Ha) as [[|] E]; rewrite E in *.
  - split; [discriminate|]. intros Hn. exfalso. apply Hn. now apply H.
  - split; [|reflexivity]. intros _ Hc. apply H in Hc. discriminate.
Qed.
Print Assumptions C15_ring_iff_not_bridge.

(* in a simple graph (no self loops, at most one bond per pair -- the molecular graphs of the property)
   `remove_bond g x y` is g minus exactly that one bond, so the clause above reads: in a ring <-> not a bridge *)
Theorem C15_remove_bond_simple : forall g x y, simple g -> adj g x y -> S (length (remove_bond g x y)) = length g.
Proof.
  intros g x y [_ Hc] Ha. pose proof (count_joins_remove_bond g x y). pose proof (adj_count_joins g x y Ha).
  specialize (Hc x y). lia.
Qed.
Print Assumptions C15_remove_bond_simple.

(* Clause 4, the adjacency accessors are folds over the bond list. *)
Theorem C15_adjacency_agrees : forall g a,
  bonds_with_atom g a = filter (incident g a) (seq 0 (length g)) /\
  (forall i, In i (bonds_with_atom g a) <-> exists b, nth_error g i = Some b /\ (fst b = a \/ snd b = a)) /\
  connected_atoms g a = map (fun i => bond_other (bond_at g i) a) (bonds_with_atom g a) /\
  (forall b, In b (connected_atoms g a) <-> adj g a b) /\
  n_bonds_with_atom g a = length (filter (fun b => bond_has b a) g) /\
  (forall ord, (bonded_valence g ord a ==
     fold_left Qplus (map (fun i => if incident g a i then ord i else 0) (seq 0 (length g))) 0)%Q).
Proof.
  intros g a. split; [apply bonds_with_atom_filter|]. split; [apply bonds_with_atom_spec|].
  split; [apply connected_atoms_bonds|]. split; [apply connected_atoms_adj|].
  split; [apply n_bonds_with_atom_count|]. intros ord. apply bonded_valence_sum.
Qed.
Print Assumptions C15_adjacency_agrees.

(* in a simple graph no neighbour is listed twice *)
Theorem C15_connected_atoms_nodup : forall g a, simple g -> NoDup (connected_atoms g a).
Proof. exact connected_atoms_nodup. Qed.
Print Assumptions C15_connected_atoms_nodup.

(* degree sum: on atoms 0..n-1 without self loops the bond counts add up to twice the number of bonds *)
Theorem C15_handshake : forall n g,
  (forall b, In b g -> fst b < n /\ snd b < n /\ fst b <> snd b) ->
  list_sum (map (n_bonds_with_atom g) (seq 0 n)) = 2 * length g.
Proof. exact handshake. Qed.
Print Assumptions C15_handshake.

(* Bond.order, regenerated table (all 15 bond types x 3 fractional orders): the model's bond_order is the code's *)
Theorem C15_bond_order_table :
  forall bt f o, In (bt, f, o) order_rows -> (bond_order bt f == o)%Q.
Proof.
  assert (H : forallb (fun r => Qeq_bool (bond_order (fst (fst r)) (snd (fst r))) (snd r)) order_rows = true)
    by (vm_compute; reflexivity).
  intros bt f o Hin. rewrite forallb_forall in H. apply Qeq_bool_iff. exact (H _ Hin).
Qed.
Print Assumptions C15_bond_order_table.

(* Clause 5, substructure matching. *)
(* The model predicates ARE the code's _node_match / _edge_match on the whole regenerated grid
   (3 elements x 3 isotopes x 4 stereo x 3 atom types, squared; 15 bond types x 3 stereo x 3 labels, squared) *)
Theorem C15_node_match_table : node_table (atom_grid el_axis iso_axis ast_axis aty_axis) = node_obs.
Proof. vm_compute. reflexivity. Qed.
Print Assumptions C15_node_match_table.

(* edge predicate: agreement on every grid cell whose PATTERN bond type is one _edge_match implements
   (Unknown, Single, Double, Triple, Aromatic, Amide, NotConnected).  For the other pattern types the code
   raises NotImplementedError -- recorded finding C15:match:raises-NotImplementedError; that region is left
   unspecified here so that a repair does not disturb this theorem. *)
Theorem C15_edge_match_table :
  let ps := edge_pairs (bond_grid bt_axis bst_axis lab_axis) in
  length edge_obs = length ps /\
  forall k e1 e2, nth_error ps k = Some (e1, e2) -> supported_bt (mb_btype e2) = true ->
                  nth_error edge_obs k = Some (code_of_edge (edge_match e1 e2)).
Proof. apply edge_agree_nth. vm_compute. reflexivity. Qed.
Print Assumptions C15_edge_match_table.

(* with a supported pattern no edge comparison raises *)
Theorem C15_match_defined : forall P, supported_pattern P = true ->
  forall e1 e2, In e2 (mg_bonds P) -> exists r, edge_match e1 e2 = Some r.
Proof.
  intros P HP e1 e2 H2. unfold supported_pattern in HP. rewrite forallb_forall in HP.
  apply edge_match_defined. now apply HP.
Qed.
Print Assumptions C15_match_defined.

(* reference semantics: the enumerator that molli's match()/get_substr_indices() are compared with returns
   exactly the induced embeddings -- none invalid, none missed, none twice.
   PARTIAL w.r.t. the implementation: the search itself is networkx VF2, which is not modelled; agreement of
   molli's output with `enum` is established differentially (kernel-checked shards, supported patterns on
   simple graphs), not by proof.  The full statement would be
     forall H P, simple H -> simple P -> supported_pattern P = true ->
       Permutation (molli_get_substr_indices H P) (enum H P)
   and needs a model of networkx.GraphMatcher. *)
Theorem C15_match_reference_partial : forall H P,
  (forall f, In f (enum H P) <-> embedding H P f) /\ NoDup (enum H P).
Proof. intros H P. split; [intros f; apply enum_sound_complete|apply enum_nodup]. Qed.
Print Assumptions C15_match_reference_partial.

(* for plain patterns the embeddings are the property's wording verbatim: injective, elements respected
   (Unknown matches any), bonded <-> bonded *)
Theorem C15_match_plain : forall H P f,
  (forall i, i < length (mg_atoms P) -> plain_atom (atom_at P i)) ->
  (forall e, In e (mg_bonds P) -> plain_bond e) -> typed_host H ->
  (In f (enum H P) <-> plain_embedding H P f).
Proof.
  intros H P f Ha Hb Ht. rewrite enum_sound_complete. unfold embedding, plain_embedding.
  split; intros (L & F & N & Hn & Hp); (split; [exact L|split; [exact F|split; [exact N|split]]]).
  - intros i Hi. apply node_match_plain; auto.
  - intros i j Hi Hj Hne. apply (Hp i j); auto.
  - intros i Hi. apply node_match_plain; auto.
  - intros i j Hi Hj Hne. split; [apply (Hp i j); auto|].
    intros e2 e1 H2 _ H1 _. apply edge_match_plain; auto.
Qed.
Print Assumptions C15_match_plain.

(* Clause 6, "any molecular graph" is the graph the object holds NOW: sessions of queries and in-place edits. *)
(* Model/GraphSession.v: one host object and some pattern objects are edited in place (attribute assignment on an
   atom / a bond, connect, del_bond, add atom, del_atom) and asked the queries above at any point in between.
   A session accepted by the checker (the function the correspondence shards evaluate on what molli answered)
   certifies: EVERY answer recorded ANYWHERE in it is the model's answer on the state produced by the edits made
   before it -- no answer depends on what was asked earlier.  So clauses 1-5 hold of every answer given at any
   point of the object's history, with g := the bond list as edited so far. *)
Theorem C15_session_sound : forall c, check_scase c = true ->
  forall pre x post, sc_steps c = pre ++ x :: post ->
  step_holds (world_after (sc_host c, sc_pats c) pre) x.
Proof. exact session_sound. Qed.
Print Assumptions C15_session_sound.

Theorem C15_session_bfs_now : forall c, check_scase c = true ->
  forall pre post qs, sc_steps c = pre ++ SQuery qs :: post ->
  forall s out, In (QBfsd s None (BOk out)) qs ->
  let g := ss_graph (fst (world_after (sc_host c, sc_pats c) pre)) in
  NoDup (map fst out) /\ ~ In s (map fst out) /\ StronglySorted le (map snd out) /\
  (forall v, In v (map fst out) <-> reach g s v /\ v <> s) /\
  (forall v d, In (v, d) out -> is_dist g s v d).
Proof. intros c Hc pre post qs E s out Hq g. apply yield_bfsd_correct. exact (now_holds c pre qs post _ Hc E Hq). Qed.
Print Assumptions C15_session_bfs_now.

Theorem C15_session_bfs_dir_now : forall c, check_scase c = true ->
  forall pre post qs, sc_steps c = pre ++ SQuery qs :: post ->
  forall s d out, d <> s -> In (QBfsd s (Some d) (BOk out)) qs ->
  let g := ss_graph (fst (world_after (sc_host c, sc_pats c) pre)) in
  adj g s d /\ NoDup (map fst out) /\ (forall v, In v (map fst out) <-> reach (remove_vertex g s) d v).
Proof.
  intros c Hc pre post qs E s d out Hds Hq g.
  pose proof (now_holds c pre qs post _ Hc E Hq : yield_bfsd g s (Some d) = BOk out) as H.
  split; [apply yield_bfsd_dir_defined; eauto|].
  destruct (yield_bfsd_dir_correct g s d out Hds H) as (rest & _ & Hnd & _ & _ & Hr & _). now split.
Qed.
Print Assumptions C15_session_bfs_dir_now.

Theorem C15_session_ring_now : forall c, check_scase c = true ->
  forall pre post qs, sc_steps c = pre ++ SQuery qs :: post ->
  forall bi x y r, In (QRing bi (Some r)) qs ->
  let g := ss_graph (fst (world_after (sc_host c, sc_pats c) pre)) in
  nth_error g bi = Some (x, y) -> x <> y -> (r = true <-> reach (remove_bond g x y) x y).
Proof.
  intros c Hc pre post qs E bi x y r Hq g Hb Hxy. destruct (now_holds c pre qs post _ Hc E Hq) as [b [Hb' Hr]].
  fold g in Hb', Hr. rewrite Hb in Hb'. injection Hb' as <-.
  assert (Ha : adj g x y) by (left; eapply nth_error_In; eassumption).
  rewrite <- (ring_iff_not_bridge g x y Hxy Ha), Hr. split; [now intros ->|now intros [= ->]].
Qed.
Print Assumptions C15_session_ring_now.

Theorem C15_session_adjacency_now : forall c, check_scase c = true ->
  forall pre post qs, sc_steps c = pre ++ SQuery qs :: post ->
  forall a, let g := ss_graph (fst (world_after (sc_host c, sc_pats c) pre)) in
  (forall obs, In (QConn a obs) qs -> forall b, In b obs <-> adj g a b) /\
  (forall obs, In (QBonds a obs) qs -> forall i, In i obs <-> exists b, nth_error g i = Some b /\ (fst b = a \/ snd b = a)) /\
  (forall n, In (QNb a n) qs -> n = length (filter (fun b => bond_has b a) g)).
Proof.
  intros c Hc pre post qs E a g. pose proof (fun q => now_holds c pre qs post q Hc E) as Hq. fold g in Hq.
  split; [|split]; intros obs Hin; apply Hq in Hin; cbn [query_holds] in Hin; subst obs.
  - apply connected_atoms_adj.
  - apply bonds_with_atom_spec.
  - apply n_bonds_with_atom_count.
Qed.
Print Assumptions C15_session_adjacency_now.

(* matching: host AND pattern as they are now (reference semantics; PARTIAL w.r.t. VF2 exactly as clause 5) *)
Theorem C15_session_match_now : forall c, check_scase c = true ->
  forall pre k obs post, sc_steps c = pre ++ SMatch k obs :: post ->
  let w := world_after (sc_host c, sc_pats c) pre in
  NoDup obs /\ forall f, In f obs <-> embedding (ss_mgraph (fst w)) (ss_mgraph (pat_at w k)) f.
Proof. intros c Hc pre k obs post E. exact (session_sound c Hc pre (SMatch k obs) post E). Qed.
Print Assumptions C15_session_match_now.

(* what the edits do to the graph the clauses speak of: attribute assignments and a new unbonded atom leave the
   topology (hence every BFS / ring / adjacency answer) alone and keep both counts; connect adds exactly one
   adjacency; del_bond on a simple graph is `remove_bond` of its end points *)
Theorem C15_edit_keeps_topology : forall s,
  (forall i a, ss_graph (apply_edit (ESetAtom i a) s) = ss_graph s) /\
  (forall i bt st lab f, ss_graph (apply_edit (ESetBond i bt st lab f) s) = ss_graph s) /\
  (forall a, ss_graph (apply_edit (EAddAtom a) s) = ss_graph s).
Proof.
  intros s. split; [reflexivity|]. split; [|reflexivity].
  intros i bt st lab f. unfold ss_graph. cbn [apply_edit ss_bonds]. apply map_upd_nth. reflexivity.
Qed.
Print Assumptions C15_edit_keeps_topology.

Theorem C15_edit_keeps_counts : forall s,
  (forall i a, counts (apply_edit (ESetAtom i a) s) = counts s) /\
  (forall i bt st lab f, counts (apply_edit (ESetBond i bt st lab f) s) = counts s).
Proof. split; intros; unfold counts; cbn [apply_edit ss_atoms ss_bonds]; now rewrite length_upd_nth. Qed.
Print Assumptions C15_edit_keeps_counts.

Theorem C15_edit_connect_adj : forall s b f x y,
  adj (ss_graph (apply_edit (EConnect b f) s)) x y <-> adj (ss_graph s) x y \/ joins (mb_a1 b, mb_a2 b) x y = true.
Proof. intros s b f x y. unfold ss_graph. cbn [apply_edit ss_bonds]. rewrite map_app. apply adj_app. Qed.
Print Assumptions C15_edit_connect_adj.

Theorem C15_edit_del_bond : forall s i a b, simple (ss_graph s) -> nth_error (ss_graph s) i = Some (a, b) ->
  ss_graph (apply_edit (EDelBond i) s) = remove_bond (ss_graph s) a b /\
  (forall x y, adj (ss_graph (apply_edit (EDelBond i) s)) x y <->
               adj (ss_graph s) x y /\ ~ (x = a /\ y = b) /\ ~ (x = b /\ y = a)).
Proof.
  intros s i a b Hs Hn.
  assert (E : ss_graph (apply_edit (EDelBond i) s) = remove_bond (ss_graph s) a b).
  { unfold ss_graph at 1. cbn [apply_edit ss_bonds]. rewrite map_remove_nth. now apply remove_nth_remove_bond. }
  split; [exact E|]. intros x y. rewrite E. apply adj_remove_bond.
Qed.
Print Assumptions C15_edit_del_bond.

(* (number of atoms, number of bonds) does not identify the graph: halogen exchange in place, moving a substituent
   (del_bond + connect) and an edited pattern keep both counts and change what matching / BFS must answer *)
Theorem C15_count_stamp_insufficient :
  counts (apply_edit ex_halex ex_host) = counts ex_host /\
  enum (ss_mgraph ex_host) (ss_mgraph ex_ccl) = [[1; 0]] /\
  enum (ss_mgraph (apply_edit ex_halex ex_host)) (ss_mgraph ex_ccl) = [] /\
  counts (ex_move ex_host) = counts ex_host /\
  yield_bfsd (ss_graph ex_host) 5 None = BOk [(4,1); (3,2); (2,3); (1,4); (0,5)] /\
  yield_bfsd (ss_graph (ex_move ex_host)) 5 None = BOk [(2,1); (1,2); (3,2); (0,3); (4,3)] /\
  counts (apply_edit (ESetAtom 1 (mk_matom 8 None 0 1)) ex_ccl) = counts ex_ccl /\
  enum (ss_mgraph ex_host) (ss_mgraph (apply_edit (ESetAtom 1 (mk_matom 8 None 0 1)) ex_ccl)) = [[4; 5]].
Proof. repeat (split; [vm_compute; reflexivity|]). vm_compute. reflexivity. Qed.
Print Assumptions C15_count_stamp_insufficient.

(* non-vacuity: a session with every kind of step is accepted, and the same session with a stale answer is not *)
Example C15_session_example :
  check_scase ex_session = true /\
  check_scase (mk_scase ex_host [ex_ccl] [SMatch 0 [[1; 0]]; SHost ex_halex; SMatch 0 [[1; 0]]]) = false /\
  simple (ss_graph ex_host) /\ nth_error (ss_graph ex_host) 4 = Some (4, 5).
Proof.
  split; [exact ex_session_accepted|]. split; [exact (proj1 ex_session_stale_rejected)|].
  split; [apply simple_b_sound; vm_compute; reflexivity|reflexivity].
Qed.

(* Non-vacuity: the hypotheses are met by real molecules-as-graphs and every branch is reached. *)
Example C15_examples :
  (* a 4-ring with a pendant atom and a separate fragment *)
  let g := [(0,1); (2,1); (2,3); (3,0); (3,4); (5,6)] in
  yield_bfsd g 0 None = BOk [(1,1); (3,1); (2,2); (4,2)] /\
  yield_bfsd g 3 (Some 4) = BOk [(4,1)] /\
  yield_bfsd g 3 (Some 2) = BOk [(2,1); (1,2); (0,3)] /\
  yield_bfsd g 0 (Some 2) = BAssert /\
  yield_bfs g 5 None = BOk [6] /\
  is_bond_in_ring g (2,1) = Some true /\ is_bond_in_ring g (3,4) = Some false /\
  is_bond_in_ring g (5,6) = Some false /\
  simple g /\ adj g 2 1 /\ 2 <> 1.
Proof.
  cbv zeta. repeat (split; [vm_compute; reflexivity|]). split; [|split; [left; simpl; tauto|discriminate]].
  apply simple_b_sound. vm_compute. reflexivity.
Qed.

Example C15_match_examples :
  let c := mk_matom 6 None 0 1 in let n := mk_matom 7 None 0 1 in let x := mk_matom 0 None 0 1 in
  let sb a b := mk_mbond a b 1 0 None in
  let tri := mk_mgraph [c; c; n] [sb 0 1; sb 1 2; sb 2 0] in
  let path := mk_mgraph [c; x; c] [sb 0 1; sb 1 2] in
  let edge := mk_mgraph [c; x] [sb 0 1] in
  enum tri path = [] /\                                   (* a path is not an INDUCED subgraph of a triangle *)
  enum tri edge = [[0; 1]; [0; 2]; [1; 0]; [1; 2]] /\
  enum path tri = [] /\
  (forall i, i < 2 -> plain_atom (atom_at edge i)) /\ (forall e, In e (mg_bonds edge) -> plain_bond e) /\ typed_host tri.
Proof.
  cbv zeta. split; [vm_compute; reflexivity|]. split; [vm_compute; reflexivity|]. split; [vm_compute; reflexivity|].
  split; [|split].
  - intros i Hi. destruct i as [|[|i]]; [split; reflexivity|split; reflexivity|lia].
  - intros e [<-|[]]. repeat split; auto.
  - intros e [<-|[<-|[<-|[]]]]; vm_compute; discriminate.
Qed.
