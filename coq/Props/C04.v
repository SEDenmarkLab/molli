(* C04 -- concurrent library sessions are serialised and survive failing sessions.
   The one-step theorems and helper lemmas live in Proofs/Session*.v.  Gen/SessionSkel.v (control skeleton of reading()/writing(), from the AST) and
   Gen/SessionFaults.v (the real context managers run under every fault vector) are regenerated each run. *)
From Coq Require Import NArith List Bool String.
Import ListNotations.
From Molli Require Import Common.Exc Proofs.Exc Model.UKV Proofs.UKVBase Proofs.UKV
     Model.Session Proofs.Session Proofs.SessionTop Gen.SessionSkel Gen.SessionFaults.
Open Scope string_scope.

(* For EVERY assignment of faults to the steps of writing() -- the readonly guard, the acquire, begin_write,
   update_keys, the user's body (incl. a raising value encoder), the flush at exit, end_write, in any combination:
   no exception is swallowed; if the lock was acquired then release is executed and is the last step, and it
   is never released otherwise; if begin_write succeeded then flush and end_write are executed before the
   release; the body only runs with the lock held and the file open. *)
Theorem C04_writing_session_contract : forall faults, wsess_ok (exec faults writing_prog) = true.
Proof. apply (forall_faults_sound writing_prog (fun _ r => wsess_ok r)); [reflexivity|vm_compute; reflexivity]. Qed.
Print Assumptions C04_writing_session_contract.

Theorem C04_reading_session_contract : forall faults, rsess_ok (exec faults reading_prog) = true.
Proof. apply (forall_faults_sound reading_prog (fun _ r => rsess_ok r)); [reflexivity|vm_compute; reflexivity]. Qed.
Print Assumptions C04_reading_session_contract.

(* The skeleton is the code's: on every fault vector (2^7 for writing, 2^5 for reading) the trace of the REAL
   context manager equals the denotation of the extracted program, the lock was observed free from another
   process afterwards, and the file was closed.  The extractor did not refuse anything. *)
Theorem C04_skeleton_is_the_code :
  table_ok writing_prog "release_write_lock" writing_rows = true /\
  table_ok reading_prog "release_read_lock" reading_rows = true /\
  extraction_refused = false.
Proof. vm_compute. repeat split; reflexivity. Qed.
Print Assumptions C04_skeleton_is_the_code.

(* Opening a handle is a session of its own: on every configuration (file exists?, overwrite?, readonly?) the real
   constructor creates / re-creates the library file only with the inter-process write lock held and, unless
   overwrite was requested, only after having looked for the file INSIDE that lock hold; a missing library is
   created, an existing one is re-created iff overwrite; the lock is released at the end. *)
Theorem C04_constructor_critical_section : ctor_table_ok ctor_rows = true.
Proof. vm_compute. reflexivity. Qed.
Print Assumptions C04_constructor_critical_section.

(* why the look must be inside the lock: the same creation with the look taken before the lock is rejected *)
Example C04_stale_look_refuted :
  ctor_scan false false false ["exists"; "acquire"; "create"; "release"] = false /\
  ctor_scan false false false ["acquire"; "exists"; "create"; "release"] = true.
Proof. vm_compute. split; reflexivity. Qed.

(* One transition of the lock/process system: the UKV operation it performs is allowed by the session
   discipline assumed in C02 (so the lock is what establishes that assumption), and the invariant
   (writer excludes everybody; an open handle belongs to the current session of a lock holder) is kept. *)
Theorem C04_lock_implies_discipline : forall s l s' r,
  J s -> lstep s l = Some (s', r) ->
  J s' /\
  match label_op s l with
  | Some o => ok_op (lw s) o /\ step (lw s) o = (lw s', r)
  | None => lw s' = lw s
  end.
Proof. exact lstep_sound. Qed.
Print Assumptions C04_lock_implies_discipline.

(* Serialisability: along EVERY schedule (labels that are not enabled are refused = the caller blocks or times
   out) the file stays header ++ complete records of an insert-only map, and every outcome is the one the
   abstract map gives at that point of the trace: no record of any session is lost or altered, a reader's get
   returns the exact bytes of a complete record. *)
Theorem C04_serialised : forall H ls s rs,
  J s -> Inv H rs (lw s) ->
  exists rs', J (snd (lrun s ls)) /\ Inv H rs' (lw (snd (lrun s ls))) /\ lrun_spec rs s ls (fst (lrun s ls)) rs'.
Proof.
  intros H. induction ls as [|l ls IH]; intros s rs Js I; [exists rs; simpl; auto|].
  rewrite lrun_cons. cbn [lrun_spec]. destruct (lstep s l) as [[s' r]|] eqn:E; cbn [fst snd]; rewrite ?E.
  - destruct (lstep_sound s l s' r Js E) as [Js' Hop]. destruct (label_op s l) as [op|].
    + destruct Hop as [Hok Hst].
      destruct (step_refines H rs (lw s) op I Hok) as [rs1 [I1 [S1 _]]]. rewrite Hst in I1, S1.
      destruct (IH s' rs1 Js' I1) as [rs2 [J2 [I2 R2]]]. exists rs2. eauto 6.
    + rewrite <- Hop in I. destruct (IH s' rs Js' I) as [rs2 [J2 [I2 R2]]]. exists rs2. auto.
  - destruct (IH s rs Js I) as [rs2 [J2 [I2 R2]]]. exists rs2. auto.
Qed.
Print Assumptions C04_serialised.

Theorem C04_mutex : forall ls s, J s ->
  forall p q, p <> q -> plock (pnth (procs (snd (lrun s ls))) p) = LWrite ->
              plock (pnth (procs (snd (lrun s ls))) q) = LFree.
Proof. intros ls s Js. apply j_mutex, lrun_J, Js. Qed.
Print Assumptions C04_mutex.

Theorem C04_writer_alone : forall s i, J s ->
  closed (hnth (snd (lw s)) i) = false -> md (hnth (snd (lw s)) i) = MA ->
  forall j, j <> i -> closed (hnth (snd (lw s)) j) = true.
Proof.
  intros s i Js Hc Hm j Hj. destruct (closed (hnth (snd (lw s)) j)) eqn:Hcj; [reflexivity|exfalso].
  destruct (j_open s Js i Hc) as [A [_ C]]. set (p := nth i _ _) in *.
  destruct (J_excl s p j Js Hcj) as [W _]; [rewrite A; congruence|exact (W (C Hm))].
Qed.
Print Assumptions C04_writer_alone.

Theorem C04_initial : forall f n m ow, J (mkl (f, repeat h0 n) (repeat p0 m) ow).
Proof. exact J_init. Qed.
Print Assumptions C04_initial.

(* no lock leak in the model: once every process has released, anybody can acquire in either mode *)
Theorem C04_progress : forall s p w,
  (p < List.length (procs s))%nat -> (forall q, plock (pnth (procs s) q) = LFree) ->
  exists s', lstep s (LAcq p w) = Some (s', ROk) /\ plock (pnth (procs s') p) = (if w then LWrite else LRead).
Proof. exact acquire_enabled_when_free. Qed.
Print Assumptions C04_progress.

(* Non-vacuity: two processes, three handles; the second writer is refused while the first is inside its
   session, proceeds after the release, and the reader then sees both records. *)
Example C04_nonvacuous :
  let H := mk_header (repeat 77%N 16) [] [] in
  fst (lrun (mkl (H, repeat h0 3) (repeat p0 2) [0; 1; 1]%nat)
        [LAcq 0 true; LOpen 0 0; LDo 0 (Put 0 [1%N] [2%N]); LAcq 1 true; LAcq 1 false; LClose 0; LRel 0;
         LAcq 1 true; LOpen 1 1; LDo 1 (Put 1 [3%N] [4%N]); LClose 1; LRel 1;
         LAcq 1 false; LOpen 1 2; LDo 1 (Keys 2); LDo 1 (Get 2 [1%N])])
  = [Done ROk; Done ROk; Done ROk; Refused; Refused; Done ROk; Done ROk;
     Done ROk; Done ROk; Done ROk; Done ROk; Done ROk;
     Done ROk; Done ROk; Done (RKeys [[1%N]; [3%N]]); Done (RVal [2%N])].
Proof. vm_compute. reflexivity. Qed.

(* The schedule may kill any process at any point (DDie p n): its lock is released (assumed fcntl semantics), its
   handle is gone, and if it was inside a writing session the file keeps max(base, n) bytes for ANY n -- C03's
   crash model inside C04's transition system.  JD H cm rs s: the lock invariant J, the file is
   H ++ blocks rs ++ (a torn tail no open handle ever shows), cm = the committed records, rs = cm ++ what the
   writing session in progress appended so far. *)
From Molli Require Import Proofs.UKVTorn Model.SessionDeath Proofs.SessionDeath.
Open Scope list_scope.

(* one step, death included: the invariant is kept, COMMITTED RECORDS ONLY GROW (cm' = cm ++ qs), a living
   process's step has exactly the abstract map's outcome on the complete records (so a reader never sees a torn
   or partial record), and a death keeps every committed record and a prefix of the dying session's records *)
Theorem C04_death_step : forall H cm rs s l s' r,
  JD H cm rs s -> dstep s l = Some (s', r) ->
  exists cm' rs', JD H cm' rs' s' /\ (exists qs, cm' = cm ++ qs) /\ dstep_spec cm rs s l r rs'.
Proof. exact dstep_sound. Qed.
Print Assumptions C04_death_step.

(* every schedule over any number of processes, with any number of deaths at any points *)
Theorem C04_death_safe : forall H ls s cm rs,
  JD H cm rs s ->
  (exists cm' rs', JD H cm' rs' (snd (drun s ls)) /\ exists qs, cm' = cm ++ qs) /\
  drun_spec cm rs s ls (fst (drun s ls)).
Proof.
  intros H. induction ls as [|l ls IH]; intros s cm rs D; [split; [exists cm, rs; split; [exact D|apply ext_refl]|exact Logic.I]|].
  rewrite drun_cons. cbn [drun_spec]. destruct (dstep s l) as [[s' r]|] eqn:E; cbn [fst snd]; rewrite ?E.
  - destruct (dstep_sound H cm rs s l s' r D E) as [cm1 [rs1 [D1 [[q1 ->] S1]]]].
    destruct (IH s' _ rs1 D1) as [[cm2 [rs2 [D2 [q2 ->]]]] R2]. split.
    + exists ((cm ++ q1) ++ q2), rs2. split; [exact D2|]. exists (q1 ++ q2). symmetry. apply app_assoc.
    + split; [reflexivity|]. exists (cm ++ q1), rs1. eauto.
  - destruct (IH s cm rs D) as [A R]. auto.
Qed.
Print Assumptions C04_death_safe.

(* it starts from any well-formed library, also one that still carries the torn tail of an earlier death *)
Theorem C04_death_initial : forall H rs tl n m ow,
  hdr_ok H -> Forall wfkv rs -> NoDup (map fst rs) -> torn tl ->
  JD H rs rs (mkd (mkl (H ++ blocks rs ++ tl, repeat h0 n) (repeat p0 m) ow) None).
Proof.
  intros H rs tl n m ow Hh Hwf Hnd Ht.
  apply (JD_idle H rs tl); simpl; [apply J_init| |intros i; unfold hnth; rewrite nth_repeat; reflexivity].
  constructor; simpl; try assumption; try reflexivity; intros; unfold hnth in *; rewrite nth_repeat in *; (apply snap_h0 || discriminate).
Qed.
Print Assumptions C04_death_initial.

(* what JD says about the file and the handles: while a torn tail is present nobody is inside a writing session,
   and the first writer that opens cuts it (the C02 invariant Inv holds again: tl = []) *)
Theorem C04_death_file : forall H cm rs s, JD H cm rs s ->
  exists tl, fst (lw (dl s)) = H ++ blocks rs ++ tl /\ torn tl /\
             (forall i, closed (hnth (snd (lw (dl s))) i) = false -> full H rs (hnth (snd (lw (dl s))) i)) /\
             (tl <> [] -> forall i, closed (hnth (snd (lw (dl s))) i) = false -> md (hnth (snd (lw (dl s))) i) = MR) /\
             (dbase s <> None -> tl = [] /\ Inv H rs (lw (dl s))).
Proof.
  intros H cm rs s D. destruct (jd_inv _ _ _ _ D) as [tl [I Ht]]. exists tl.
  split; [apply (it_file _ _ _ _ I)|]. split; [apply (it_torn _ _ _ _ I)|]. split; [apply (it_open _ _ _ _ I)|].
  split; [apply (it_nowriter _ _ _ _ I)|]. intros Hb. pose proof (Ht Hb) as E. split; [exact E|].
  subst tl. apply invT_inv. exact I.
Qed.
Print Assumptions C04_death_file.

(* the dead process's lock is free: if nobody else holds it, anybody can acquire in either mode *)
Theorem C04_death_releases_lock : forall s p n s' r,
  dstep s (DDie p n) = Some (s', r) ->
  plock (pnth (procs (dl s')) p) = LFree /\
  (forall q, q <> p -> pnth (procs (dl s')) q = pnth (procs (dl s)) q) /\
  ((forall q, q <> p -> plock (pnth (procs (dl s)) q) = LFree) ->
   forall q w, (q < List.length (procs (dl s')))%nat ->
     exists s'', lstep (dl s') (LAcq q w) = Some (s'', ROk) /\ plock (pnth (procs s'') q) = (if w then LWrite else LRead)).
Proof.
  intros s p n s' r E. simpl in E.
  destruct (Nat.ltb p (List.length (procs (dl s)))) eqn:Lp; [|discriminate]. apply PeanoNat.Nat.ltb_lt in Lp.
  assert (Hps : procs (dl s') = upd (procs (dl s)) p p0).
  { destruct (pcur (pnth (procs (dl s)) p)); [destruct (Nat.ltb _ _); [|discriminate]; destruct (is_writer _); [destruct (dbase s)|]|];
    injection E as <- _; reflexivity. }
  assert (Hq : forall q, q <> p -> pnth (procs (dl s')) q = pnth (procs (dl s)) q) by (intros q Hq; rewrite Hps; apply pnth_upd_other; assumption).
  assert (Hp : plock (pnth (procs (dl s')) p) = LFree) by (rewrite Hps, pnth_upd_same by exact Lp; reflexivity).
  split; [exact Hp|split; [exact Hq|]]. intros Hfree q w Hlt. apply acquire_enabled_when_free; [exact Hlt|].
  intros a. destruct (PeanoNat.Nat.eq_dec a p) as [->|Ha]; [exact Hp|rewrite Hq by exact Ha; apply Hfree; exact Ha].
Qed.
Print Assumptions C04_death_releases_lock.

(* Non-vacuity: a writer puts two records and dies when only 9 bytes of its session reached the file (the first
   record, 7 bytes, and 2 bytes of the second): a reader in another process sees exactly the first record, the
   next writer appends behind it (the torn bytes are cut), and the final reader sees both complete records. *)
Example C04_death_nonvacuous :
  let H := mk_header (repeat 77%N 16) [] [] in
  let base := N.of_nat (List.length H) in
  let out := drun (mkd (mkl (H, repeat h0 3) (repeat p0 3) [0; 1; 2]%nat) None)
        [DL (LAcq 0 true); DL (LOpen 0 0); DL (LDo 0 (Put 0 [1%N] [2%N])); DL (LDo 0 (Put 0 [3%N] [4%N; 5%N]));
         DL (LAcq 1 false);                      (* refused: the writer holds the lock *)
         DDie 0 (base + 9);
         DL (LAcq 1 false); DL (LOpen 1 1); DL (LDo 1 (Keys 1)); DL (LDo 1 (Get 1 [3%N])); DL (LClose 1); DL (LRel 1);
         DL (LAcq 2 true); DL (LOpen 2 2); DL (LDo 2 (Put 2 [3%N] [6%N])); DL (LClose 2); DL (LRel 2);
         DL (LAcq 1 false); DL (LOpen 1 1); DL (LDo 1 (Keys 1)); DL (LDo 1 (Get 1 [3%N]))] in
  fst out = [Done ROk; Done ROk; Done ROk; Done ROk; Refused; Done ROk;
             Done ROk; Done ROk; Done (RKeys [[1%N]]); Done (RErr EKey); Done ROk; Done ROk;
             Done ROk; Done ROk; Done ROk; Done ROk; Done ROk;
             Done ROk; Done ROk; Done (RKeys [[1%N]; [3%N]]); Done (RVal [6%N])]
  /\ fst (lw (dl (snd out))) = H ++ encb [1%N] [2%N] ++ encb [3%N] [6%N].
Proof. vm_compute. split; reflexivity. Qed.
