(* C10 -- damaged or truncated input is rejected, never returned as a partial molecule.  Property theorems only.

   Readers: Model/Parse.v (one line per step, folded over the lines).  `load_xyz_lines` / `load_mol2_lines` are
   read_xyz / read_mol2 followed by the block -> molecule conversion of yield_from_xyz / yield_from_mol2; `Err`
   stands for "an exception".  A text is WELL FORMED in the readers' own terms (xwf_text / m2wf_text: count
   lines that int() accepts, record lines the record parsers accept), so the theorems cover bundled files as
   well as what molli writes; C10_written_* instantiate them with the xyz writer model (Gen tables, tie T).
   The correspondence shards (tie H) evaluate exactly these definitions against the implementation. *)
From Coq Require Import List Bool ZArith NArith String Lia.
From Molli Require Import Common.ParseStr Common.ParseStrFacts Model.Parse Model.XyzText Proofs.Parse Proofs.XyzText Proofs.ParseRecords
  Proofs.ParseSections Proofs.ParseAttr.
From Molli Require Import Gen.XyzElements.
Import ListNotations.
Local Open Scope list_scope.

Definition names := conv_names element_names.
Definition syms := conv_syms element_symbols.

(* the model readers are total functions and consume exactly one line per step: this IS their definition *)
Theorem C10_total_xyz : forall ls, read_xyz ls = xfinish (fold_left xstep ls xinit).
Proof. reflexivity. Qed.
Theorem C10_total_mol2 : forall ls, read_mol2 true ls = m2finish true (fold_left (m2step true) ls (m2init)).
Proof. reflexivity. Qed.

(* every molecule the xyz reader returns has exactly the atoms its own count line declares *)
Theorem C10_counts_xyz : forall zero_ok vocab ls ms, load_xyz_lines zero_ok vocab ls = Ok ms -> Forall mol_ok ms.
Proof.
  intros zero_ok f ls ms.
  unfold load_xyz_lines, res_bind. destruct (read_xyz ls) as [bs|e] eqn:E; [|discriminate].
  apply (all_ok_Forall _ xblock_ok); [apply xyz_build_ok|now apply read_xyz_counts with ls].
Qed.
Print Assumptions C10_counts_xyz.
(* every block / molecule the (repaired) mol2 reader returns has exactly the atom and bond records its own header declares *)
Theorem C10_counts_mol2_blocks : forall ls bs, read_mol2 true ls = Ok bs -> Forall m2block_ok bs.
Proof. exact read_mol2_counts. Qed.
Theorem C10_counts_mol2 : forall atype btype ls ms, load_mol2_lines true atype btype ls = Ok ms -> Forall mol2_ok ms.
Proof.
  intros atype btype ls ms.
  unfold load_mol2_lines, res_bind. destruct (read_mol2 true ls) as [bs|e] eqn:E; [|discriminate].
  apply (all_ok_Forall _ m2block_ok); [apply mol2_build_ok|now apply read_mol2_counts with ls].
Qed.
Print Assumptions C10_counts_mol2.

(* repaired in /repo: the reader that neither resets the records per molecule nor checks the counts
   returns the second molecule (3 atoms, 2 bonds declared, BOND section missing) with the ONE bond of the first *)
Definition f22_text : list str := map s2l
  ["@<TRIPOS>MOLECULE"; "two"; "2 1 0 0 0"; "SMALL"; "NO_CHARGES"; "";
   "@<TRIPOS>ATOM"; "1 C 0.0 0.0 0.0 C 1 U"; "2 C 1.0 0.0 0.0 C 1 U"; "@<TRIPOS>BOND"; "1 1 2 1";
   "@<TRIPOS>MOLECULE"; "three"; "3 2 0 0 0"; "SMALL"; "NO_CHARGES"; "";
   "@<TRIPOS>ATOM"; "1 C 0.0 0.0 0.0 C 1 U"; "2 C 1.0 0.0 0.0 C 1 U"; "3 C 2.0 0.0 0.0 C 1 U"]%string.
Theorem C10_counts_refuted_before_repair :
  match read_mol2 false f22_text with
  | Ok [_; b] => mh_nbonds (mk_hdr b) = Some 2%Z /\ List.length (mk_bonds b) = 1%nat
  | _ => False
  end /\ match read_mol2 true f22_text with Err _ => True | Ok _ => False end.
Proof. vm_compute. repeat split. Qed.

Theorem C10_truncate_lines_xyz : forall P zero_ok vocab bs ls ms,
  xwf_text P bs ls -> load_xyz_lines zero_ok vocab ls = Ok ms -> forall k,
  (exists e, load_xyz_lines zero_ok vocab (firstn k ls) = Err e) \/
  (exists j, load_xyz_lines zero_ok vocab (firstn k ls) = Ok (firstn j ms)).
Proof. exact load_xyz_truncated. Qed.
Print Assumptions C10_truncate_lines_xyz.
Theorem C10_truncate_lines_mol2 : forall atype btype bs ls ms,
  m2wf_text bs ls -> load_mol2_lines true atype btype ls = Ok ms -> forall k,
  (exists e, load_mol2_lines true atype btype (firstn k ls) = Err e) \/
  (exists j, load_mol2_lines true atype btype (firstn k ls) = Ok (firstn j ms)).
Proof.
  intros atype btype bs ls ms Hwf Hfull k. unfold load_mol2_lines, res_bind in *.
  destruct bs as [|b0 bs0].
  - inversion Hwf; subst. discriminate Hfull.
  - rewrite (read_mol2_wf _ ls Hwf) in Hfull by discriminate.
    destruct (read_mol2_truncated _ ls Hwf k) as [[e E]|[j E]]; rewrite E.
    + left. now exists e.
    + right. exists j. now apply all_ok_firstn.
Qed.
Print Assumptions C10_truncate_lines_mol2.
(* and the undamaged well-formed text reads as its blocks *)
Theorem C10_wf_reads_xyz : forall P bs ls, xwf_text P bs ls -> read_xyz ls = Ok bs.
Proof. exact read_xyz_wf. Qed.
Theorem C10_wf_reads_mol2 : forall bs ls, m2wf_text bs ls -> bs <> [] -> read_mol2 true ls = Ok bs.
Proof. exact read_mol2_wf. Qed.

(* the text molli writes for a 2-atom molecule; the mol2 hypotheses are satisfiable by it written twice
   (C10_mol2_wfs_nonvacuous, C10_mol2_wf_nonvacuous) *)
Definition ex_mol2 : list str := map s2l
  ["# Produced with molli package"; "@<TRIPOS>MOLECULE"; "two"; "2 1 0 0 0"; "SMALL"; "USER_CHARGES"; "";
   "@<TRIPOS>ATOM"; "     1 C       0.000000     0.000000     0.000000 C          1 UNL1 0.000";
   "     2 C       1.000000     0.000000     0.000000 C          1 UNL1 0.000"; "@<TRIPOS>BOND"; "     1      1      2   1"]%string.
(* comment_ok: the comment (name) line is not itself an integer -- see C10_comment_hypothesis_needed *)
Theorem C10_delete_line_xyz : forall zero_ok vocab bs ls i, xwf_text comment_ok bs ls -> (i < List.length ls)%nat ->
  exists e, load_xyz_lines zero_ok vocab (del_nth i ls) = Err e.
Proof. exact load_xyz_deleted. Qed.
Print Assumptions C10_delete_line_xyz.
Theorem C10_dup_line_xyz : forall zero_ok vocab bs ls i, xwf_text comment_ok bs ls -> (i < List.length ls)%nat ->
  exists e, load_xyz_lines zero_ok vocab (dup_nth i ls) = Err e.
Proof. exact load_xyz_duplicated. Qed.
Print Assumptions C10_dup_line_xyz.
(* why the hypothesis: with the name "2", deleting the count line of [3; 2; a1; a2; a3] leaves the well-formed text
   [2; a1; a2; a3], a DIFFERENT complete molecule -- no reader can notice (a format limit, like the cut inside the last token: C10_last_token_only) *)
Example C10_comment_hypothesis_needed :
  let t := map s2l ["3"; "2"; "C 0 0 0"; "H 1 0 0"; "H 2 0 0"]%string in
  match load_xyz names (del_nth 0 t) with Ok [m] => m_natoms m = 2%Z | _ => False end.
Proof. vm_compute. reflexivity. Qed.

Theorem C10_vocabulary : vocab_ok names syms = true.
Proof. vm_compute. reflexivity. Qed.
Theorem C10_written_truncated : forall gs ls, write_xyz syms gs = Some ls -> forall k,
  (exists e, load_xyz names (firstn k ls) = Err e) \/ (exists j, load_xyz names (firstn k ls) = Ok (firstn j (map geom_mol gs))).
Proof. intros gs ls. apply written_xyz_truncated. exact C10_vocabulary. Qed.
Theorem C10_written_deleted : forall gs ls i, Forall name_ok gs -> write_xyz syms gs = Some ls -> (i < List.length ls)%nat ->
  exists e, load_xyz names (del_nth i ls) = Err e.
Proof. intros gs ls i. apply written_xyz_deleted. exact C10_vocabulary. Qed.
Theorem C10_written_duplicated : forall gs ls i, Forall name_ok gs -> write_xyz syms gs = Some ls -> (i < List.length ls)%nat ->
  exists e, load_xyz names (dup_nth i ls) = Err e.
Proof. intros gs ls i. apply written_xyz_duplicated. exact C10_vocabulary. Qed.
Print Assumptions C10_written_deleted.
Example C10_written_nonvacuous :
  let gs := [mk_wgeom (s2l "w 1") [mk_watom 8 (true, 0%N) (false, 1234567%N) (true, 99999999999%N);
                                   mk_watom 17 (false, 5%N) (false, 0%N) (false, 1%N)];
             mk_wgeom (s2l "second") []] in
  Forall name_ok gs /\ match write_xyz syms gs with Some ls => List.length ls = 6%nat | None => False end.
Proof. split; [repeat (constructor; [vm_compute; reflexivity|]); constructor|vm_compute; reflexivity]. Qed.

(* the last line replaced by ANY line l' (in particular by each of its prefixes): an error, or the same molecules
   with the last atom replaced by what l' parses to *)
Theorem C10_last_line_xyz : forall P bs0 pre0 cl cm als ats n a last l',
  xwf_text P bs0 pre0 -> parse_int cl = Some n -> n = Z.of_nat (S (List.length ats)) ->
  Forall2 (fun l a => xyz_atom l = Some a) als ats -> xyz_atom last = Some a ->
  read_xyz (pre0 ++ cl :: cm :: als ++ [last]) = Ok (bs0 ++ [mk_xblock n (strip cm) (ats ++ [a])]) /\
  match xyz_atom l' with
  | None => exists e, read_xyz (pre0 ++ cl :: cm :: als ++ [l']) = Err e
  | Some a' => read_xyz (pre0 ++ cl :: cm :: als ++ [l']) = Ok (bs0 ++ [mk_xblock n (strip cm) (ats ++ [a'])])
  end.
Proof. exact read_xyz_last_line. Qed.
(* a cut at a token boundary of the last line: an error, or exactly the undamaged result *)
Theorem C10_truncate_tokens_xyz : forall P bs0 pre0 cl cm als ats n a last l' j,
  xwf_text P bs0 pre0 -> parse_int cl = Some n -> n = Z.of_nat (S (List.length ats)) ->
  Forall2 (fun l a => xyz_atom l = Some a) als ats -> xyz_atom last = Some a ->
  split l' = firstn j (split last) ->
  (exists e, read_xyz (pre0 ++ cl :: cm :: als ++ [l']) = Err e) \/
  read_xyz (pre0 ++ cl :: cm :: als ++ [l']) = read_xyz (pre0 ++ cl :: cm :: als ++ [last]).
Proof.
  intros P bs0 pre0 cl cm als ats n a last l' j Hpre Hc Hn HF Ha Hs.
  destruct (read_xyz_last_line P bs0 pre0 cl cm als ats n a last l' Hpre Hc Hn HF Ha) as [Hfull Hcut].
  pose proof (xyz_atom_tokens last a Ha) as H4.
  destruct (le_lt_dec 4 j) as [Hge|Hlt].
  - right. rewrite firstn_all2 in Hs by lia. rewrite (xyz_atom_split_eq l' last Hs), Ha in Hcut. now rewrite Hcut, Hfull.
  - left. rewrite xyz_atom_few in Hcut; [exact Hcut|]. rewrite Hs, firstn_length. lia.
Qed.
(* a format limit, recorded among the known findings: a cut at ANY byte offset b of the last record that is still accepted yields
   an atom that differs from the original at most in its LAST token, which is then a proper prefix of the
   original token (3.456700 -> 3.4): symbol, x and y are untouched *)
Theorem C10_last_token_only : forall last a b a', xyz_atom last = Some a -> xyz_atom (firstn b last) = Some a' ->
  xa_sym a' = xa_sym a /\ xa_x a' = xa_x a /\ xa_y a' = xa_y a /\
  (a' = a \/ exists t zt, nth 3 (split last) [] = zt /\ nprefix t zt /\ parse_float t = Some (xa_z a')).
Proof.
  intros last a b a'. unfold xyz_atom. intros Ha Ha'. destruct (split_firstn last b) as [j [p [E Hp]]].
  destruct (split last) as [|s [|x [|y [|z [|w r]]]]] eqn:Es; try discriminate.
  destruct (parse_float x) as [fx|] eqn:Ex; [|discriminate]. destruct (parse_float y) as [fy|] eqn:Ey; [|discriminate].
  destruct (parse_float z) as [fz|] eqn:Ez; [|discriminate]. injection Ha as <-.
  rewrite E in Ha'. destruct Hp as [->|[t [-> Ht]]].
  - rewrite app_nil_r in Ha'. destruct j as [|[|[|[|[|j]]]]]; simpl in Ha'; try discriminate.
    + rewrite Ex, Ey, Ez in Ha'. injection Ha' as <-. simpl. auto.
    + rewrite Ex, Ey, Ez in Ha'. injection Ha' as <-. simpl. auto.
  - destruct j as [|[|[|[|[|j]]]]]; simpl in Ha'; try discriminate.
    rewrite Ex, Ey in Ha'. destruct (parse_float t) as [ft|] eqn:Et; [|discriminate]. injection Ha' as <-. simpl.
    repeat split; auto. right. exists t, z. simpl in Ht. auto.
Qed.
Print Assumptions C10_last_token_only.
Example C10_known_last_token_witness :
  let last := s2l "C     1.000000     2.000000     3.456700" in
  match xyz_atom last, xyz_atom (firstn 35 last) with
  | Some a, Some a' => xa_z a = FNum false 3456700 (-6) /\ xa_z a' = FNum false 34 (-1)
  | _, _ => False
  end.
Proof. vm_compute. split; reflexivity. Qed.

(* m2wfs_text = m2wf_text plus what makes a shifted line unmistakable: the name line is not a TRIPOS record and
   not a list of integers, mol_type is not a list of integers, the charge-type line is neither a record nor "****",
   record lines are not blank/comment/TRIPOS lines, section records have fewer than 4 tokens, and a blank/comment
   line in front of a molecule can never be taken for a bond record (see C10_mol2_wfs_nonvacuous: all of this holds
   for the text molli writes).  Result: an exception, or exactly the molecules of the undamaged text. *)
Theorem C10_delete_line_mol2 : forall atype btype bs ls ms i,
  m2wfs_text bs ls -> load_mol2_lines true atype btype ls = Ok ms -> (i < List.length ls)%nat ->
  (exists e, load_mol2_lines true atype btype (del_nth i ls) = Err e) \/ load_mol2_lines true atype btype (del_nth i ls) = Ok ms.
Proof. intros atype btype bs ls ms i H Hfull Hi. apply (damaged_load _ _ bs ls); auto; [lia|now apply read_mol2_deleted]. Qed.
Print Assumptions C10_delete_line_mol2.
Theorem C10_dup_line_mol2 : forall atype btype bs ls ms i,
  m2wfs_text bs ls -> load_mol2_lines true atype btype ls = Ok ms -> (i < List.length ls)%nat ->
  (exists e, load_mol2_lines true atype btype (dup_nth i ls) = Err e) \/ load_mol2_lines true atype btype (dup_nth i ls) = Ok ms.
Proof. intros atype btype bs ls ms i H Hfull Hi. apply (damaged_load _ _ bs ls); auto; [lia|now apply read_mol2_duplicated]. Qed.
Print Assumptions C10_dup_line_mol2.
(* at block level the three possible outcomes are: exception / the same blocks up to the (unobserved) charge-type
   field / a block holding a record that the conversion layer is bound to refuse *)
Theorem C10_delete_line_mol2_blocks : forall bs ls i, m2wfs_text bs ls -> (i < List.length ls)%nat ->
  damaged_result (read_mol2 true (del_nth i ls)) bs.
Proof. exact read_mol2_deleted. Qed.

Example C10_mol2_wfs_nonvacuous : exists bs, m2wfs_text bs (ex_mol2 ++ ex_mol2) /\ List.length bs = 2%nat.
Proof.
  assert (H : exists b, m2wfs b ex_mol2).
  { eexists. unfold ex_mol2. cbn [map].
    eapply (m2wfs_intro [_] _ _ _ _ _ _ _ [_; _] _ [_]).
    - constructor; [right; eexists; vm_compute; reflexivity|constructor].
    - do 2 eexists. repeat split; vm_compute; reflexivity.
    - vm_compute. reflexivity.
    - split; vm_compute; reflexivity.
    - do 2 eexists. repeat split; vm_compute; reflexivity.
    - instantiate (1 := [_; _]). reflexivity.
    - constructor; [split; [reflexivity|vm_compute; lia]|constructor; [split; [reflexivity|vm_compute; lia]|constructor]].
    - do 2 eexists. repeat split; vm_compute; reflexivity.
    - instantiate (1 := [_]). reflexivity.
    - constructor; [split; [reflexivity|vm_compute; lia]|constructor].
    - constructor; [right; intros btype n; eexists; vm_compute; reflexivity|constructor].
    - vm_compute. lia.
    - vm_compute. reflexivity.
    - intros n c. eexists. vm_compute. reflexivity.
    - do 2 eexists. repeat split; vm_compute; reflexivity.
    - intros n c. eexists. vm_compute. reflexivity.
    - split; vm_compute; reflexivity.
    - vm_compute. lia.
    - vm_compute. lia.
    - repeat (constructor; [do 2 eexists; repeat split; vm_compute; reflexivity|]). constructor.
    - repeat (constructor; [do 2 eexists; repeat split; vm_compute; reflexivity|]). constructor. }
  destruct H as [b Hb]. exists [b; b]. split; [|reflexivity].
  rewrite <- (app_nil_r (ex_mol2 ++ ex_mol2)), <- app_assoc. repeat constructor; assumption.
Qed.

(* and so are the weaker hypotheses of the truncation theorems *)
Example C10_mol2_wf_nonvacuous : exists bs, m2wf_text bs (ex_mol2 ++ ex_mol2) /\ List.length bs = 2%nat.
Proof. destruct C10_mol2_wfs_nonvacuous as (bs & H & L). exists bs. split; [now apply m2wfs_text_wf|exact L]. Qed.

(* The count check cannot see a record that was cut mid-line or lost a token (the NUMBER of records is unchanged); what
   rejects it is the column count of the record parser.  The hypotheses are the components of m2wf (a well-formed text
   pre0 of blocks bs0 followed by one more molecule: blank/comment lines, the MOLECULE record, five header lines, the
   ATOM section); the damaged line l' is ARBITRARY, so each prefix of the original record and the record with any token
   dropped are covered, and so is anything that follows the line (post). *)
Theorem C10_short_atom_record_mol2 : forall bs0 pre0 ign lm name counts mtype ctype status la als h atoms,
  m2wf_text bs0 pre0 -> Forall ignorable ign -> is_sec lm SMolecule ->
  m2header (strip name) (strip counts) (strip ctype) = Ok h -> plain_status status -> is_sec la SAtom ->
  mh_natoms h = Z.of_nat (List.length atoms) -> Forall2 atom_line_of als atoms ->
  forall j l' post, (j < List.length als)%nat -> few_tokens 5 l' ->
  exists e, read_mol2 true (pre0 ++ ign ++ lm :: name :: counts :: mtype :: ctype :: status ::
                            la :: firstn j als ++ l' :: post) = Err e.
Proof. exact read_mol2_short_atom. Qed.
Print Assumptions C10_short_atom_record_mol2.
(* bls0: the bond records in front of the damaged one; the header declares more than these *)
Theorem C10_short_bond_record_mol2 : forall bs0 pre0 ign lm name counts mtype ctype status la lb als h atoms,
  m2wf_text bs0 pre0 -> Forall ignorable ign -> is_sec lm SMolecule ->
  m2header (strip name) (strip counts) (strip ctype) = Ok h -> plain_status status -> is_sec la SAtom ->
  mh_natoms h = Z.of_nat (List.length atoms) -> Forall2 atom_line_of als atoms ->
  forall bls0 bonds0, is_sec lb SBond ->
  forall nb l' post, mh_nbonds h = Some nb -> (Z.of_nat (List.length bls0) < nb)%Z ->
  Forall2 bond_line_of bls0 bonds0 -> few_tokens 4 l' ->
  exists e, read_mol2 true (pre0 ++ ign ++ lm :: name :: counts :: mtype :: ctype :: status ::
                            la :: als ++ lb :: bls0 ++ l' :: post) = Err e.
Proof. exact read_mol2_short_bond. Qed.
Print Assumptions C10_short_bond_record_mol2.
(* the last bond record of a text replaced by ANY line (mol2 counterpart of C10_last_line_xyz): an exception, or the same
   blocks with exactly that record replaced by the tokens of l' *)
Theorem C10_last_bond_line_mol2 : forall bs0 pre0 ign lm name counts mtype ctype status la lb als h atoms,
  m2wf_text bs0 pre0 -> Forall ignorable ign -> is_sec lm SMolecule ->
  m2header (strip name) (strip counts) (strip ctype) = Ok h -> plain_status status -> is_sec la SAtom ->
  mh_natoms h = Z.of_nat (List.length atoms) -> Forall2 atom_line_of als atoms ->
  forall bls0 bonds0, is_sec lb SBond -> mh_nbonds h = Some (Z.of_nat (S (List.length bonds0))) ->
  Forall2 bond_line_of bls0 bonds0 -> forall l',
  let text := pre0 ++ ign ++ lm :: name :: counts :: mtype :: ctype :: status :: la :: als ++ lb :: bls0 ++ [l'] in
  (few_tokens 4 l' -> exists e, read_mol2 true text = Err e) /\
  (~ few_tokens 4 l' -> read_mol2 true text = Ok (bs0 ++ [mk_m2block h atoms (bonds0 ++ [mk_m2bond (split (strip l'))])])).
Proof. exact read_mol2_last_bond_line. Qed.
Print Assumptions C10_last_bond_line_mol2.
(* a cut at a token boundary of the last bond record: an exception, or exactly the molecules of the undamaged text
   (mol2 counterpart of C10_truncate_tokens_xyz; `last` is the undamaged record) *)
Theorem C10_truncate_tokens_mol2 : forall bs0 pre0 ign lm name counts mtype ctype status la lb als h atoms,
  m2wf_text bs0 pre0 -> Forall ignorable ign -> is_sec lm SMolecule ->
  m2header (strip name) (strip counts) (strip ctype) = Ok h -> plain_status status -> is_sec la SAtom ->
  mh_natoms h = Z.of_nat (List.length atoms) -> Forall2 atom_line_of als atoms ->
  forall bls0 bonds0, is_sec lb SBond -> mh_nbonds h = Some (Z.of_nat (S (List.length bonds0))) ->
  Forall2 bond_line_of bls0 bonds0 -> forall atype btype last l' j,
  ~ few_tokens 4 last -> split (strip l') = firstn j (split (strip last)) ->
  let text x := pre0 ++ ign ++ lm :: name :: counts :: mtype :: ctype :: status :: la :: als ++ lb :: bls0 ++ [x] in
  (exists e, load_mol2_lines true atype btype (text l') = Err e) \/
  load_mol2_lines true atype btype (text l') = load_mol2_lines true atype btype (text last).
Proof. exact load_mol2_cut_token_boundary. Qed.
Print Assumptions C10_truncate_tokens_mol2.

(* the hypotheses are satisfiable: the second molecule of ex_mol2 ++ ex_mol2 with its only bond record `1 1 2 1` cut to
   `1 1 2` (and, with a default for the type column, that line would read as a complete bond) *)
Example C10_short_bond_nonvacuous :
  exists e, read_mol2 true (ex_mol2 ++ removelast ex_mol2 ++ [s2l "     1      1      2"]) = Err e.
Proof.
  assert (H : exists b, m2wf b ex_mol2).
  { eexists. unfold ex_mol2. cbn [map].
    eapply (m2wf_intro [_] _ _ _ _ _ _ _ [_; _] _ [_]).
    - constructor; [right; eexists; vm_compute; reflexivity|constructor].
    - do 2 eexists. repeat split; vm_compute; reflexivity.
    - vm_compute. reflexivity.
    - split; vm_compute; reflexivity.
    - do 2 eexists. repeat split; vm_compute; reflexivity.
    - instantiate (1 := [_; _]). reflexivity.
    - constructor; [split; [reflexivity|vm_compute; lia]|constructor; [split; [reflexivity|vm_compute; lia]|constructor]].
    - do 2 eexists. repeat split; vm_compute; reflexivity.
    - instantiate (1 := [_]). reflexivity.
    - constructor; [split; [reflexivity|vm_compute; lia]|constructor]. }
  destruct H as [b Hb].
  assert (Ht : m2wf_text [b] ex_mol2).
  { rewrite <- (app_nil_r ex_mol2). repeat constructor. exact Hb. }
  unfold ex_mol2 at 2. cbn [map removelast app].
  eapply C10_short_bond_record_mol2 with (bs0 := [b]) (pre0 := ex_mol2) (ign := [_]) (als := [_; _]) (atoms := [_; _])
    (bls0 := []) (bonds0 := []) (nb := 1%Z) (post := []).
  all: try exact Ht.
  - constructor; [right; eexists; vm_compute; reflexivity|constructor].
  - do 2 eexists. repeat split; vm_compute; reflexivity.
  - vm_compute. reflexivity.
  - split; vm_compute; reflexivity.
  - do 2 eexists. repeat split; vm_compute; reflexivity.
  - reflexivity.
  - constructor; [split; [reflexivity|vm_compute; lia]|constructor; [split; [reflexivity|vm_compute; lia]|constructor]].
  - do 2 eexists. repeat split; vm_compute; reflexivity.
  - reflexivity.
  - reflexivity.
  - constructor.
  - vm_compute. lia.
Qed.

(* The theorems above speak about texts in the layout molli writes (MOLECULE, ATOM, BOND).  A mol2 text may carry any other
   TRIPOS sections, anywhere; the reader skips the lines of those it does not know, and while it skips, the "unexpected
   syntax" guard of its main loop -- the only thing that refuses a surplus line after a complete ATOM / BOND section -- is
   off.  Below, the prefix `pre` of the text is ARBITRARY (any sections, any order, damaged or not): it only has to leave
   the reader in its main loop (state v, whatever its skip flag). *)
(* a TRIPOS record is dispatched the same whatever the skip flag, and every supported one leaves the flag cleared *)
Theorem C10_tag_any_skip_mol2 : forall v b l, is_tag l ->
  m2step true (MRun MMain (set_skip b v)) l = m2step true (MRun MMain v) l.
Proof. exact tag_any_skip. Qed.
Theorem C10_tag_clears_skip_mol2 : forall v l s m v', is_sec l s -> s <> SOther ->
  m2step true (MRun MMain v) l = MRun m v' -> v_skip v' = false.
Proof. exact tag_clears_skip. Qed.
(* unsupported blocks (and blank / comment lines) in front of a TRIPOS record, or at the end of the text, carry nothing *)
Theorem C10_unsupported_erasable_mol2 : forall pre X t rest v, m2run true m2init pre = MRun MMain v -> skippable X -> is_tag t ->
  read_mol2 true (pre ++ X ++ t :: rest) = read_mol2 true (pre ++ t :: rest).
Proof. exact unsupported_erasable. Qed.
Theorem C10_unsupported_erasable_end_mol2 : forall pre X v, m2run true m2init pre = MRun MMain v -> skippable X ->
  read_mol2 true (pre ++ X) = read_mol2 true pre.
Proof. exact unsupported_erasable_end. Qed.
Print Assumptions C10_unsupported_erasable_mol2.
(* a complete ATOM / BOND section followed by a line that is not blank, not a comment and not a TRIPOS record: refused *)
Theorem C10_surplus_after_atoms_mol2 : forall pre v h la als atoms x post,
  m2run true m2init pre = MRun MMain v -> v_hdr v = Some h -> is_sec la SAtom ->
  mh_natoms h = Z.of_nat (List.length atoms) -> Forall2 atom_line_of als atoms -> other_line x ->
  exists e, read_mol2 true (pre ++ la :: als ++ x :: post) = Err e.
Proof. exact surplus_after_atoms. Qed.
Print Assumptions C10_surplus_after_atoms_mol2.
Theorem C10_surplus_after_bonds_mol2 : forall pre v h lb bls bonds x post,
  m2run true m2init pre = MRun MMain v -> v_hdr v = Some h -> is_sec lb SBond ->
  mh_nbonds h = Some (Z.of_nat (List.length bonds)) -> Forall2 bond_line_of bls bonds -> other_line x ->
  exists e, read_mol2 true (pre ++ lb :: bls ++ x :: post) = Err e.
Proof. exact surplus_after_bonds. Qed.
Print Assumptions C10_surplus_after_bonds_mol2.
(* more record lines than the header declares / one record duplicated: refused, never "first n records, rest dropped" *)
Theorem C10_too_many_atom_records_mol2 : forall pre v h la als atoms n post,
  m2run true m2init pre = MRun MMain v -> v_hdr v = Some h -> is_sec la SAtom ->
  mh_natoms h = Z.of_nat n -> Forall2 atom_line_of als atoms -> Forall other_line als -> (n < List.length als)%nat ->
  exists e, read_mol2 true (pre ++ la :: als ++ post) = Err e.
Proof. exact too_many_atom_records. Qed.
Theorem C10_too_many_bond_records_mol2 : forall pre v h lb bls bonds n post,
  m2run true m2init pre = MRun MMain v -> v_hdr v = Some h -> is_sec lb SBond ->
  mh_nbonds h = Some (Z.of_nat n) -> Forall2 bond_line_of bls bonds -> Forall other_line bls -> (n < List.length bls)%nat ->
  exists e, read_mol2 true (pre ++ lb :: bls ++ post) = Err e.
Proof. exact too_many_bond_records. Qed.
Theorem C10_dup_atom_record_sectioned_mol2 : forall pre v h la als atoms j post,
  m2run true m2init pre = MRun MMain v -> v_hdr v = Some h -> is_sec la SAtom ->
  mh_natoms h = Z.of_nat (List.length atoms) -> Forall2 atom_line_of als atoms -> Forall other_line als ->
  (j < List.length als)%nat ->
  exists e, read_mol2 true (pre ++ la :: dup_nth j als ++ post) = Err e.
Proof.
  intros * Hpre Hh Hla Hna HFa Hoth Hj.
  apply (too_many_atom_records pre v h la _ (dup_nth j atoms) (List.length atoms) post); auto using Forall2_dup_nth, dup_nth_Forall.
  rewrite dup_nth_length, <- (Forall2_length HFa) by exact Hj. lia.
Qed.
Print Assumptions C10_dup_atom_record_sectioned_mol2.
Theorem C10_dup_bond_record_sectioned_mol2 : forall pre v h lb bls bonds j post,
  m2run true m2init pre = MRun MMain v -> v_hdr v = Some h -> is_sec lb SBond ->
  mh_nbonds h = Some (Z.of_nat (List.length bonds)) -> Forall2 bond_line_of bls bonds -> Forall other_line bls ->
  (j < List.length bls)%nat ->
  exists e, read_mol2 true (pre ++ lb :: dup_nth j bls ++ post) = Err e.
Proof.
  intros * Hpre Hh Hlb Hnb HFb Hoth Hj.
  apply (too_many_bond_records pre v h lb _ (dup_nth j bonds) (List.length bonds) post); auto using Forall2_dup_nth, dup_nth_Forall.
  rewrite dup_nth_length, <- (Forall2_length HFb) by exact Hj. lia.
Qed.
Print Assumptions C10_dup_bond_record_sectioned_mol2.

(* the hypotheses are satisfiable with the skip state ENTERED: a molecule whose header is followed by an unsupported COMMENT
   block leaves the reader in its main loop with the flag set; its ATOM section with either record duplicated is refused,
   whatever follows; and the block in front of the ATOM record can be erased *)
Definition ex_sect_pre : list str := map s2l
  ["@<TRIPOS>MOLECULE"; "two"; "2 1 0 0 0"; "SMALL"; "USER_CHARGES"; ""; "@<TRIPOS>COMMENT"; "written by another program"]%string.
Definition ex_sect_la : str := s2l "@<TRIPOS>ATOM".
Definition ex_sect_atoms : list str := map s2l
  ["     1 C       0.000000     0.000000     0.000000 C          1 UNL1 0.000";
   "     2 C       1.000000     0.000000     0.000000 C          1 UNL1 0.000"]%string.
Example C10_sectioned_nonvacuous :
  (exists v h, m2run true m2init ex_sect_pre = MRun MMain v /\ v_skip v = true /\ v_hdr v = Some h /\ mh_natoms h = 2%Z) /\
  (forall j post, (j < 2)%nat -> exists e, read_mol2 true (ex_sect_pre ++ ex_sect_la :: dup_nth j ex_sect_atoms ++ post) = Err e) /\
  (forall rest, read_mol2 true (firstn 6 ex_sect_pre ++ skipn 6 ex_sect_pre ++ ex_sect_la :: rest)
                = read_mol2 true (firstn 6 ex_sect_pre ++ ex_sect_la :: rest)).
Proof.
  split; [|split].
  - do 2 eexists. repeat split; vm_compute; reflexivity.
  - intros j post Hj.
    eapply C10_dup_atom_record_sectioned_mol2 with (atoms := [_; _]).
    + vm_compute. reflexivity.
    + reflexivity.
    + do 2 eexists. repeat split; vm_compute; reflexivity.
    + reflexivity.
    + constructor; [split; [reflexivity|vm_compute; lia]|constructor; [split; [reflexivity|vm_compute; lia]|constructor]].
    + repeat (constructor; [do 2 eexists; repeat split; vm_compute; reflexivity|]). constructor.
    + exact Hj.
  - intros rest. eapply C10_unsupported_erasable_mol2.
    + vm_compute. reflexivity.
    + cbn [skipn ex_sect_pre map]. apply (sk_sec _ [_] []).
      * do 2 eexists. repeat split; vm_compute; reflexivity.
      * constructor; [vm_compute; reflexivity|constructor].
      * constructor.
    + do 2 eexists. split; vm_compute; reflexivity.
Qed.

(* UNITY_ATOM_ATTR / UNITY_BOND_ATTR: `<id> <n_attr>` followed by exactly n_attr `<name> <value>` lines.  The ATOM / BOND counts
   of the header are met whatever happens in there.  `pre` is ANY prefix that leaves the reader inside such a section. *)
Theorem C10_unity_atom_group_short_mol2 : forall pre v hd idx n als tl, m2run true m2init pre = MRun MUAtom v ->
  tripos_name (strip hd) = None -> two_ints (strip hd) = Some (idx, n) -> Forall two_tok als ->
  (Z.of_nat (List.length als) < n)%Z -> closes tl ->
  exists e, read_mol2 true (pre ++ hd :: als ++ tl) = Err e.
Proof. intros * Hp **. apply (fails_read _ _ _ Hp). eapply (unity_group_short _ _ us_atom); eauto. Qed.
Theorem C10_unity_atom_attr_deleted_mol2 : forall pre v hd idx n als i tl, m2run true m2init pre = MRun MUAtom v ->
  tripos_name (strip hd) = None -> two_ints (strip hd) = Some (idx, n) -> Forall two_tok als ->
  Z.of_nat (List.length als) = n -> (i < List.length als)%nat -> closes tl ->
  exists e, read_mol2 true (pre ++ hd :: del_nth i als ++ tl) = Err e.
Proof. intros * Hp **. apply (fails_read _ _ _ Hp). eapply (unity_attr_deleted _ _ us_atom); eauto. Qed.
Print Assumptions C10_unity_atom_attr_deleted_mol2.
Theorem C10_unity_atom_attr_deleted_before_group_mol2 : forall pre v hd idx n als i g y rest, m2run true m2init pre = MRun MUAtom v ->
  tripos_name (strip hd) = None -> two_ints (strip hd) = Some (idx, n) -> Forall two_tok als ->
  Z.of_nat (List.length als) = n -> (i < List.length als)%nat ->
  two_tok g -> tripos_name (strip y) = None -> two_ints (strip y) = None ->
  exists e, read_mol2 true (pre ++ hd :: del_nth i als ++ g :: y :: rest) = Err e.
Proof. intros * Hp **. apply (fails_read _ _ _ Hp). eapply (unity_attr_deleted_before_group _ _ us_atom); eauto. Qed.
Print Assumptions C10_unity_atom_attr_deleted_before_group_mol2.
Theorem C10_unity_atom_header_bad_mol2 : forall pre v l rest, m2run true m2init pre = MRun MUAtom v ->
  tripos_name (strip l) = None -> two_ints (strip l) = None ->
  exists e, read_mol2 true (pre ++ l :: rest) = Err e.
Proof. intros * Hp **. apply (fails_read _ _ _ Hp). eapply (unity_header_bad _ _ us_atom); eauto. Qed.
Theorem C10_unity_bond_group_short_mol2 : forall pre v hd idx n als tl, m2run true m2init pre = MRun MUBond v ->
  tripos_name (strip hd) = None -> two_ints (strip hd) = Some (idx, n) -> Forall two_tok als ->
  (Z.of_nat (List.length als) < n)%Z -> closes tl ->
  exists e, read_mol2 true (pre ++ hd :: als ++ tl) = Err e.
Proof. intros * Hp **. apply (fails_read _ _ _ Hp). eapply (unity_group_short _ _ us_bond); eauto. Qed.
Theorem C10_unity_bond_attr_deleted_mol2 : forall pre v hd idx n als i tl, m2run true m2init pre = MRun MUBond v ->
  tripos_name (strip hd) = None -> two_ints (strip hd) = Some (idx, n) -> Forall two_tok als ->
  Z.of_nat (List.length als) = n -> (i < List.length als)%nat -> closes tl ->
  exists e, read_mol2 true (pre ++ hd :: del_nth i als ++ tl) = Err e.
Proof. intros * Hp **. apply (fails_read _ _ _ Hp). eapply (unity_attr_deleted _ _ us_bond); eauto. Qed.
Print Assumptions C10_unity_bond_attr_deleted_mol2.
Theorem C10_unity_bond_attr_deleted_before_group_mol2 : forall pre v hd idx n als i g y rest, m2run true m2init pre = MRun MUBond v ->
  tripos_name (strip hd) = None -> two_ints (strip hd) = Some (idx, n) -> Forall two_tok als ->
  Z.of_nat (List.length als) = n -> (i < List.length als)%nat ->
  two_tok g -> tripos_name (strip y) = None -> two_ints (strip y) = None ->
  exists e, read_mol2 true (pre ++ hd :: del_nth i als ++ g :: y :: rest) = Err e.
Proof. intros * Hp **. apply (fails_read _ _ _ Hp). eapply (unity_attr_deleted_before_group _ _ us_bond); eauto. Qed.
Theorem C10_unity_bond_header_bad_mol2 : forall pre v l rest, m2run true m2init pre = MRun MUBond v ->
  tripos_name (strip l) = None -> two_ints (strip l) = None ->
  exists e, read_mol2 true (pre ++ l :: rest) = Err e.
Proof. intros * Hp **. apply (fails_read _ _ _ Hp). eapply (unity_header_bad _ _ us_bond); eauto. Qed.

(* the hypotheses are satisfiable: a molecule up to its UNITY_ATOM_ATTR record leaves the reader inside the section; the group
   `1 2` / `charge 1` / `tag x9` with either attribute line deleted is refused in front of the closing TRIPOS record, at the end
   of the text, and in front of another group with an attribute.  What is NOT refused is the format limit: an attribute line
   deleted in front of a group that declares no attribute, followed by a further well-formed group -- the damaged text is a
   well-formed section itself (recorded known finding optional-section:damaged-text-still-well-formed). *)
Definition ex_unity_pre : list str := map s2l
  ["@<TRIPOS>MOLECULE"; "two"; "2 1 0 0 0"; "SMALL"; "NO_CHARGES"; ""; "@<TRIPOS>ATOM";
   "     1 N       0.000000     0.000000     0.000000 N.4        1 UNL1";
   "     2 C       1.000000     0.000000     0.000000 C.3        1 UNL1"; "@<TRIPOS>UNITY_ATOM_ATTR"]%string.
Definition ex_unity_hd : str := s2l "1 2".
Definition ex_unity_attrs : list str := map s2l ["charge 1"; "tag x9"]%string.
Definition ex_unity_bond : list str := map s2l ["@<TRIPOS>BOND"; "     1      1      2   1"]%string.
Example C10_unity_nonvacuous :
  (exists v, m2run true m2init ex_unity_pre = MRun MUAtom v) /\
  (exists bs, read_mol2 true (ex_unity_pre ++ ex_unity_hd :: ex_unity_attrs ++ ex_unity_bond) = Ok bs) /\
  (forall i, (i < 2)%nat -> exists e, read_mol2 true (ex_unity_pre ++ ex_unity_hd :: del_nth i ex_unity_attrs ++ ex_unity_bond) = Err e) /\
  (forall i, (i < 2)%nat -> exists e, read_mol2 true (ex_unity_pre ++ ex_unity_hd :: del_nth i ex_unity_attrs ++ []) = Err e) /\
  (forall i rest, (i < 2)%nat ->
     exists e, read_mol2 true (ex_unity_pre ++ ex_unity_hd :: del_nth i ex_unity_attrs ++ s2l "2 1" :: s2l "color red" :: rest) = Err e).
Proof.
  assert (HF : Forall two_tok ex_unity_attrs) by (repeat constructor).
  (* the reader's state after the prefix, computed once: left to unification it is re-evaluated, slowly, at Qed *)
  assert (Hpre : exists v, m2run true m2init ex_unity_pre = MRun MUAtom v) by (eexists; vm_compute; reflexivity).
  destruct Hpre as [v Hpre].
  split; [eauto|]. split; [eexists; vm_compute; reflexivity|]. split; [|split].
  - intros i Hi. eapply C10_unity_atom_attr_deleted_mol2 with (n := 2%Z); try exact Hpre; try reflexivity; try exact HF; try exact Hi.
    right. do 2 eexists. split; [reflexivity|]. vm_compute. discriminate.
  - intros i Hi. eapply C10_unity_atom_attr_deleted_mol2 with (n := 2%Z); try exact Hpre; try reflexivity; try exact HF; try exact Hi.
    left. reflexivity.
  - intros i rest Hi. eapply C10_unity_atom_attr_deleted_before_group_mol2 with (n := 2%Z); try exact Hpre; try reflexivity; try exact HF; exact Hi.
Qed.
Example C10_unity_format_limit : exists bs,
  read_mol2 true (ex_unity_pre ++ del_nth 1 (map s2l ["1 1"; "charge 1"; "2 0"; "2 1"; "tag x9"]%string) ++ ex_unity_bond) = Ok bs.
Proof. eexists. vm_compute. reflexivity. Qed.

(* the molecules of a multi-record text are the molecules of its records read one by one, in order -- whatever their sizes *)
Theorem C10_records_one_by_one_xyz : forall P zero_ok vocab bs1 ls1 bs2 ls2 ms1 ms2,
  xwf_text P bs1 ls1 -> xwf_text P bs2 ls2 ->
  load_xyz_lines zero_ok vocab ls1 = Ok ms1 -> load_xyz_lines zero_ok vocab ls2 = Ok ms2 ->
  load_xyz_lines zero_ok vocab (ls1 ++ ls2) = Ok (ms1 ++ ms2).
Proof. exact load_xyz_concat. Qed.
Print Assumptions C10_records_one_by_one_xyz.
Theorem C10_records_one_by_one_mol2 : forall atype btype bs1 ls1 bs2 ls2 ms1 ms2,
  m2wf_text bs1 ls1 -> m2wf_text bs2 ls2 -> bs1 <> [] -> bs2 <> [] ->
  load_mol2_lines true atype btype ls1 = Ok ms1 -> load_mol2_lines true atype btype ls2 = Ok ms2 ->
  load_mol2_lines true atype btype (ls1 ++ ls2) = Ok (ms1 ++ ms2).
Proof. exact load_mol2_concat. Qed.
Print Assumptions C10_records_one_by_one_mol2.
